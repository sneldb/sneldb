(** Model of [parse_command] (src/command/parser/command.rs): trim, tokenize + validate, the
    switch on the first word, and the per-command parsers that are modelled:
    QUERY/FIND (Model/Parser.v), REPLAY and STORE (peg grammars), REMEMBER (string slicing
    around the last ' AS '), and the token parsers PING, FLUSH, LIST USERS, SHOW,
    SHOW PERMISSIONS, REVOKE KEY, GRANT, REVOKE, CREATE USER.
    DEFINE, BATCH and PLOT (Model/PlotQL.v) are modelled as well, DEFINE and BATCH up to the result
    [PUnmodelled] (see [unmodelled] below for what is left undecided).  Also the dispatch table of
    src/command/dispatcher.rs, from Gen/Params.v.
    Executable definitions only. *)
From Coq Require Import NArith ZArith List Bool.
From Snel Require Import Base.Bytes Model.Tokenizer Model.Parser Model.PlotQL Gen.Params.
Import ListNotations.
Open Scope N_scope.

(** * [str::trim]: Unicode White_Space, as UTF-8 byte sequences *)

Definition uws_seqs : list bytes :=
  [ [194; 133]; [194; 160]; [225; 154; 128];
    [226; 128; 128]; [226; 128; 129]; [226; 128; 130]; [226; 128; 131]; [226; 128; 132];
    [226; 128; 133]; [226; 128; 134]; [226; 128; 135]; [226; 128; 136]; [226; 128; 137];
    [226; 128; 138]; [226; 128; 168]; [226; 128; 169]; [226; 128; 175]; [226; 129; 159];
    [227; 128; 128] ].

Fixpoint strip_prefix (p s : bytes) : option bytes :=
  match p, s with
  | [], _ => Some s
  | x :: p', y :: s' => if x =? y then strip_prefix p' s' else None
  | _ :: _, [] => None
  end.

Fixpoint strip_any (ps : list bytes) (s : bytes) : option bytes :=
  match ps with
  | [] => None
  | p :: ps' => match strip_prefix p s with Some r => Some r | None => strip_any ps' s end
  end.

Fixpoint utrim_start_fuel (fuel : nat) (s : bytes) : bytes :=
  match fuel with
  | O => s
  | S f =>
      match s with
      | [] => []
      | c :: r =>
          if is_ascii_ws c then utrim_start_fuel f r
          else match strip_any uws_seqs s with
               | Some r' => utrim_start_fuel f r'
               | None => s
               end
      end
  end.
Definition utrim_start (s : bytes) : bytes := utrim_start_fuel (length s) s.
(** trimming from the end must match the reversed byte sequences *)
Fixpoint utrim_end_fuel (fuel : nat) (rs : bytes) : bytes :=
  match fuel with
  | O => rs
  | S f =>
      match rs with
      | [] => []
      | c :: r =>
          if is_ascii_ws c then utrim_end_fuel f r
          else match strip_any (map (@frev N) uws_seqs) rs with
               | Some r' => utrim_end_fuel f r'
               | None => rs
               end
      end
  end.
Definition utrim_e (s : bytes) : bytes := frev (utrim_end_fuel (length s) (frev s)).
Definition utrim (s : bytes) : bytes := utrim_e (utrim_start s).

(** * Commands *)

Inductive command :=
| CQuery (q : query)
| CReplay (et : option bytes) (ctx : bytes) (since tf : option bytes) (ret : option (list bytes))
| CStore (et ctx json : bytes)   (* json = the balanced-brace slice; its JSON validity is decided outside the model *)
| CRemember (name : bytes) (q : query)
| CShowMat (name : bytes)
| CPing | CFlush | CListUsers
| CCreateUser (u : bytes) (key : option bytes) (roles : option (list bytes))
| CRevokeKey (u : bytes)
| CGrant (perms evs : list bytes) (u : bytes)
| CRevokePerm (perms evs : list bytes) (u : bytes)
| CShowPerm (u : bytes)
| CCompare (qs : list query)                       (* PLOT ... VS ... *)
| CDefine (et : bytes) (version : option N) (fields : list (bytes * fieldspec))   (* fields in source order; a later duplicate key wins *)
| CBatch (cs : list command)
with fieldspec := FPrim (s : bytes) | FEnum (l : list bytes).

(** what the model leaves undecided: DEFINE with a word / string token whose content would need JSON
    escaping or a version number outside the simple decimal forms; BATCH with a number token that is not
    a small integer (the Rust code re-renders the f64) *)
Inductive unmodelled := UDefine | UBatch.

Inductive presult :=
| POk (c : command)
| PErr
| PPanic (k : numsite)
| POOF
| PDomain                    (* non-ASCII outside a string literal: Unicode tables not modelled *)
| PUnmodelled (u : unmodelled).

Definition of_res {A} (f : A -> command) (r : res A) : presult :=
  match r with Ok a => POk (f a) | Err => PErr | Panic k => PPanic k | OOF => POOF end.

(** * REPLAY (replay.rs) *)

Definition is_replay_ident_char (c : N) : bool := is_ident_char c || (c =? 58).
Definition rident := ident_with is_replay_ident_char.

Inductive rclause := RSince (s : bytes) | RReturn (l : list bytes) | RUsing (f : bytes).

Definition K_REPLAY : bytes := [82; 69; 80; 76; 65; 89]. (* REPLAY *)
Definition K_STORE : bytes := [83; 84; 79; 82; 69]. (* STORE *)
Definition K_PAYLOAD : bytes := [80; 65; 89; 76; 79; 65; 68]. (* PAYLOAD *)

Definition rclause_p : P rclause :=
  alt (let* _ := kw K_SINCE in let* _ := skip in let* ts := strp in ret (RSince ts))
 (alt (let* _ := kw K_RETURN in let* _ := skip in
       let* _ := sym 91 in let* _ := skip in
       let* fields := sep_list (alt (lift rident) strp) comma_sep in
       let* _ := skip in
       let* _ := sym 93 in
       ret (RReturn fields))
      (let* _ := kw K_USING in let* _ := skip in let* f := lift rident in ret (RUsing f))).

(** [event_type_opt = !ci("FOR") i:ident() _ { Some(i) } / { None }] *)
Definition event_type_opt : P (option bytes) :=
  alt (let* _ := notp (ci K_FOR) in let* i := lift rident in let* _ := skip in ret (Some i))
      (ret None).

Definition apply_rclause (acc : option bytes * option (list bytes) * option bytes) (c : rclause) :=
  let '(since, retf, tf) := acc in
  match c with
  | RSince v => (Some v, retf, tf)
  | RReturn v => (since, Some v, tf)
  | RUsing v => (since, retf, Some v)
  end.

Definition replay_rule : P command :=
  let* _ := skip in
  let* _ := kw K_REPLAY in
  let* _ := skip in
  let* et := event_type_opt in
  let* _ := kw K_FOR in
  let* _ := skip in
  let* ctx := alt strp (lift rident) in
  let* clauses := (fun s => many (S (length s)) (let* _ := skip in rclause_p) s) in
  let* _ := skip in
  let* _ := eof in
  let '(since, retf, tf) := fold_left apply_rclause clauses (None, None, None) in
  ret (CReplay et ctx since tf retf).

Definition parse_replay (s : bytes) : presult :=
  match replay_rule s with
  | Ok (c, _) => POk c
  | Err => PErr | Panic k => PPanic k | OOF => POOF
  end.

(** * STORE (store.rs)

    [balanced_braces = $( '{' (balanced_braces() / json_string() / (!['{' | '}'] [_]))* '}' )] with
    [json_string = DQ ('\\' [_] / (![DQ | '\\'] [_]))* DQ] (DQ = the double quote; the [json_string]
    alternative came with sneldb fced25a: [Params.store_skips_strings], read from the Rust text, says
    whether it is there).
    A nested [balanced_braces] can fail only by reaching the end of the input, and then the
    enclosing loop fails too: it stops at that '{' where '}' is expected, or, with '{' among the plain
    characters, re-scans the same text one level up and reaches the end as well (every rule is a
    function of the position); so the rule matches exactly when a depth counter started at the
    first '{' returns to zero, and it ends there.  A double quote that starts a terminated string literal
    (backslash escapes one character) skips the literal; an unterminated one is an ordinary
    character.  The model is that counter (linear); the peg code with '{' among the plain characters
    ([(!'}' [_])], sneldb before 04c7300; [Params.store_brace_rescans]) re-scans, exponentially in the
    number of unclosed braces (Proofs/CostProofs.v counts both forms). *)

(** after an opening quote: the rest after the closing quote, if there is one *)
Fixpoint json_str_end (s : bytes) : option bytes :=
  match s with
  | [] => None
  | c :: r =>
      if c =? 34 then Some r
      else if c =? 92 then match r with [] => None | _ :: r' => json_str_end r' end
      else json_str_end r
  end.

(** after the first '{': the rest after the brace that closes it *)
Fixpoint brace_end (fuel : nat) (s : bytes) (depth : nat) : option bytes :=
  match fuel with
  | O => None
  | S f =>
      match s with
      | [] => None
      | c :: r =>
          if c =? 123 then brace_end f r (S depth)
          else if c =? 125 then
            match depth with
            | O => Some r
            | S d => brace_end f r d
            end
          else if store_skips_strings && (c =? 34) then
            match json_str_end r with
            | Some r' => brace_end f r' depth
            | None => brace_end f r depth
            end
          else brace_end f r depth
      end
  end.

Definition balanced_braces (s : bytes) : option (bytes * bytes) :=
  match s with
  | c :: r =>
      if c =? 123 then
        match brace_end (length r) r 0 with
        | Some rest => Some (firstn (length s - length rest) s, rest)
        | None => None
        end
      else None
  | [] => None
  end.

Definition store_rule : P command :=
  let* _ := skip in
  let* _ := kw K_STORE in let* _ := skip in
  let* et := identp in let* _ := skip in
  let* _ := kw K_FOR in let* _ := skip in
  let* ctx := alt identp strp in let* _ := skip in
  let* _ := kw K_PAYLOAD in let* _ := skip in
  let* _ := skip in
  let* json := lift balanced_braces in
  let* _ := skip in
  let* _ := eof in
  ret (CStore et ctx json).

Definition parse_store (s : bytes) : presult :=
  match store_rule s with
  | Ok (c, _) => POk c
  | Err => PErr | Panic k => PPanic k | OOF => POOF
  end.

(** * REMEMBER (remember.rs) *)

Definition K_REMEMBER : bytes := [82; 69; 77; 69; 77; 66; 69; 82]. (* REMEMBER *)
Definition AS_PAT : bytes := [32; 65; 83; 32]. (* AS *)

Fixpoint starts_with_ci (p s : bytes) : bool :=
  match p, s with
  | [], _ => true
  | x :: p', y :: s' => (to_upper x =? to_upper y) && starts_with_ci p' s'
  | _ :: _, [] => false
  end.

(** [upper.rfind(" AS ")]: index of the last occurrence *)
Fixpoint rfind_as (s : bytes) (i : nat) (best : option nat) : option nat :=
  match s with
  | [] => best
  | _ :: r => rfind_as r (S i) (if starts_with_ci AS_PAT s then Some i else best)
  end.

Definition is_alias_char (c : N) : bool := is_alnum c || (c =? 95) || (c =? 45).

Definition parse_remember (fx : bool) (input : bytes) : presult :=
  let remainder := utrim_start (skipn 8 input) in
  match remainder with
  | [] => PErr
  | _ =>
      match rfind_as remainder 0 None with
      | None => PErr
      | Some i =>
          let query_part := utrim (firstn i remainder) in
          let alias_part := utrim (skipn (i + 4) remainder) in
          match query_part with
          | [] => PErr
          | _ =>
              if negb (starts_with_ci K_QUERY query_part) then PErr
              else match alias_part with
                   | [] => PErr
                   | _ =>
                       if negb (forallb is_alias_char alias_part) then PErr
                       else of_res (CRemember alias_part) (parse_query fx query_part)
                   end
          end
      end
  end.

(** * Token parsers *)

Definition word_is (k : bytes) (t : token) : bool :=
  match t with TWord w => ci_eqb w k | _ => false end.
Definition name_of (t : token) : option bytes :=
  match t with TWord w => Some w | TStr s => Some s | _ => None end.
Definition is_comma (t : token) : bool := match t with TSym 44 => true | _ => false end.

Definition K_PING : bytes := [80; 73; 78; 71]. (* PING *)
Definition K_FLUSH : bytes := [70; 76; 85; 83; 72]. (* FLUSH *)
Definition K_LIST : bytes := [76; 73; 83; 84]. (* LIST *)
Definition K_USERS : bytes := [85; 83; 69; 82; 83]. (* USERS *)
Definition K_SHOW : bytes := [83; 72; 79; 87]. (* SHOW *)
Definition K_PERMISSIONS : bytes := [80; 69; 82; 77; 73; 83; 83; 73; 79; 78; 83]. (* PERMISSIONS *)
Definition K_REVOKE : bytes := [82; 69; 86; 79; 75; 69]. (* REVOKE *)
Definition K_KEY : bytes := [75; 69; 89]. (* KEY *)
Definition K_GRANT : bytes := [71; 82; 65; 78; 84]. (* GRANT *)
Definition K_READ : bytes := [82; 69; 65; 68]. (* READ *)
Definition K_WRITE : bytes := [87; 82; 73; 84; 69]. (* WRITE *)
Definition K_ON : bytes := [79; 78]. (* ON *)
Definition K_TO : bytes := [84; 79]. (* TO *)
Definition K_FROM : bytes := [70; 82; 79; 77]. (* FROM *)
Definition K_CREATE : bytes := [67; 82; 69; 65; 84; 69]. (* CREATE *)
Definition K_USER : bytes := [85; 83; 69; 82]. (* USER *)
Definition K_WITH : bytes := [87; 73; 84; 72]. (* WITH *)
Definition K_ROLES : bytes := [82; 79; 76; 69; 83]. (* ROLES *)
Definition K_DEFINE : bytes := [68; 69; 70; 73; 78; 69]. (* DEFINE *)
Definition K_BATCH : bytes := [66; 65; 84; 67; 72]. (* BATCH *)
Definition K_PLOT : bytes := [80; 76; 79; 84]. (* PLOT *)
Definition W_read : bytes := [114; 101; 97; 100]. (* read *)
Definition W_write : bytes := [119; 114; 105; 116; 101]. (* write *)

(** ping.rs / flush.rs: the first token was matched by the switch; nothing may follow *)
Definition parse_nullary (c : command) (ts : list token) : presult :=
  match ts with
  | [_] => POk c
  | _ => PErr
  end.

Definition parse_list_users (ts : list token) : presult :=
  match ts with
  | [_; t] => if word_is K_USERS t then POk CListUsers else PErr
  | _ => PErr
  end.

(** show.rs: exactly one argument, a word or a string, non-empty, alias characters only *)
Definition parse_show (ts : list token) : presult :=
  match ts with
  | [_; t] =>
      match name_of t with
      | Some [] => PErr
      | Some a => if forallb is_alias_char a then POk (CShowMat a) else PErr
      | None => PErr
      end
  | _ => PErr
  end.

Definition parse_show_permissions (ts : list token) : presult :=
  match ts with
  | [_; _; f; u] =>
      if word_is K_FOR f then match name_of u with Some n => POk (CShowPerm n) | None => PErr end else PErr
  | _ => PErr
  end.

Definition parse_revoke_key (ts : list token) : presult :=
  match ts with
  | [_; _; u] => match name_of u with Some n => POk (CRevokeKey n) | None => PErr end
  | _ => PErr
  end.

(** grant_permission.rs / revoke_permission.rs: the permission loop.
    Result: [None] = error (a word other than READ/WRITE); else permissions (reversed) and rest. *)
Fixpoint perm_loop (fuel : nat) (ts : list token) (acc : list bytes) : option (list bytes * list token) :=
  match fuel with
  | O => Some (acc, ts)
  | S f =>
      match ts with
      | TWord w :: r =>
          if ci_eqb w K_READ || ci_eqb w K_WRITE then
            let acc' := (if ci_eqb w K_READ then W_read else W_write) :: acc in
            match r with
            | t :: r' => if is_comma t then perm_loop f r' acc' else Some (acc', r)
            | [] => Some (acc', r)
            end
          else None
      | _ => Some (acc, ts)
      end
  end.

(** the event-type loop: [None] = error (a token that is neither word nor string) *)
Fixpoint evtype_loop (fuel : nat) (ts : list token) (acc : list bytes) : option (list bytes * list token) :=
  match fuel with
  | O => Some (acc, ts)
  | S f =>
      match ts with
      | [] => Some (acc, [])
      | t :: r =>
          match name_of t with
          | Some n =>
              match r with
              | t2 :: r' => if is_comma t2 then evtype_loop f r' (n :: acc) else Some (n :: acc, r)
              | [] => Some (n :: acc, r)
              end
          | None => None
          end
      end
  end.

Definition parse_grant_like (is_grant : bool) (ts : list token) : presult :=
  match ts with
  | _ :: r0 =>
      match perm_loop (S (length r0)) r0 [] with
      | None => PErr
      | Some (perms, r1) =>
          if is_grant && (match perms with [] => true | _ => false end) then PErr else
          match r1 with
          | t_on :: r2 =>
              if negb (word_is K_ON t_on) then PErr else
              match evtype_loop (S (length r2)) r2 [] with
              | None => PErr
              | Some ([], _) => PErr
              | Some (evs, r3) =>
                  match r3 with
                  | [t_to; u] =>
                      if word_is (if is_grant then K_TO else K_FROM) t_to then
                        match name_of u with
                        | Some n => POk ((if is_grant then CGrant else CRevokePerm) (frev perms) (frev evs) n)
                        | None => PErr
                        end
                      else PErr
                  | _ => PErr
                  end
              end
          | [] => PErr
          end
      end
  | [] => PErr
  end.

(** create_user.rs: the ROLES array loop: words/strings are roles, commas are skipped *)
Fixpoint roles_loop (ts : list token) (acc : list bytes) : option (list bytes * list token) :=
  match ts with
  | [] => None
  | TRSq :: r => Some (frev acc, r)
  | t :: r =>
      match name_of t with
      | Some n => roles_loop r (n :: acc)
      | None => if is_comma t then roles_loop r acc else None
      end
  end.

Fixpoint with_loop (fuel : nat) (ts : list token) (key : option bytes) (roles : option (list bytes))
  : option (option bytes * option (list bytes) * list token) :=
  match fuel with
  | O => Some (key, roles, ts)
  | S f =>
      match ts with
      | TWord w :: r =>
          if ci_eqb w K_WITH then
            match r with
            | TWord k :: r1 =>
                if ci_eqb k K_KEY then
                  match r1 with
                  | t :: r2 => match name_of t with Some n => with_loop f r2 (Some n) roles | None => None end
                  | [] => None
                  end
                else if ci_eqb k K_ROLES then
                  match r1 with
                  | TLSq :: r2 =>
                      match roles_loop r2 [] with
                      | Some (l, r3) => with_loop f r3 key (Some l)
                      | None => None
                      end
                  | _ => None
                  end
                else None
            | _ => None
            end
          else Some (key, roles, ts)
      | _ => Some (key, roles, ts)
      end
  end.

Definition parse_create_user (ts : list token) : presult :=
  match ts with
  | _ :: t_user :: u :: r =>
      if negb (word_is K_USER t_user) then PErr else
      match name_of u with
      | None => PErr
      | Some n =>
          match with_loop (S (length r)) r None None with
          | Some (key, roles, []) => POk (CCreateUser n key roles)
          | _ => PErr
          end
      end
  | _ => PErr
  end.

(** * PLOT (plotql.rs; Model/PlotQL.v) *)
Definition parse_plot_cmd (s : bytes) : presult :=
  match parse_plot s with
  | Ok (PlotQuery q) => POk (CQuery q)
  | Ok (PlotCompare qs) => POk (CCompare qs)
  | Err => PErr | Panic k => PPanic k | OOF => POOF
  end.

(** * DEFINE (define.rs)

    The FIELDS block is rebuilt from the tokens as JSON text (words and strings re-quoted without
    escaping, symbols and brackets copied, numbers re-rendered, ';' '(' ')' dropped) and parsed by
    serde_json; the object must map each key to a string or to a non-empty array of strings.  With
    token contents that need no escaping ("plain": no quote, backslash or control character) that is
    exactly: '{' [ name ':' spec { ',' name ':' spec } ] '}' with spec = name | '[' name { ',' name } ']'
    over the word / string tokens; any number token or other symbol makes the result an error. *)

Definition is_plain_char (c : N) : bool := negb (c =? 34) && negb (c =? 92) && negb (c <? 32).
Definition plain (s : bytes) : bool := forallb is_plain_char s.

Definition K_FIELDS : bytes := [70; 73; 69; 76; 68; 83].
Definition K_AS : bytes := [65; 83].

(** [^[a-zA-Z][a-zA-Z0-9_]{0,99}$] *)
Definition valid_event_type (w : bytes) : bool :=
  match w with
  | c :: r => is_alpha c && forallb (fun x => is_alnum x || (x =? 95)) r && (length r <=? 99)%nat
  | [] => false
  end.

(** a number token that is a plain integer below 2^53 re-renders ([f64::to_string]) as that integer *)
Definition small_int_text (raw : bytes) : option bytes :=
  match integer raw with
  | Some ((neg, d), []) =>
      let v := digits_val d 0 in
      if v <? 9007199254740992 then Some ((if neg then [45] else []) ++ dec_of_N v) else None
  | _ => None
  end.

(** the items of the block that matter; [DNum] is a number token that re-renders as a plain integer (a valid
    JSON number); [DOdd] is a number token in any other form (undecided) *)
Inductive ditem := DName (s : bytes) | DColon | DComma | DLSq | DRSq | DNum | DOdd | DBad.

(** tokens up to the closing brace -> items (None: nested '{' or no closing brace), and the rest *)
Fixpoint define_items (ts : list token) (acc : list ditem) : option (list ditem * list token) :=
  match ts with
  | [] => None
  | t :: r =>
      match t with
      | TLBrace => None
      | TRBrace => Some (frev acc, r)
      | TLSq => define_items r (DLSq :: acc)
      | TRSq => define_items r (DRSq :: acc)
      | TWord w => define_items r (DName w :: acc)
      | TStr w => define_items r (DName w :: acc)
      | TSym c => define_items r ((if c =? 58 then DColon else if c =? 44 then DComma else DBad) :: acc)
      | TNum raw => define_items r ((match small_int_text raw with Some _ => DNum | None => DOdd end) :: acc)
      | _ => define_items r acc
      end
  end.

(** a JSON value over the items: a name (string), a number, or an array of values.  [Some (Some spec)] when it
    is a string or a non-empty array of strings; [Some None] for any other valid value (rejected later by the
    type check, if its key survives) *)
Definition jv := option fieldspec.
Fixpoint define_value (fuel : nat) (is : list ditem) : option (jv * option bytes * list ditem) :=
  (* the middle component: Some s when the value is the string s *)
  match fuel with
  | O => None
  | S f =>
      match is with
      | DName n :: r => Some (Some (FPrim n), Some n, r)
      | DNum :: r => Some (None, None, r)
      | DLSq :: DRSq :: r => Some (None, None, r)
      | DLSq :: r =>
          (fix elems (k : nat) (is' : list ditem) (acc : list bytes) (allstr : bool) : option (jv * option bytes * list ditem) :=
             match k with
             | O => None
             | S k' =>
                 match define_value f is' with
                 | Some (_, so, r1) =>
                     let acc' := match so with Some x => x :: acc | None => acc end in
                     let allstr' := allstr && match so with Some _ => true | None => false end in
                     match r1 with
                     | DRSq :: r2 => Some ((if allstr' then Some (FEnum (frev acc')) else None), None, r2)
                     | DComma :: r2 => elems k' r2 acc' allstr'
                     | _ => None
                     end
                 | None => None
                 end
             end) (S (length r)) r [] true
      | _ => None
      end
  end.

Fixpoint define_members (fuel : nat) (is : list ditem) (acc : list (bytes * jv)) : option (list (bytes * jv)) :=
  match fuel with
  | O => None
  | S f =>
      match is with
      | DName k :: DColon :: r =>
          match define_value (S (length r)) r with
          | Some (v, _, r') =>
              match r' with
              | [] => Some (frev ((k, v) :: acc))
              | DComma :: r'' => define_members f r'' ((k, v) :: acc)
              | _ => None
              end
          | None => None
          end
      | _ => None
      end
  end.

(** serde_json keeps the last value of a repeated key; then every remaining value must have a good type *)
Fixpoint last_wins (l : list (bytes * jv)) : list (bytes * jv) :=
  match l with
  | [] => []
  | (k, v) :: r => if existsb (fun kv => bytes_eqb (fst kv) k) r then last_wins r else (k, v) :: last_wins r
  end.
Fixpoint good_fields (l : list (bytes * jv)) : option (list (bytes * fieldspec)) :=
  match l with
  | [] => Some []
  | (k, Some sp) :: r => match good_fields r with Some r' => Some ((k, sp) :: r') | None => None end
  | (_, None) :: _ => None
  end.

(** number tokens are re-rendered without separators, so two adjacent ones (or one next to a stray symbol)
    could fuse into one JSON number: undecided *)
Fixpoint items_decided (is : list ditem) : bool :=
  match is with
  | [] => true
  | DOdd :: _ => false
  | DNum :: DNum :: _ | DNum :: DBad :: _ | DBad :: DNum :: _ => false
  | _ :: r => items_decided r
  end.

Definition tok_plain (t : token) : bool :=
  match t with TWord w | TStr w => plain w | _ => true end.

(** [Some(Number(n)) if n >= 0.0 => n as u32] on the scanned text: only the forms [-]digits[.digits]
    with at most 15 significant digits in total are decided *)
Definition strip_zeros (d : bytes) : bytes := drop_while (fun c => c =? 48) d.
Definition version_of_num (raw : bytes) : option (option N) :=   (* None: undecided; Some None: error; Some (Some v) *)
  match number_text raw with
  | Some ((neg, d, fo), []) =>
      let fd := match fo with Some x => x | None => [] end in
      let iv := digits_val d 0 in
      let zero := (iv =? 0) && (digits_val fd 0 =? 0) in
      if neg && negb zero then Some None
      else if match fo with None => true | Some _ => (length (strip_zeros d) + length fd <=? 15)%nat end
      then Some (Some (if 4294967295 <=? iv then 4294967295 else iv))
      else None
  | _ => None
  end.

Definition parse_define (ts : list token) : presult :=
  match ts with
  | _ :: TWord et :: r0 =>
      if negb (valid_event_type et) then PErr else
      let after_version (version : option N) (r : list token) : presult :=
        match r with
        | TWord f :: TLBrace :: r1 =>
            if negb (ci_eqb f K_FIELDS) then PErr else
            match define_items r1 [] with
            | None => PErr
            | Some (items, rest) =>
                if negb (forallb tok_plain (firstn (length r1 - length rest) r1)) || negb (items_decided items)
                then PUnmodelled UDefine else
                match items with
                | [] => PErr                                           (* {} : EmptySchema *)
                | _ =>
                    match define_members (S (length items)) items [] with
                    | Some members =>
                        match good_fields (last_wins members) with
                        | Some fields => match rest with [] => POk (CDefine et version fields) | _ => PErr end
                        | None => PErr
                        end
                    | None => PErr
                    end
                end
            end
        | _ => PErr
        end in
      match r0 with
      | TWord a :: r1 =>
          if ci_eqb a K_AS then
            match r1 with
            | TNum raw :: r2 =>
                match version_of_num raw with
                | Some (Some v) => after_version (Some v) r2
                | Some None => PErr
                | None => PUnmodelled UDefine
                end
            | _ => PErr        (* a word never parses as u32 (it starts with a letter or '_'); anything else is an error *)
            end
          else after_version None r0
      | _ => after_version None r0
      end
  | _ => PErr
  end.

(** * BATCH (batch.rs): the commands between '[' and ']' are re-assembled from the tokens into one text,
    split at ';', trimmed and parsed one by one *)

(** the buffer is accumulated in reverse ([rbuf]); a word / string / number is preceded by a space unless
    the buffer is empty *)
Definition push_spaced (rbuf piece : bytes) : bytes :=
  match rbuf with [] => rev_append piece [] | _ => rev_append piece (32 :: rbuf) end.

(** result: None = error; Some (None) = undecided; Some (Some text) *)
Fixpoint batch_buffer (ts : list token) (depth : nat) (rbuf : bytes) (undecided : bool) : option (option bytes) :=
  match ts with
  | [] => None                                                     (* missing ']' *)
  | t :: r =>
      match t with
      | TLBrace => batch_buffer r (S depth) (123 :: rbuf) undecided
      | TRBrace => match depth with O => None | S d => batch_buffer r d (125 :: rbuf) undecided end
      | TRSq => match depth with O => Some (if undecided then None else Some (frev rbuf)) | S _ => None end
      | TWord w => batch_buffer r depth (push_spaced rbuf w) undecided
      | TStr w => batch_buffer r depth (push_spaced rbuf (34 :: w ++ [34])) undecided
      | TNum raw =>
          match small_int_text raw with
          | Some txt => batch_buffer r depth (push_spaced rbuf txt) undecided
          | None => batch_buffer r depth rbuf true
          end
      | TSym c => batch_buffer r depth (c :: rbuf) undecided
      | TSemi => batch_buffer r depth (59 :: rbuf) undecided
      | _ => batch_buffer r depth rbuf undecided
      end
  end.

Fixpoint split_semi (s : bytes) (cur : bytes) : list bytes :=
  match s with
  | [] => [frev cur]
  | c :: r => if c =? 59 then frev cur :: split_semi r [] else split_semi r (c :: cur)
  end.

(** * [parse_command] *)

(** every head except BATCH; [batch] is what a BATCH head does with the tokens *)
Definition parse_command_with (batch : list token -> presult) (fx : bool) (raw : bytes) : presult :=
  let input := utrim raw in
  let ts := tokenize input in
  if negb (tokens_in_domain ts) then PDomain
  else if negb (tokens_valid ts) then PErr
  else
    match ts with
    | TWord w :: rest =>
        if ci_eqb w K_DEFINE then parse_define ts
        else if ci_eqb w K_STORE then parse_store input
        else if ci_eqb w K_REMEMBER then parse_remember fx input
        else if ci_eqb w K_QUERY || ci_eqb w K_FIND then of_res CQuery (parse_query fx input)
        else if ci_eqb w K_REPLAY then parse_replay input
        else if ci_eqb w K_BATCH then batch ts
        else if ci_eqb w K_PING then parse_nullary CPing ts
        else if ci_eqb w K_FLUSH then parse_nullary CFlush ts
        else if ci_eqb w K_PLOT then parse_plot_cmd input
        else if ci_eqb w K_CREATE then parse_create_user ts
        else if ci_eqb w K_REVOKE then
          match rest with
          | t :: _ => if word_is K_KEY t then parse_revoke_key ts else parse_grant_like false ts
          | [] => parse_grant_like false ts
          end
        else if ci_eqb w K_LIST then parse_list_users ts
        else if ci_eqb w K_GRANT then parse_grant_like true ts
        else if ci_eqb w K_SHOW then
          match rest with
          | t :: _ => if word_is K_PERMISSIONS t then parse_show_permissions ts else parse_show ts
          | [] => parse_show ts
          end
        else PErr
    | _ => PErr
    end.

(** a part of a BATCH that is itself a BATCH is an error: the re-assembled text contains no '[' right after
    the word (brackets are dropped, a string starts with its quote) *)
Definition parse_command_core (fx : bool) (raw : bytes) : presult := parse_command_with (fun _ => PErr) fx raw.

Fixpoint batch_parts (fx : bool) (parts : list bytes) (acc : list command) (undecided : option presult) : presult :=
  match parts with
  | [] => match undecided with
          | Some u => u
          | None => match acc with [] => PErr | _ => POk (CBatch (frev acc)) end
          end
  | p :: r =>
      match utrim p with
      | [] => batch_parts fx r acc undecided
      | _ =>
          match parse_command_core fx p with
          | POk c => batch_parts fx r (c :: acc) undecided
          | PErr => PErr
          | PPanic k => PPanic k            (* parts are parsed in order: nothing after a panic runs *)
          | POOF => POOF
          | other => batch_parts fx r acc (match undecided with Some u => Some u | None => Some other end)
          end
      end
  end.

Definition parse_batch (fx : bool) (ts : list token) : presult :=
  match ts with
  | _ :: TLSq :: r =>
      match batch_buffer r 0 [] false with
      | None => PErr
      | Some None => PUnmodelled UBatch
      | Some (Some buf) =>
          (* an error in any part is an error of the whole, whatever the undecided parts are *)
          batch_parts fx (split_semi buf []) [] None
      end
  | _ => PErr
  end.

Definition parse_command (fx : bool) (raw : bytes) : presult := parse_command_with (parse_batch fx) fx raw.

(** [parse_command] in the mode the Rust text is in (tools/params/p31_query_numeric.py reads whether
    the conversions in query.rs [unwrap()] or are fallible [{? }] actions) *)
Definition parse_command_cur (raw : bytes) : presult := parse_command query_numeric_fallible raw.

(** When the input has non-ASCII text outside string literals ([PDomain]) the Rust tokenizer either
    rejects it (the character is not alphanumeric) or lets it through; for the heads that hand the
    raw text to a peg grammar the result is then the grammar's.  [peg_fallback] is that result:
    the implementation must answer either an error or this. *)
Definition peg_fallback (fx : bool) (raw : bytes) : option presult :=
  let input := utrim raw in
  match tokenize input with
  | TWord w :: _ =>
      if ci_eqb w K_STORE then Some (parse_store input)
      else if ci_eqb w K_REMEMBER then Some (parse_remember fx input)
      else if ci_eqb w K_QUERY || ci_eqb w K_FIND then Some (of_res CQuery (parse_query fx input))
      else if ci_eqb w K_REPLAY then Some (parse_replay input)
      else if ci_eqb w K_PLOT then Some (parse_plot_cmd input)
      else None
  | _ => None
  end.

(** * Dispatch (src/command/dispatcher.rs): which [Command] variants have an arm before the
    catch-all [unreachable!()]; the table is regenerated from the Rust text (tools/params/p30_dispatch.py). *)

Inductive ckind :=
| KDefine | KStore | KQuery | KRememberQuery | KShowMaterialized | KReplay | KPing | KFlush
| KBatch | KCompare | KCreateUser | KRevokeKey | KListUsers | KGrantPermission
| KRevokePermission | KShowPermissions.

Definition all_kinds : list ckind :=
  [KDefine; KStore; KQuery; KRememberQuery; KShowMaterialized; KReplay; KPing; KFlush; KBatch;
   KCompare; KCreateUser; KRevokeKey; KListUsers; KGrantPermission; KRevokePermission; KShowPermissions].

Definition dispatch_handled (k : ckind) : bool :=
  match k with
  | KDefine => dispatch_arm_Define | KStore => dispatch_arm_Store | KQuery => dispatch_arm_Query
  | KRememberQuery => dispatch_arm_RememberQuery | KShowMaterialized => dispatch_arm_ShowMaterialized
  | KReplay => dispatch_arm_Replay | KPing => dispatch_arm_Ping | KFlush => dispatch_arm_Flush
  | KBatch => dispatch_arm_Batch | KCompare => dispatch_arm_Compare
  | KCreateUser => dispatch_arm_CreateUser | KRevokeKey => dispatch_arm_RevokeKey
  | KListUsers => dispatch_arm_ListUsers | KGrantPermission => dispatch_arm_GrantPermission
  | KRevokePermission => dispatch_arm_RevokePermission | KShowPermissions => dispatch_arm_ShowPermissions
  end.

Definition kind_of (c : command) : ckind :=
  match c with
  | CQuery _ => KQuery | CReplay _ _ _ _ _ => KReplay | CStore _ _ _ => KStore
  | CRemember _ _ => KRememberQuery | CShowMat _ => KShowMaterialized
  | CPing => KPing | CFlush => KFlush | CListUsers => KListUsers
  | CCreateUser _ _ _ => KCreateUser | CRevokeKey _ => KRevokeKey
  | CGrant _ _ _ => KGrantPermission | CRevokePerm _ _ _ => KRevokePermission
  | CShowPerm _ => KShowPermissions
  | CCompare _ => KCompare | CDefine _ _ _ => KDefine | CBatch _ => KBatch
  end.
