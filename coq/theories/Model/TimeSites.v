(** C16 — the call sites that read time literals, each as a small function over
    [parse_str_to_epoch_seconds] (Model/Time.v).  Executable definitions only.

    - payload normaliser      src/engine/schema/normalization.rs  PayloadTimeNormalizer::normalize
    - WHERE literal (rows)    src/engine/core/filter/condition_evaluator_builder.rs  add_where_clause
    - SINCE (rows)            ... add_special_fields
    - WHERE literal (planner) src/engine/core/filter/filter_group_builder.rs  normalize_temporal_literals
    - field selector          src/engine/core/zone/selector/field_selector.rs  select_for_segment (temporal arm)
    - zone pruner             src/engine/core/zone/selector/pruner/temporal_pruner.rs  apply_temporal_only,
                              over the artifacts written by src/engine/core/time/temporal_builder.rs
                              (temporal_calendar_index.rs, zone_temporal_index.rs)
    - materialised queries    src/engine/materialize/spec.rs  delta_command / parse_since_epoch *)
From Coq Require Import ZArith NArith List Bool.
From Snel Require Import Base.Bytes Base.Civil Gen.Params Model.Time.
Import ListNotations.
Open Scope Z_scope.

(** JSON values as the sites see them ([TOther] = array / object with its compact text). *)
Inductive tval :=
| TStr (s : bytes)
| TNum (n : jnum)
| TNull
| TBool
| TOther (txt : bytes).

Inductive ftype := FDateTime | FDate | FOptDateTime | FOptDate | FString.

Definition is_temporal (ft : ftype) : bool := match ft with FString => false | _ => true end.
Definition is_optional (ft : ftype) : bool :=
  match ft with FOptDateTime | FOptDate => true | _ => false end.

(** [TimeParser::normalize_json_value] (both [TimeKind]s behave alike) *)
Definition normalize_json_value (v : tval) : option Z :=
  match v with
  | TStr s => parse_str_to_epoch_seconds s
  | TNum n => normalize_json_number n
  | _ => None
  end.

(** * Payload normaliser: the state of the field afterwards *)
Inductive pstate := PAbsent | PErr | PNum (z : Z) | PStr (s : bytes) | PNull | POther.

Definition state_of (v : tval) : pstate :=
  match v with
  | TStr s => PStr s
  | TNum (JInt z) => PNum z
  | TNum (JDec _ _) => POther
  | TNull => PNull
  | TBool | TOther _ => POther
  end.

Definition is_null (v : tval) : bool := match v with TNull => true | _ => false end.

Definition site_payload (ft : ftype) (v : option tval) : pstate :=
  match v with
  | None => PAbsent
  | Some v =>
      if is_temporal ft then
        if is_optional ft && is_null v then PNull
        else match normalize_json_value v with Some z => PNum z | None => PErr end
      else state_of v
  end.

(** * [ScalarValue::from(serde_json::Value)] *)
Inductive scalar := SInt (z : Z) | SUtf8 (s : bytes) | SFloat | SNull | SBool.

Definition scalar_of (v : tval) : scalar :=
  match v with
  | TStr s => SUtf8 s
  | TNum (JInt z) => if z <=? i64_max then SInt z else SUtf8 (dec_of_Z z)
  | TNum (JDec _ _) => SFloat
  | TNull => SNull
  | TBool => SBool
  | TOther txt => SUtf8 txt
  end.

(** [str::parse::<i64>] / [str::parse::<u64>] *)
Definition parse_i64_str (s : bytes) : option Z :=
  match parse_int_str s with Some z => try_i64 z | None => None end.

Definition u64_max : Z := 2 ^ 64 - 1.
Definition parse_u64_str (s : bytes) : option Z :=
  let digits := match s with 43%N :: (_ :: _) as r => r | _ => s end in
  match digits with
  | [] => None
  | _ => match all_digits_val digits 0 with
         | Some z => if z <=? u64_max then Some z else None
         | None => None
         end
  end.

Definition scalar_as_i64 (sv : scalar) : option Z :=
  match sv with SInt z => Some z | SUtf8 s => parse_i64_str s | _ => None end.

(** * WHERE literal when rows are filtered: [add_where_clause] on [Expr::Compare] *)
Inductive cond := CNum (z : Z) | CStr | CNone.

Definition site_where (v : tval) : cond :=
  let sv := scalar_of v in
  let temporal := match sv with SUtf8 s => parse_str_to_epoch_seconds s | _ => None end in
  match temporal with
  | Some z => CNum z
  | None =>
      match scalar_as_i64 sv with
      | Some z => CNum z
      | None => match sv with SUtf8 _ => CStr | _ => CNone end
      end
  end.

(** * SINCE when rows are filtered: [add_special_fields] *)
Inductive since_cond := SinceNum (z : Z) | SinceIgnored.

Definition site_since_row (s : bytes) : since_cond :=
  match parse_str_to_epoch_seconds s with
  | Some z => SinceNum z
  | None => match parse_i64_str s with Some z => SinceNum z | None => SinceIgnored end
  end.

(** what [FilterGroupBuilder::add_time_filter] hands to the pruner: the raw literal *)
Definition site_since_filter (s : bytes) : scalar := SUtf8 s.

(** * WHERE literal in the planner: [normalize_temporal_literals] on [Expr::Compare] *)
Definition site_filter (ft : ftype) (v : tval) : scalar :=
  if is_temporal ft then
    match scalar_of v with
    | SUtf8 s => match parse_str_to_epoch_seconds s with
                 | Some z => SInt z
                 | None => SUtf8 s
                 end
    | sv => sv
    end
  else scalar_of v.

(** * The temporal pruner

    The shapes of the code that differ between the pinned tree and the proposed repair
    (fixes/C16-pre-epoch-time-values.diff) are parameters, regenerated from the Rust text by
    tools/params/p11_timesites.py:
      [tsite_cal_guard]            temporal_builder.rs registers a zone in the field calendar only
                                   when min_ts >= 0 && max_ts >= 0 (else: always, range clamped at 0)
      [tsite_pruner_clamps]        temporal_pruner.rs clamps the literal at 0 and uses the clamped value
                                   everywhere (else: signed literal, only the calendar lookup clamped)
      [tsite_pruner_u64_fallback]  an unparsable string literal is tried as u64
      [tsite_pruner_unparsable]    value of an unparsable literal otherwise
      [tsite_bucket_hour/day/mod]  bucket sizes and the truncation of bucket ids.
    The [_gen] functions take them as arguments (the theorems that do not depend on them are
    proved for all values); the plain names are the instances for the current tree. *)

(** literal handling: parse as time, else (u64, else) a default; clamp at 0 *)
Definition pruner_ts_gen (clamps fallback : bool) (dflt : Z) (sv : scalar) : Z :=
  match sv with
  | SInt i => if clamps then Z.max i 0 else i
  | SUtf8 s =>
      match parse_str_to_epoch_seconds s with
      | Some p => if clamps then Z.max p 0 else p
      | None => if fallback
                then match parse_u64_str s with Some u => u | None => dflt end
                else dflt
      end
  | _ => 0
  end.
Definition pruner_ts : scalar -> Z :=
  pruner_ts_gen tsite_pruner_clamps tsite_pruner_u64_fallback tsite_pruner_unparsable.

(** [ts as i64] (the identity on values that already are i64) *)
Definition wrap_i64 (u : Z) : Z := if u <? 2 ^ 63 then u else u - 2 ^ 64.

(** a zone and the stamps of the time field of its events *)
Record zone := mkZone { z_id : N; z_ts : list Z }.

Definition zmin (z : zone) : Z :=
  match z_ts z with [] => 0 | x :: r => fold_left Z.min r x end.
Definition zmax (z : zone) : Z :=
  match z_ts z with [] => 0 | x :: r => fold_left Z.max r x end.

(** temporal_builder.rs: which zones enter the field calendar *)
Definition in_cal_gen (guard : bool) (z : zone) : bool :=
  if guard then (0 <=? zmin z) && (0 <=? zmax z) else true.
Definition in_cal : zone -> bool := in_cal_gen tsite_cal_guard.

(** [bucket_id]: start of the bucket, truncated to u32 *)
Definition u32_mod : Z := tsite_bucket_mod.
Definition bucket_id (g ts : Z) : Z := ((ts / g) * g) mod u32_mod.

(** [add_zone_range]: every bucket from the one of [lo] to the one of [hi] *)
Definition buckets (g lo hi : Z) : list Z :=
  map (fun i => ((lo / g + Z.of_nat i) * g) mod u32_mod)
      (seq 0 (Z.to_nat (hi / g - lo / g + 1))).

(** the range is registered as u64: clamped at 0 (a no-op under the guard) *)
Definition zone_buckets_gen (guard : bool) (g : Z) (z : zone) : list Z :=
  if in_cal_gen guard z then buckets g (Z.max 0 (zmin z)) (Z.max 0 (zmax z)) else [].

Definition has_bucket_gen (guard : bool) (g : Z) (z : zone) (b : Z) : bool :=
  existsb (Z.eqb b) (zone_buckets_gen guard g z).

(** [zones_for_ts]: hour bucket when present in the hour map, else day bucket *)
Definition cal_zones_eq_gen (guard : bool) (ts : Z) (zones : list zone) : list zone :=
  match filter (fun z => has_bucket_gen guard tsite_bucket_hour z (bucket_id tsite_bucket_hour ts)) zones with
  | [] => filter (fun z => has_bucket_gen guard tsite_bucket_day z (bucket_id tsite_bucket_day ts)) zones
  | hz => hz
  end.
(** [zones_for_ge] / [zones_for_le]: day buckets compared by their (truncated) ids *)
Definition cal_zones_ge_gen (guard : bool) (ts : Z) (zones : list zone) : list zone :=
  filter (fun z => existsb (fun b => bucket_id tsite_bucket_day ts <=? b)
                           (zone_buckets_gen guard tsite_bucket_day z)) zones.
Definition cal_zones_le_gen (guard : bool) (ts : Z) (zones : list zone) : list zone :=
  filter (fun z => existsb (fun b => b <=? bucket_id tsite_bucket_day ts)
                           (zone_buckets_gen guard tsite_bucket_day z)) zones.

Inductive cmpop := OEq | ONeq | OGt | OGte | OLt | OLte | OIn.

(** the per-zone test on the zone temporal index (stride 1: the exact stamp set) *)
Definition zti_ok (op : cmpop) (v : Z) (z : zone) : bool :=
  match op with
  | OEq => existsb (Z.eqb v) (z_ts z)
  | OGt => v <? zmax z
  | OGte => v <=? zmax z
  | OLt => zmin z <? v
  | OLte => zmin z <=? v
  | _ => false
  end.

(** [apply_temporal_only]; [None] = no answer: always for [!=] / IN, for which the field selector
    then returns every zone ([select_gen] below), and for a column other than [timestamp] without a
    calendar, for which it returns no zone *)
Definition prune_gen (guard clamps fallback : bool) (dflt : Z)
                     (is_timestamp : bool) (op : cmpop) (sv : scalar) (zones : list zone)
  : option (list N) :=
  let v := wrap_i64 (pruner_ts_gen clamps fallback dflt sv) in
  let vc := if clamps then v else Z.max v 0 in      (* what the calendar is asked *)
  match op with
  | OEq | OGt | OGte | OLt | OLte =>
      if negb (existsb (in_cal_gen guard) zones) then (if is_timestamp then Some [] else None)
      else
        let cands :=
          if vc <? 0 then []
          else match op with
               | OEq => cal_zones_eq_gen guard vc zones
               | OGt | OGte => cal_zones_ge_gen guard vc zones
               | _ => cal_zones_le_gen guard vc zones
               end in
        Some (map z_id (filter (zti_ok op v) cands))
  | _ => None
  end.
Definition prune : bool -> cmpop -> scalar -> list zone -> option (list N) :=
  prune_gen tsite_cal_guard tsite_pruner_clamps tsite_pruner_u64_fallback tsite_pruner_unparsable.

(** * The field selector on a temporal filter (field_selector.rs, select_for_segment):
      the pruner's answer, or — when the pruner has no answer — every zone of the segment for
      [!=] / IN ([tsite_selector_neq_all_zones], regenerated from the Rust text), else none. *)
Definition op_unanswered (op : cmpop) : bool :=
  match op with ONeq | OIn => true | _ => false end.

Definition select_gen (neq_all : bool) (pr : option (list N)) (op : cmpop) (zones : list zone) : list N :=
  match pr with
  | Some ids => ids
  | None => if neq_all && op_unanswered op then map z_id zones else []
  end.

Definition select_zones (is_timestamp : bool) (op : cmpop) (sv : scalar) (zones : list zone) : list N :=
  select_gen tsite_selector_neq_all_zones (prune is_timestamp op sv zones) op zones.

(** * Materialised queries: [delta_command] *)
Definition parse_since_epoch (s : bytes) : option Z :=
  match parse_str_to_epoch_seconds s with
  | Some t => Some (Z.max t 0)
  | None => parse_u64_str s
  end.

Definition site_matspec (since : option bytes) (wm_ts wm_eid : Z) : option bytes :=
  if (wm_ts =? 0) && (wm_eid =? 0) then since
  else
    let upd := match since with
               | None => true
               | Some s => match parse_since_epoch s with
                           | Some e => e <? wm_ts
                           | None => true
                           end
               end in
    if upd then Some (dec_of_Z wm_ts) else since.
