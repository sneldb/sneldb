(** Model of the per-zone succinct range filter: the builder
    [ZoneSurfFilter::build_all_filtered] with its numeric-consistency gate
    ([is_field_numeric_consistent]) in src/engine/core/filter/zone_surf_filter.rs, the probes
    [zones_overlapping_ge] / [zones_overlapping_le], and the pruner
    [RangePruner::apply_surf_only] in src/engine/core/zone/selector/pruner/range_pruner.rs
    (operator dispatch, ">90 % of >10 zones => None").  Executable definitions only.

    A column is a list of zones [(zone id, field value of each event of the zone)]; the value
    is [None] when the event's payload does not have the key.  One event type (uid) and one
    field; the file save/load round trip (bincode + lz4) is taken as the identity.
    [prune] returns [None] where the code returns [None] (the caller then scans every zone). *)
From Coq Require Import ZArith NArith List Bool.
From Snel Require Import Base.Bytes Gen.Params Model.SurfEnc Model.Trie.
Import ListNotations.
Open Scope N_scope.

Definition zone : Type := N * list (option sval).

(** ---- is_field_numeric_consistent ---- *)
Inductive kind := KI | KU | KF.
Definition kind_eqb (a b : kind) : bool :=
  match a, b with KI, KI | KU, KU | KF, KF => true | _, _ => false end.

Definition kind_of (v : sval) : option kind :=
  match v with
  | VInt _ | VTs _ => Some KI
  | VFloat _ => Some KF
  | VStr s h =>
      match parse_i64 s with
      | Some _ => Some KI
      | None =>
          match parse_u64 s with
          | Some _ => Some KU
          | None => match h with Some _ => Some KF | None => None end
          end
      end
  | _ => None
  end.

(** state [Some None] = Unknown, [Some (Some k)] = kind k, [None] = "return false" *)
Fixpoint gate_rows (rows : list (option sval)) (st : option (option kind)) : option (option kind) :=
  match rows with
  | [] => st
  | r :: rest =>
      match st with
      | None => None
      | Some k =>
          match r with
          | None => gate_rows rest st
          | Some v =>
              match kind_of v with
              | None => None
              | Some this =>
                  match k with
                  | None => gate_rows rest (Some (Some this))
                  | Some k0 => if kind_eqb k0 this then gate_rows rest st else None
                  end
              end
          end
      end
  end.

Fixpoint gate_zones (zs : list zone) (st : option (option kind)) : option (option kind) :=
  match zs with
  | [] => st
  | z :: rest => gate_zones rest (gate_rows (snd z) st)
  end.

Definition gate (zs : list zone) : bool :=
  match gate_zones zs (Some None) with
  | Some (Some _) => true
  | _ => false
  end.

(** ---- values.sort(); values.dedup() ---- *)
Fixpoint key_insert (k : bytes) (l : list bytes) : list bytes :=
  match l with
  | [] => [k]
  | x :: r => match bytes_cmp k x with Gt => x :: key_insert k r | _ => k :: l end
  end.
Definition key_sort (l : list bytes) : list bytes := fold_right key_insert [] l.
Fixpoint key_dedup (l : list bytes) : list bytes :=
  match l with
  | [] => []
  | x :: r =>
      match r with
      | y :: _ => if bytes_eqb x y then key_dedup r else x :: key_dedup r
      | [] => [x]
      end
  end.

Fixpoint present_keys (rows : list (option sval)) : list bytes :=
  match rows with
  | [] => []
  | Some v :: r => match encode_value v with Some b => b :: present_keys r | None => present_keys r end
  | None :: r => present_keys r
  end.

(** does [dynamic_keys] of the zone contain the field?  [surf_keys_from_first_event] is read
    from the Rust text: [true] = the keys of the FIRST event only, [false] = the keys of every
    event (sneldb since commit 8af8f84; then every zone that holds a value has the field). *)
Definition is_some {A} (o : option A) : bool := match o with Some _ => true | None => false end.
Definition zone_has_field (rows : list (option sval)) : bool :=
  if surf_keys_from_first_event then match rows with r :: _ => is_some r | [] => false end
  else existsb is_some rows.

(** one zone of [build_all_filtered]; zones without a value get no entry *)
Definition zone_entry (z : zone) : option (N * trie) :=
  if zone_has_field (snd z) then
    match present_keys (snd z) with
    | [] => None
    | vals => Some (fst z, t_build (key_dedup (key_sort vals)))
    end
  else None.

Fixpoint entries_of (zs : list zone) : list (N * trie) :=
  match zs with
  | [] => []
  | z :: r => match zone_entry z with Some e => e :: entries_of r | None => entries_of r end
  end.

(** entries.sort_by_key(|e| e.zone_id): stable *)
Fixpoint entry_insert (e : N * trie) (l : list (N * trie)) : list (N * trie) :=
  match l with
  | [] => [e]
  | x :: r => if fst e <? fst x then e :: l else x :: entry_insert e r
  end.
Definition entry_sort (l : list (N * trie)) : list (N * trie) :=
  fold_left (fun acc e => entry_insert e acc) l [].

(** the filter file of the field: [None] = no file is written *)
Definition build_filter (zs : list zone) : option (list (N * trie)) :=
  if gate zs then
    match entries_of zs with
    | [] => None
    | es => Some (entry_sort es)
    end
  else None.

(** ---- probes ---- *)
Inductive cmp_op := OEq | ONeq | OGt | OGte | OLt | OLte | OIn.

Fixpoint zones_overlapping_ge (es : list (N * trie)) (lower : bytes) (incl : bool) : list N :=
  match es with
  | [] => []
  | (id, t) :: r =>
      if may_overlap_ge t lower incl then id :: zones_overlapping_ge r lower incl
      else zones_overlapping_ge r lower incl
  end.
Fixpoint zones_overlapping_le (es : list (N * trie)) (upper : bytes) (incl : bool) : list N :=
  match es with
  | [] => []
  | (id, t) :: r =>
      if may_overlap_le t upper incl then id :: zones_overlapping_le r upper incl
      else zones_overlapping_le r upper incl
  end.

Definition nlen {A} (l : list A) : N := N.of_nat (length l).

(** zones.len() as f64 >= zones_total as f64 * MATCH_THRESHOLD, as exact fraction arithmetic
    (the f64 product is within 2^-55 relative error of num/den * total, the left side is an
    integer: the two tests agree for every count below 2^50) *)
Definition too_many (matched total : N) : bool :=
  (surf_min_zones <? total) && (surf_thr_num * total <=? surf_thr_den * matched).

(** [RangePruner::apply_surf_only] on the filter [fl] (as loaded; [None] = load error) *)
Definition apply_surf (fl : option (list (N * trie))) (op : cmp_op) (p : sval) : option (list N) :=
  match op with
  | OGt | OGte | OLt | OLte =>
      match fl with
      | None => None
      | Some es =>
          if nlen es =? 0 then None
          else
            match encode_value p with
            | None => None
            | Some b =>
                let zs :=
                  match op with
                  | OGt => zones_overlapping_ge es b false
                  | OGte => zones_overlapping_ge es b true
                  | OLt => zones_overlapping_le es b false
                  | _ => zones_overlapping_le es b true
                  end in
                if too_many (nlen zs) (nlen es) then None else Some zs
            end
      end
  | _ => None
  end.

(** builder then pruner *)
Definition prune (zs : list zone) (op : cmp_op) (p : sval) : option (list N) :=
  apply_surf (build_filter zs) op p.

(** ---- specification: which rows satisfy the probe (exact numeric comparison) ---- *)
Definition sat (op : cmp_op) (v p : sval) : bool :=
  match num_of v, num_of p with
  | Some a, Some b =>
      match op with
      | OGt => (b <? a)%Z
      | OGte => (b <=? a)%Z
      | OLt => (a <? b)%Z
      | OLte => (a <=? b)%Z
      | _ => false
      end
  | _, _ => false
  end.

(** ---- the known classes of false negatives ---- *)
Inductive kclass :=
| SurfFirstRowLacksField   (* the zone's first event has no value for the field *)
| SurfSaturatedFloat       (* row or probe is a double equal to 2^63 or >= 2^64 *)
| SurfCrossLane.           (* the satisfying row and the probe are encoded in different lanes *)

Definition known_class (rows : list (option sval)) (v p : sval) : option kclass :=
  if negb (zone_has_field rows) then Some SurfFirstRowLacksField
  else if saturates v || saturates p then Some SurfSaturatedFloat
  else
    match lane_of v, lane_of p with
    | Some a, Some b => if lane_eqb a b then None else Some SurfCrossLane
    | _, _ => None
    end.

(** audit of a result: every zone that holds a satisfying row but is missing from [res],
    with the known class of each satisfying row ([None] = no known class) *)
Fixpoint sat_classes (op : cmp_op) (p : sval) (all rows : list (option sval)) : list (option kclass) :=
  match rows with
  | [] => []
  | Some v :: r =>
      if sat op v p then known_class all v p :: sat_classes op p all r else sat_classes op p all r
  | None :: r => sat_classes op p all r
  end.

Definition n_mem (x : N) (l : list N) : bool := existsb (N.eqb x) l.

Fixpoint audit (zs : list zone) (op : cmp_op) (p : sval) (res : list N)
  : list (N * list (option kclass)) :=
  match zs with
  | [] => []
  | z :: r =>
      match sat_classes op p (snd z) (snd z) with
      | [] => audit r op p res
      | cl => if n_mem (fst z) res then audit r op p res else (fst z, cl) :: audit r op p res
      end
  end.
