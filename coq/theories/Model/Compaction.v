(** Compaction on top of Model/Shard.v: one batch of the k-way policy at a time.
    Source: src/engine/core/compaction/{policy,segment_batch,compaction_worker,
    multi_uid_compactor,handover}.rs, src/engine/core/segment/segment_index.rs.
    Definitions only.

    The planner iterates hash maps, so the order of batches and the assignment of
    output ids is unspecified; the model therefore takes a batch (output id, input
    labels, uids) as a label and checks that it is one the policy can produce
    ([batch_ok]); the step functions then do what process_batch / commit_batch /
    reclaim do. *)
From Coq Require Import NArith List Bool.
From Snel Require Import Gen.Params Model.Shard.
Import ListNotations.
Open Scope N_scope.

Record batch := mkBatch { b_out : N; b_inputs : list N; b_uids : list N }.

Definition level_of (id : N) : N := id / level_span.

Definition index_labels (ix : list (N * list N)) : list N := map fst ix.

Fixpoint index_uids (ix : list (N * list N)) (id : N) : list N :=
  match ix with
  | [] => []
  | (i, us) :: r => if i =? id then us else index_uids r id
  end.

(** labels of one level that list [u], sorted *)
Definition labels_of_uid (ix : list (N * list N)) (lvl u : N) : list N :=
  sort_n (map fst (filter (fun e => (level_of (fst e) =? lvl) && memb u (snd e)) ix)).

Fixpoint chunks_fuel (fuel : nat) (k : nat) (l : list N) : list (list N) :=
  match fuel with
  | O => []
  | S f => match l with
           | [] => []
           | _ => firstn k l :: chunks_fuel f k (skipn k l)
           end
  end.
Definition chunks (k : nat) (l : list N) : list (list N) := chunks_fuel (S (length l)) k l.

Fixpoint list_eqb (a b : list N) : bool :=
  match a, b with
  | [], [] => true
  | x :: a', y :: b' => (x =? y) && list_eqb a' b'
  | _, _ => false
  end.

(** the input lists the policy plans for one uid at one level:
    fewer than [thr] labels: none; [thr <= n < k]: all of them (forced);
    otherwise the full chunks of [k] (a short last chunk is left over). *)
Definition planned_inputs (ix : list (N * list N)) (k : N) (lvl u : N) : list (list N) :=
  let labels := labels_of_uid ix lvl u in
  let n := len labels in
  let thr := N.max 1 ((k * 2) / 3) in
  if n <? thr then []
  else if n <? k then [labels]
  else filter (fun c => len c =? k) (chunks (N.to_nat k) labels).

(** [next_for_level] of an allocator seeded from the index labels *)
Definition next_out (ix : list (N * list N)) (lvl : N) : N :=
  lvl * level_span +
  fold_left (fun m i => if level_of i =? lvl then N.max m (N.succ (i mod level_span)) else m)
            (index_labels ix) 0.

(** A batch the policy can produce on index [ix] with fan-in [k]: every uid of
    the batch has exactly these inputs as one of its planned chunks, the inputs
    sit on one level, the output id is on the next level at or above the
    allocator's next free id (several plans of one round take consecutive ids;
    all uids of a batch share the FIRST plan's id). *)
Definition batch_ok (ix : list (N * list N)) (k : N) (b : batch) : bool :=
  match b_inputs b with
  | [] => false
  | i0 :: _ =>
      let lvl := level_of i0 in
      negb (is_empty (b_uids b))
      && forallb (fun i => level_of i =? lvl) (b_inputs b)
      && forallb (fun u => existsb (list_eqb (b_inputs b)) (planned_inputs ix k lvl u)) (b_uids b)
      && (level_of (b_out b) =? N.succ lvl)
      && (next_out ix (N.succ lvl) <=? b_out b)
  end.

(** ** merge: rows of one uid from all inputs, ordered by context id.
    The implementation's heap compares context ids only, so the order of equal
    contexts coming from different inputs is not specified; the model uses the
    stable order (inputs in label order). *)
Definition rows_of (ds : list segdir) (id : N) : list event :=
  concat (map srows (filter (fun d => sid d =? id) ds)).

Definition merge_rows (ds : list segdir) (inputs : list N) (u : N) : list event :=
  flush_order (concat (map (fun i => of_uid u (rows_of ds i)) inputs)).

Definition batch_rows (ds : list segdir) (b : batch) : list event :=
  concat (map (merge_rows ds (b_inputs b)) (b_uids b)).

(** ** the visible steps of one batch: three that publish it, and the reclaim *)

(** process_batch: the output directory is written (files of the batch's uids;
    an existing directory of that name keeps the files of other uids). *)
Definition cp_write (s : shard) (b : batch) : shard :=
  let keep := filter (fun e => negb (memb (euid e) (b_uids b))) (rows_of (dirs s) (b_out b)) in
  let others := filter (fun d => negb (sid d =? b_out b)) (dirs s) in
  mkShard (cap s) (mem s) (passives s) (inflight s) (live s)
          (others ++ [mkSeg (b_out b) (keep ++ batch_rows (dirs s) b)]) (index s)
          (walq s) (walfiles s) (wcur s) (wcnt s) (wunlinked s) (alloc0 s) (jobs s) (wlost s).

(** commit_batch, index part: retire the uids from the input entries, entries
    left without uids are drained (removed), the output entry is inserted. *)
Definition retire (ix : list (N * list N)) (b : batch) : list (N * list N) :=
  map (fun e => if memb (fst e) (b_inputs b)
                then (fst e, filter (fun u => negb (memb u (b_uids b))) (snd e)) else e) ix.

Definition drained (ix : list (N * list N)) (b : batch) : list N :=
  map fst (filter (fun e => memb (fst e) (b_inputs b) && is_empty (snd e)) (retire ix b)).

Definition cp_index (s : shard) (b : batch) : shard :=
  let ix1 := filter (fun e => negb (memb (fst e) (b_inputs b) && is_empty (snd e))) (retire (index s) b) in
  let ix2 := filter (fun e => negb (fst e =? b_out b)) ix1 ++ [(b_out b, b_uids b)] in
  mkShard (cap s) (mem s) (passives s) (inflight s) (live s) (dirs s) ix2
          (walq s) (walfiles s) (wcur s) (wcnt s) (wunlinked s) (alloc0 s) (jobs s) (wlost s).

(** commit_batch, live list part: drained labels leave, the output joins, sorted. *)
Definition cp_live (s : shard) (b : batch) (dr : list N) : shard :=
  mkShard (cap s) (mem s) (passives s) (inflight s)
          (sort_n (filter (fun i => negb (memb i dr)) (live s) ++ [b_out b])) (dirs s) (index s)
          (walq s) (walfiles s) (wcur s) (wcnt s) (wunlinked s) (alloc0 s) (jobs s) (wlost s).

(** reclaim: drained directories are removed as a whole. *)
Definition cp_reclaim (s : shard) (dr : list N) : shard :=
  mkShard (cap s) (mem s) (passives s) (inflight s) (live s)
          (filter (fun d => negb (memb (sid d) dr)) (dirs s)) (index s)
          (walq s) (walfiles s) (wcur s) (wcnt s) (wunlinked s) (alloc0 s) (jobs s) (wlost s).

Inductive clabel :=
| CBase (l : label)
| CWrite (b : batch)          (* output written *)
| CIndex (b : batch)          (* segments.idx replaced *)
| CLive (b : batch) (dr : list N)   (* live list updated *)
| CReclaim (dr : list N).

Definition cstep (s : shard) (l : clabel) : shard :=
  match l with
  | CBase x => step s x
  | CWrite b => cp_write s b
  | CIndex b => cp_index s b
  | CLive b dr => cp_live s b dr
  | CReclaim dr => cp_reclaim s dr
  end.

Definition crun (s : shard) (ls : list clabel) : shard := fold_left cstep ls s.

(** one batch up to the live-list update, as compaction_worker + handover run it; the reclaim
    ([CReclaim (drained (index s) b)]) follows *)
Definition batch_steps (s : shard) (b : batch) : list clabel :=
  [CWrite b; CIndex b; CLive b (drained (index s) b)].

(** ** output ids within one process lifetime

    [KWayCountPolicy::plan] seeds its allocator from the labels the index holds at
    the start of the planning round; with [Params.compaction_ids_fresh_in_lifetime]
    (regenerated from policy.rs: the seed is [remember_labels(..)], i.e. also every
    label an earlier planning round of this process saw in the index) the allocator
    starts above every label of this and of every earlier round start of the
    lifetime, and inside a round it hands out consecutive ids.  The bookkeeping of
    one lifetime is [labels] - the index labels at every round start so far, empty
    when the process starts (a crash / restart resets it) - and [routs], the output
    ids already taken in the CURRENT round.  An output id whose batch did not
    reach its index entry (an error between output write and index save, without a
    crash) is in neither list at the next round and can be handed out again. *)
Definition seen_round_start (labels : list N) (ix : list (N * list N)) : list N := index_labels ix ++ labels.
Definition seen_batch (routs : list N) (b : batch) : list N := b_out b :: routs.

(** [seen] = [routs ++ labels] *)
Definition batch_ok_fresh (seen : list N) (ix : list (N * list N)) (k : N) (b : batch) : bool :=
  batch_ok ix k b && (if compaction_ids_fresh_in_lifetime then negb (memb (b_out b) seen) else true).
