(** Executable model of one shard's storage state machine (write path, WAL,
    background flush, crash / restart, reads).  Definitions only.

    Source: src/engine/store/insert.rs, src/engine/shard/{context,worker}.rs,
    src/engine/core/wal/{wal_handle,inner_wal_writer,wal_cleaner,wal_recovery}.rs,
    src/engine/core/write/{flush_manager,flush_worker,flusher}.rs,
    src/engine/core/segment/{segment_id_loader,range_allocator}.rs,
    src/engine/query/streaming/scan.rs.

    Labelled small steps: every label corresponds to a hook step point of the
    engine (src/verif_hooks.rs), so a run of the real engine yields a label
    sequence that this model replays (trace validation). *)
From Coq Require Import NArith List Bool.
From Snel Require Import Gen.Params.
Import ListNotations.
Open Scope N_scope.

(** An event: unique key [ek] (stands for the event id / payload), context and
    event-type (uid) indexes. Context indexes are ordered as the context strings. *)
Record event := mkEv { ek : N; ectx : N; euid : N }.

Definition ev_eqb (a b : event) : bool :=
  (ek a =? ek b) && (ectx a =? ectx b) && (euid a =? euid b).

(** A segment directory: id and its rows in written order. The files of uid [u]
    exist in the directory iff some row has uid [u]. *)
Record segdir := mkSeg { sid : N; srows : list event }.

Inductive stage := StQueued | StBegun | StIndexed | StPublished | StCleared | StWalCleaned.

Record job := mkJob { jseg : N; jevs : list event; jstage : stage }.

Record shard := mkShard {
  cap : N;                               (* fill_factor * event_per_zone *)
  mem : list event;                      (* active memtable, apply order *)
  passives : list (N * list event);      (* rotated copies; [] once released *)
  inflight : list N;                     (* in-flight segment markers *)
  live : list N;                         (* volatile live segment list *)
  dirs : list segdir;                    (* segment directories on disk *)
  index : list (N * list N);             (* segments.idx: id, uids *)
  walq : list event;                     (* handed to the WAL thread, not yet written *)
  walfiles : list (N * list event);      (* wal-<id>.log on disk *)
  wcur : N;                              (* writer: current log id *)
  wcnt : N;                              (* writer: entries_written *)
  wunlinked : bool;                      (* the writer's open file was deleted under it *)
  alloc0 : N;                            (* next level-0 segment offset *)
  jobs : list job;                       (* flush queue, head = job being processed *)
  wlost : list event                     (* ghost: entries whose WAL write went to an unlinked file *)
}.

Definition init (c : N) : shard :=
  mkShard c [] [] [] [] [] [] [] [(0, [])] 0 0 false 0 [] [].

(** ** helpers *)
Definition memb (x : N) (l : list N) : bool := existsb (N.eqb x) l.

Fixpoint remove_n (x : N) (l : list N) : list N :=
  match l with [] => [] | y :: r => if x =? y then remove_n x r else y :: remove_n x r end.

Fixpoint insert_sorted (x : N) (l : list N) : list N :=
  match l with
  | [] => [x]
  | y :: r => if x <=? y then x :: l else y :: insert_sorted x r
  end.
Definition sort_n (l : list N) : list N := fold_right insert_sorted [] l.

Fixpoint dedup_n (l : list N) : list N :=
  match l with [] => [] | x :: r => if memb x r then dedup_n r else x :: dedup_n r end.

Definition len {A} (l : list A) : N := N.of_nat (length l).

(** flusher order: contexts in BTreeMap order, append order inside a context
    (a stable sort by context); regrouping by type keeps the relative order. *)
Fixpoint insert_by_ctx (e : event) (l : list event) : list event :=
  match l with
  | [] => [e]
  | x :: r => if ectx x <=? ectx e then x :: insert_by_ctx e r else e :: l
  end.
Definition flush_order (evs : list event) : list event :=
  fold_left (fun acc e => insert_by_ctx e acc) evs [].

Definition uids_of (evs : list event) : list N := sort_n (dedup_n (map euid evs)).

(** ** write path *)

Definition rotate (s : shard) : shard :=
  let seg := alloc0 s in
  mkShard (cap s) [] (passives s ++ [(seg, mem s)]) (inflight s) (live s) (dirs s) (index s)
          (walq s) (walfiles s) (wcur s) (wcnt s) (wunlinked s) (N.succ seg)
          (jobs s ++ [mkJob seg (mem s) StQueued]) (wlost s).

(** STORE applied on the shard: WAL send, memtable insert, rotation when full. *)
Definition store (s : shard) (e : event) : shard :=
  let s1 := mkShard (cap s) (mem s ++ [e]) (passives s) (inflight s) (live s) (dirs s) (index s)
                    (walq s ++ [e]) (walfiles s) (wcur s) (wcnt s) (wunlinked s) (alloc0 s) (jobs s) (wlost s) in
  if cap s <=? len (mem s1) then rotate s1 else s1.

(** manual FLUSH: rotation happens unconditionally (also for an empty memtable). *)
Definition flush_cmd (s : shard) : shard := rotate s.

(** ** WAL thread *)

Fixpoint wal_append (files : list (N * list event)) (id : N) (e : event) : list (N * list event) :=
  match files with
  | [] => [(id, [e])]
  | (i, es) :: r =>
      if i =? id then (i, es ++ [e]) :: r
      else if id <? i then (id, [e]) :: files
      else (i, es) :: wal_append r id e
  end.

Fixpoint wal_touch (files : list (N * list event)) (id : N) : list (N * list event) :=
  match files with
  | [] => [(id, [])]
  | (i, es) :: r =>
      if i =? id then files
      else if id <? i then (id, []) :: files
      else (i, es) :: wal_touch r id
  end.

Definition wal_max_id (files : list (N * list event)) : N :=
  fold_left (fun m f => N.max m (fst f)) files 0.

Fixpoint wal_lines (files : list (N * list event)) (id : N) : N :=
  match files with
  | [] => 0
  | (i, es) :: r => if i =? id then len es else wal_lines r id
  end.

(** [count_entries]: lines of the highest-numbered log file. *)
Definition wal_count_entries (files : list (N * list event)) : N :=
  wal_lines files (wal_max_id files).

(** One entry is written ([append_immediate]). A write into an unlinked file is lost. *)
Definition wal_write (s : shard) : shard :=
  match walq s with
  | [] => s
  | e :: q =>
      let files1 := if wunlinked s then walfiles s else wal_append (walfiles s) (wcur s) e in
      mkShard (cap s) (mem s) (passives s) (inflight s) (live s) (dirs s) (index s)
              q files1 (wcur s) (N.succ (wcnt s)) (wunlinked s) (alloc0 s) (jobs s)
              (if wunlinked s then wlost s ++ [e] else wlost s)
  end.

(** The WAL thread rotates right after a write when [entries_written >= cap]:
    flush+close, id+1, (re)open in append mode, [entries_written] := lines of the
    highest-numbered file. *)
Definition wal_rotate (s : shard) : shard :=
  if cap s <=? wcnt s then
    let cur2 := N.succ (wcur s) in
    let files2 := wal_touch (walfiles s) cur2 in
    mkShard (cap s) (mem s) (passives s) (inflight s) (live s) (dirs s) (index s)
            (walq s) files2 cur2 (wal_count_entries files2) false (alloc0 s) (jobs s) (wlost s)
  else s.

(** ** background flush: the head job advances one stage per label *)

Definition set_jobs (s : shard) (j : list job) : shard :=
  mkShard (cap s) (mem s) (passives s) (inflight s) (live s) (dirs s) (index s)
          (walq s) (walfiles s) (wcur s) (wcnt s) (wunlinked s) (alloc0 s) j (wlost s).

Definition clear_passive (ps : list (N * list event)) (seg : N) : list (N * list event) :=
  map (fun p => if fst p =? seg then (fst p, []) else p) ps.

Definition wal_cleanup (files : list (N * list event)) (keep_from : N) : list (N * list event) :=
  filter (fun f => negb (fst f <? keep_from)) files.

Fixpoint dir_add_rows (ds : list segdir) (seg : N) (rows : list event) : list segdir :=
  match ds with
  | [] => [mkSeg seg rows]
  | d :: r => if sid d =? seg then mkSeg seg (srows d ++ rows) :: r else d :: dir_add_rows r seg rows
  end.

Definition dir_has_uid (s : shard) (seg u : N) : bool :=
  existsb (fun d => (sid d =? seg) && existsb (fun e => euid e =? u) (srows d)) (dirs s).

(** ghost bookkeeping for C01: the entries of a deleted log file that are in no
    segment directory at that moment are no longer recoverable after a crash *)
Definition in_dirs (ds : list segdir) (e : event) : bool :=
  existsb (fun d => existsb (ev_eqb e) (srows d)) ds.
Definition pruned_unsaved (ds : list segdir) (deleted : list (N * list event)) : list event :=
  filter (fun e => negb (in_dirs ds e)) (concat (map snd deleted)).

Inductive fwlabel := FwBegin | FwMkdir | FwWrite (u : N) | FwIndex | FwPublish | FwClear | FwWalDel (id : N) | FwWalClean | FwDone.

Definition is_empty {A} (l : list A) : bool := match l with [] => true | _ => false end.

Definition fw_step (s : shard) (l : fwlabel) : shard :=
  match jobs s with
  | [] => s
  | j :: rest =>
      let seg := jseg j in
      let adv st := mkJob seg (jevs j) st :: rest in
      match l, jstage j with
      | FwBegin, StQueued =>
          mkShard (cap s) (mem s) (passives s) (inflight s ++ [seg]) (live s) (dirs s) (index s)
                  (walq s) (walfiles s) (wcur s) (wcnt s) (wunlinked s) (alloc0 s) (adv StBegun) (wlost s)
      | FwMkdir, StBegun =>
          mkShard (cap s) (mem s) (passives s) (inflight s) (live s)
                  (dir_add_rows (dirs s) seg []) (index s)
                  (walq s) (walfiles s) (wcur s) (wcnt s) (wunlinked s) (alloc0 s) (jobs s) (wlost s)
      | FwWrite u, StBegun =>
          (* the files of one event type are written (the directory is created first);
             each type of the rotated memtable is written exactly once *)
          if negb (memb u (uids_of (jevs j))) || dir_has_uid s seg u then s else
          mkShard (cap s) (mem s) (passives s) (inflight s) (live s)
                  (dir_add_rows (dirs s) seg (filter (fun e => euid e =? u) (flush_order (jevs j)))) (index s)
                  (walq s) (walfiles s) (wcur s) (wcnt s) (wunlinked s) (alloc0 s) (jobs s) (wlost s)
      | FwIndex, StBegun =>
          (* the index entry is added after every type has been written *)
          if is_empty (jevs j) || negb (forallb (dir_has_uid s seg) (uids_of (jevs j))) then s
          else
            mkShard (cap s) (mem s) (passives s) (inflight s) (live s) (dirs s)
                    (index s ++ [(seg, uids_of (jevs j))])
                    (walq s) (walfiles s) (wcur s) (wcnt s) (wunlinked s) (alloc0 s) (adv StIndexed) (wlost s)
      | FwPublish, StIndexed =>
          if is_empty (jevs j) then set_jobs s (adv StPublished)
          else
            mkShard (cap s) (mem s) (passives s) (inflight s)
                    (if memb seg (live s) then live s else live s ++ [seg]) (dirs s) (index s)
                    (walq s) (walfiles s) (wcur s) (wcnt s) (wunlinked s) (alloc0 s) (adv StPublished) (wlost s)
      | FwClear, StPublished =>
          if is_empty (jevs j) then set_jobs s (adv StCleared)
          else
            mkShard (cap s) (mem s) (clear_passive (passives s) seg) (inflight s) (live s) (dirs s) (index s)
                    (walq s) (walfiles s) (wcur s) (wcnt s) (wunlinked s) (alloc0 s) (adv StCleared) (wlost s)
      | FwWalDel id, StCleared =>
          (* one obsolete log file is deleted *)
          if is_empty (jevs j) || negb (id <? N.succ seg) then s
          else
            let files' := filter (fun f => negb (fst f =? id)) (walfiles s) in
            let unl := wunlinked s || (wcur s =? id) in
            mkShard (cap s) (mem s) (passives s) (inflight s) (live s) (dirs s) (index s)
                    (walq s) files' (wcur s) (wcnt s) unl (alloc0 s) (jobs s)
                    (wlost s ++ pruned_unsaved (dirs s) (filter (fun f => fst f =? id) (walfiles s)))
      | FwWalClean, StCleared =>
          if is_empty (jevs j) then set_jobs s (adv StWalCleaned)
          else
            let keep := N.succ seg in
            let files' := wal_cleanup (walfiles s) keep in
            let unl := wunlinked s || ((wcur s <? keep) && negb (is_empty (filter (fun f => fst f =? wcur s) (walfiles s)))) in
            mkShard (cap s) (mem s) (passives s) (inflight s) (live s) (dirs s) (index s)
                    (walq s) files' (wcur s) (wcnt s) unl (alloc0 s) (adv StWalCleaned)
                    (wlost s ++ pruned_unsaved (dirs s) (filter (fun f => fst f <? keep) (walfiles s)))
      | FwDone, StBegun =>
          (* an empty memtable: the worker returns right after the (no-op) flush *)
          if is_empty (jevs j) then
            mkShard (cap s) (mem s) (passives s) (remove_n seg (inflight s)) (live s) (dirs s) (index s)
                    (walq s) (walfiles s) (wcur s) (wcnt s) (wunlinked s) (alloc0 s) rest (wlost s)
          else s
      | FwDone, StWalCleaned =>
          mkShard (cap s) (mem s) (passives s) (remove_n seg (inflight s)) (live s) (dirs s) (index s)
                  (walq s) (walfiles s) (wcur s) (wcnt s) (wunlinked s) (alloc0 s) rest (wlost s)
      | _, _ => s
      end
  end.

(** ** crash and restart *)

(** A process crash loses everything volatile. With [flush_each_write] every
    written WAL entry is already in the file. *)
Definition crash (s : shard) : shard :=
  mkShard (cap s) [] [] [] [] (dirs s) (index s) [] (walfiles s) (wcur s) (wcnt s) false (alloc0 s) [] (wlost s).

Definition level_span : N := 10000.

(** [RangeAllocator::from_existing_ids] for level 0: max offset + 1 among ids below LEVEL_SPAN. *)
Definition alloc0_from (ids : list N) : N :=
  fold_left (fun m i => if i <? level_span then N.max m (N.succ i) else m) ids 0.

(** [find_next_wal_id] *)
Definition find_next_wal_id (c : N) (files : list (N * list event)) : N :=
  let last := wal_max_id files in
  if last =? 0 then 0
  else if wal_lines files last <? c then last else N.succ last.

Definition restart (s : shard) : shard :=
  let ids := sort_n (map sid (dirs s)) in
  let cur := find_next_wal_id (cap s) (walfiles s) in
  let files' := wal_touch (walfiles s) cur in
  mkShard (cap s) (concat (map snd (walfiles s))) [] [] ids (dirs s) (index s)
          [] files' cur (wal_count_entries files') false (alloc0_from ids) [] (wlost s).

(** ** the labelled transition function *)

Inductive label :=
| LStore (e : event)
| LFlushCmd
| LWalWrite
| LWalRotate
| LFw (l : fwlabel)
| LCrash
| LRestart.

Definition step (s : shard) (l : label) : shard :=
  match l with
  | LStore e => store s e
  | LFlushCmd => flush_cmd s
  | LWalWrite => wal_write s
  | LWalRotate => wal_rotate s
  | LFw f => fw_step s f
  | LCrash => crash s
  | LRestart => restart s
  end.

Definition run (s : shard) (ls : list label) : shard := fold_left step ls s.

(** ** reads *)

Definition of_uid (u : N) (evs : list event) : list event := filter (fun e => euid e =? u) evs.

(** A directory is scanned when its id is in the live list or carries an
    in-flight marker (and it exists on disk). *)
Definition scanned_dirs (s : shard) : list segdir :=
  filter (fun d => memb (sid d) (live s) || memb (sid d) (inflight s)) (dirs s).

Definition mem_rows (s : shard) : list event := mem s ++ concat (map snd (passives s)).
Definition seg_rows (s : shard) : list event := concat (map srows (scanned_dirs s)).

(** every row a scan for uid [u] produces (aggregates see exactly these, without de-duplication) *)
Definition scan (s : shard) (u : N) : list event := of_uid u (mem_rows s ++ seg_rows s).

Fixpoint dedup_ev (l : list event) (seen : list N) : list event :=
  match l with
  | [] => []
  | e :: r => if memb (ek e) seen then dedup_ev r seen else e :: dedup_ev r (ek e :: seen)
  end.

(** what a selection returns: the response writer drops repeated event ids *)
Definition select (s : shard) (u : N) : list event := dedup_ev (scan s u) [].

(** While a segment carries the in-flight marker and has no files for the queried
    event type (directory missing, that type not written yet, or the rotated memtable
    holds no event of that type at all) the segment flow of a read may fail as a
    whole; the read then returns the in-memory rows only.  Observed on the
    implementation (schedule dependent), see the C03 known findings. *)
Definition fragile (s : shard) (u : N) : bool :=
  existsb (fun seg => negb (dir_has_uid s seg u)) (inflight s).
Definition select_mem_only (s : shard) (u : N) : list event := dedup_ev (of_uid u (mem_rows s)) [].
Definition select_outcomes (s : shard) (u : N) : list (list event) :=
  if fragile s u then [select s u; select_mem_only s u] else [select s u].
(** what an aggregate counts.  The segment flow is filtered by event type (zones are per type).  The
    in-memory flow (active memtable + passive copies) is filtered by the event-type / context / time
    conditions iff the memtable read paths build their evaluator with them for aggregation plans
    ([Params.agg_mem_filters_type], regenerated from condition_evaluator_builder.rs, memtable_source.rs and
    memtable_query.rs; true with sneldb commit dc170f4, otherwise every in-memory row is counted).  Rows present
    both in memory and in a scanned segment are counted twice either way (aggregation happens before the
    id de-duplication). *)
Definition count_with (mem_typed : bool) (s : shard) (u : N) : N :=
  len (if mem_typed then of_uid u (mem_rows s) else mem_rows s) + len (of_uid u (seg_rows s)).
Definition count (s : shard) (u : N) : N := count_with agg_mem_filters_type s u.
(** the count an exact aggregate would report *)
Definition count_exact (s : shard) (u : N) : N := len (scan s u).

(** REPLAY of a context: the memtable flow and the segment flow are merged by
    plain fan-in, so the result is some interleaving of these two sequences. *)
Definition of_ctx (c : N) (evs : list event) : list event := filter (fun e => ectx e =? c) evs.
Definition replay_mem (s : shard) (u c : N) : list event := of_ctx c (of_uid u (mem_rows s)).
Definition replay_seg (s : shard) (u c : N) : list event := of_ctx c (of_uid u (seg_rows s)).
