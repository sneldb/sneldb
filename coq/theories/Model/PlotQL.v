(** Model of src/command/parser/commands/plotql.rs: the PLOT grammar (a peg grammar with its own
    copy of the expression rules over its own leaves) and the assembly of the parsed clauses
    into [Command::Query] / [Command::Compare].  Executable definitions only. *)
From Coq Require Import NArith ZArith List Bool.
From Snel Require Import Base.Bytes Model.Tokenizer Model.Parser.
Import ListNotations.
Open Scope N_scope.

Definition K_PLOT : bytes := [80; 76; 79; 84].
Definition K_OF : bytes := [79; 70].
Definition K_VS : bytes := [86; 83].
Definition K_SUM : bytes := [83; 85; 77].
Definition K_THEN : bytes := [84; 72; 69; 78].
Definition K_BREAKDOWN : bytes := [66; 82; 69; 65; 75; 68; 79; 87; 78].
Definition K_OVER : bytes := [79; 86; 69; 82].
Definition K_FILTER : bytes := [70; 73; 76; 84; 69; 82].
Definition K_TOP : bytes := [84; 79; 80].
Definition K_EXISTS : bytes := [69; 88; 73; 83; 84; 83].

(** * Terminals *)

Definition is_pa (c : N) : bool := is_alpha c || is_digit c || (c =? 95).

(** after the first run of [a-zA-Z0-9_]: groups of one '-' followed by at least one such character *)
Fixpoint pid_tail (fuel : nat) (s : bytes) : bytes * bytes :=
  match fuel with
  | O => ([], s)
  | S f =>
      match s with
      | c :: r =>
          if c =? 45 then
            let '(a, r') := span is_pa r in
            match a with
            | [] => ([], s)
            | _ => let '(t, r'') := pid_tail f r' in (45 :: a ++ t, r'')
            end
          else ([], s)
      | [] => ([], s)
      end
  end.

(** [rule identifier()] *)
Definition p_ident (s : bytes) : option (bytes * bytes) :=
  match s with
  | c :: r =>
      if is_ident_start c then
        let '(a, r1) := span is_pa r in
        let '(t, r2) := pid_tail (length r1) r1 in
        Some (c :: a ++ t, r2)
      else None
  | [] => None
  end.

Definition p_field (s : bytes) : option (bytes * bytes) :=
  match p_ident s with
  | Some (i, r) =>
      match r with
      | c :: r1 =>
          if c =? 46 then
            match p_ident r1 with
            | Some (j, r2) => Some (i ++ 46 :: j, r2)
            | None => Some (i, r)
            end
          else Some (i, r)
      | [] => Some (i, r)
      end
  | None => None
  end.

Definition p_identp : P bytes := lift p_ident.
Definition p_fieldp : P bytes := lift p_field.

(** [value = string_literal / number / identifier]; [number] is fallible here ([parse_json_number]) *)
Definition p_value : P jval :=
  alt (fun s => match string_lit s with Some (a, r) => Ok (VStr a, r) | None => Err end)
      (alt (number true)
           (fun s => match p_ident s with Some (a, r) => Ok (VStr a, r) | None => Err end)).

(** [comparison_op]: "=" "!=" ">=" "<=" ">" "<" - the only operators that are a prefix of another are ">" of ">="
    and "<" of "<=", and each is tried after the longer one, here as in query.rs; so the order of query.rs
    ([cmp_op]) gives the same choice *)
Definition p_comparison : P expr :=
  let* f := p_fieldp in
  let* _ := skip in
  let* op := lift cmp_op in
  let* _ := skip in
  let* v := p_value in
  ret (ECmp f op v).

(** [value_list = head:value() tail:( _? "," _? v:value() )*] (at least one value) *)
Definition p_value_list : P (list jval) :=
  let* v := p_value in
  let* vs := (fun s => many (S (length s))
                            (fun s1 => match comma_sep s1 with Some s2 => p_value s2 | None => Err end) s) in
  ret (v :: vs).

Definition p_in_expr : P expr :=
  let* f := p_fieldp in
  let* _ := skip in
  let* _ := kw K_IN in
  let* _ := skip in
  let* _ := sym 40 in
  let* _ := skip in
  let* vs := p_value_list in
  let* _ := skip in
  let* _ := sym 41 in
  ret (EIn f vs).

(** [exists_expr]: the field is the text "exists(<id>)" *)
Definition exists_field (id : bytes) : bytes := [101; 120; 105; 115; 116; 115; 40] ++ id ++ [41].
Definition p_exists_args (v : bool) : P expr :=
  let* _ := kw K_EXISTS in let* _ := skip in
  let* _ := sym 40 in let* _ := skip in
  let* id := p_identp in let* _ := skip in
  let* _ := sym 41 in
  ret (ECmp (exists_field id) OpEq (VBool v)).
Definition p_exists_expr : P expr :=
  alt (let* _ := kw K_NOT in let* _ := skip in p_exists_args false) (p_exists_args true).

Definition p_leaf : P expr := alt p_comparison (alt p_in_expr p_exists_expr).

Definition p_expression : P expr := fun s => or_expr_g p_leaf (expr_fuel s) s.

(** * Metric, events, clauses *)

Inductive metric :=
| MCountAll | MCountField (f : bytes) | MCountUnique (f : bytes)
| MTotal (f : bytes) | MAvg (f : bytes) | MMin (f : bytes) | MMax (f : bytes).

Definition paren_field : P bytes :=
  let* _ := skip in let* _ := sym 40 in let* _ := skip in
  let* f := p_fieldp in
  let* _ := skip in let* _ := sym 41 in ret f.

Definition agg_func : P (bytes -> metric) :=
  alt (let* _ := kw K_TOTAL in ret MTotal)
 (alt (let* _ := kw K_SUM in ret MTotal)
 (alt (let* _ := kw K_AVG in ret MAvg)
 (alt (let* _ := kw K_MIN in ret MMin)
      (let* _ := kw K_MAX in ret MMax)))).

Definition metric_expr : P metric :=
  alt (let* mk := agg_func in let* f := paren_field in ret (mk f))
 (alt (let* _ := kw K_COUNT in let* f := paren_field in ret (MCountField f))
 (alt (let* _ := kw K_COUNT in ret MCountAll)
      (let* _ := kw K_UNIQUE in let* f := paren_field in ret (MCountUnique f)))).

(** ["->" / ci("THEN")] *)
Definition seq_sep : P unit :=
  alt (fun s => match s with
                | a :: r => match r with
                            | c :: r' => if (a =? 45) && (c =? 62) then Ok (tt, r') else Err
                            | [] => Err
                            end
                | [] => Err
                end)
      (kw K_THEN).

Definition p_events : P (list bytes) :=
  let* head := p_identp in
  let* tail := (fun s => many (S (length s))
                              (let* _ := skip in let* _ := seq_sep in let* _ := skip in p_identp) s) in
  ret (head :: tail).

Inductive topby := TopField (f : bytes) | TopMetric (m : metric).

Inductive pclause :=
| PBreakdown (l : list bytes)
| PTime (g : gran) (f : bytes)
| PFilter (e : expr)
| PTop (n : N) (by_ : option topby).

Definition p_field_list : P (list bytes) :=
  let* f := p_fieldp in
  let* fs := (fun s => many (S (length s))
                            (fun s1 => match comma_sep s1 with Some s2 => p_fieldp s2 | None => Err end) s) in
  ret (f :: fs).

Definition breakdown_clause : P pclause :=
  let* _ := kw K_BREAKDOWN in let* _ := skip in
  let* _ := kw K_BY in let* _ := skip in
  let* l := p_field_list in ret (PBreakdown l).

Definition ptime_clause : P pclause :=
  let* _ := kw K_OVER in let* _ := skip in
  let* g := granularity in
  let* f := paren_field in ret (PTime g f).

Definition filter_clause : P pclause :=
  let* _ := kw K_FILTER in let* _ := skip in
  let* e := p_expression in ret (PFilter e).

(** [integer() -> u32]: i64 parse, negative rejected, then [value as u32] (truncation to 32 bits) *)
Definition p_integer : P N :=
  fun s => match integer s with
           | Some ((neg, d), r) =>
               let v := digits_val d 0 in
               if neg then (if v =? 0 then Ok (0, r) else Err)
               else if v <=? 9223372036854775807 then Ok (v mod 4294967296, r) else Err
           | None => Err
           end.

Definition top_by_target : P topby :=
  alt (let* m := metric_expr in ret (TopMetric m)) (let* f := p_fieldp in ret (TopField f)).

Definition top_clause : P pclause :=
  let* _ := kw K_TOP in let* _ := skip in
  let* n := p_integer in
  let* by_ := opt (let* _ := skip in let* _ := kw K_BY in let* _ := skip in top_by_target) in
  ret (PTop n by_).

Definition clause_before_vs : P pclause := alt filter_clause top_clause.
Definition clause_after_vs : P pclause := alt breakdown_clause (alt ptime_clause top_clause).

Definition clauses_of (p : P pclause) : P (list pclause) :=
  fun s => many (S (length s)) (let* _ := skip in p) s.

Record side := mkSide { sd_metric : metric; sd_events : list bytes; sd_clauses : list pclause }.

Definition metric_of_events : P side :=
  let* m := metric_expr in let* _ := skip in
  let* _ := kw K_OF in let* _ := skip in
  let* ev := p_events in
  let* cl := clauses_of clause_before_vs in
  ret (mkSide m ev cl).

Definition plot_rule : P (side * list side * list pclause) :=
  let* _ := skip in
  let* _ := kw K_PLOT in let* _ := skip in
  let* main := metric_of_events in
  let* sides := (fun s => many (S (length s))
                               (let* _ := skip in let* _ := kw K_VS in let* _ := skip in metric_of_events) s) in
  let* after := clauses_of clause_after_vs in
  let* _ := skip in
  let* _ := eof in
  ret (main, sides, after).

(** * Assembly (PlotQueryParts::into_command) *)

Definition metric_eqb (a b : metric) : bool :=
  match a, b with
  | MCountAll, MCountAll => true
  | MCountField x, MCountField y | MCountUnique x, MCountUnique y | MTotal x, MTotal y
  | MAvg x, MAvg y | MMin x, MMin y | MMax x, MMax y => bytes_eqb x y
  | _, _ => false
  end.

Definition agg_of_metric (m : metric) : agg :=
  match m with
  | MCountAll => ACount None | MCountField f => ACountField f | MCountUnique f => ACount (Some f)
  | MTotal f => ATotal f | MAvg f => AAvg f | MMin f => AMin f | MMax f => AMax f
  end.

Definition S_count : bytes := [99; 111; 117; 110; 116].                       (* count *)
Definition S_count_ : bytes := [99; 111; 117; 110; 116; 95].                  (* count_ *)
Definition S_count_unique_ : bytes := [99; 111; 117; 110; 116; 95; 117; 110; 105; 113; 117; 101; 95].
Definition S_total_ : bytes := [116; 111; 116; 97; 108; 95].
Definition S_avg_ : bytes := [97; 118; 103; 95].
Definition S_min_ : bytes := [109; 105; 110; 95].
Definition S_max_ : bytes := [109; 97; 120; 95].

Definition metric_field_name (m : metric) : bytes :=
  match m with
  | MCountAll => S_count | MCountField f => S_count_ ++ f | MCountUnique f => S_count_unique_ ++ f
  | MTotal f => S_total_ ++ f | MAvg f => S_avg_ ++ f | MMin f => S_min_ ++ f | MMax f => S_max_ ++ f
  end.

(** per-side state: filter (conjunction of the FILTER clauses, in order), top, top target *)
Definition side_fold (acc : option expr * option N * option topby) (c : pclause) :=
  let '(flt, top, tby) := acc in
  match c with
  | PFilter e => (Some (match flt with Some x => EAnd x e | None => e end), top, tby)
  | PTop n b => (flt, Some n, b)
  | _ => acc
  end.

(** shared state: time, breakdown, top, top target *)
Definition shared_fold (acc : option (gran * bytes) * option (list bytes) * option N * option topby) (c : pclause) :=
  let '(tm, bd, top, tby) := acc in
  match c with
  | PBreakdown l => (tm, Some l, top, tby)
  | PTime g f => (Some (g, f), bd, top, tby)
  | PTop n b => (tm, bd, Some n, b)
  | PFilter _ => acc
  end.

Definition or_opt {A} (a b : option A) : option A := match a with Some _ => a | None => b end.

Definition build_query (shared : option (gran * bytes) * option (list bytes) * option N * option topby) (sd : side) : query :=
  let '(tm, bd, stop, stby) := shared in
  let '(flt, top0, tby0) := fold_left side_fold (sd_clauses sd) (None, None, None) in
  let top := or_opt stop top0 in
  let tby := or_opt stby tby0 in
  let m := sd_metric sd in
  let aggs0 := [agg_of_metric m] in
  let '(aggs, order) :=
    match top with
    | None => (aggs0, None)
    | Some _ =>
        match tby with
        | Some (TopField f) => (aggs0, Some (f, true))
        | Some (TopMetric m2) =>
            ((if metric_eqb m m2 then aggs0 else aggs0 ++ [agg_of_metric m2]), Some (metric_field_name m2, true))
        | None => (aggs0, Some (metric_field_name m, true))
        end
    end in
  let '(ev, links) := match sd_events sd with
                      | e :: rest => (e, map (fun x => (FollowedBy, x)) rest)
                      | [] => ([42], [])
                      end in
  mkQuery ev None None (option_map snd tm) None flt top None order None None (Some aggs) (option_map fst tm) bd links.

Inductive plot_result := PlotQuery (q : query) | PlotCompare (qs : list query).

Definition parse_plot (s : bytes) : res plot_result :=
  match plot_rule s with
  | Ok ((main, sides, after), _) =>
      if forallb (fun sd => metric_eqb (sd_metric main) (sd_metric sd)) sides then
        let shared := fold_left shared_fold after (None, None, None, None) in
        match sides with
        | [] => Ok (PlotQuery (build_query shared main))
        | _ => Ok (PlotCompare (build_query shared main :: map (build_query shared) sides))
        end
      else Err
  | Err => Err
  | Panic k => Panic k
  | OOF => OOF
  end.
