(** Model of the WAL archive path of sneldb — executable definitions only.

    Rust sources: src/engine/core/wal/{wal_cleaner,wal_archiver,wal_archive,
    wal_archive_recovery}.rs, src/engine/types/mod.rs (ScalarValue serde),
    src/bin/wal_archive_manager.rs (calls [archive_log] / [recover_all]) and the call
    [WalCleaner::new(shard).cleanup_up_to(segment_id + 1)] in flush_worker.rs.

    A directory is an association list name -> object (names are byte strings).  WAL lines are
    classified, not parsed: JSON number/float parsing of serde_json is outside the model, the
    classification of a raw line is supplied with the case (and checked against the real code by the
    differential run).  Everything that happens *after* a line has been recognised — the mapping of
    JSON values to [ScalarValue], the BTreeMap, the MessagePack round trip, file naming, the fault
    behaviour of the archive directory, deletion, recovery order — is modelled here. *)
From Coq Require Import NArith ZArith List Bool.
From Snel Require Import Base.Bytes Gen.Params.
Import ListNotations.
Open Scope N_scope.

(** ** Values *)

(** A JSON value as serde_json delivers it to [ScalarValue::from]: integers are those that fit
    i64 or u64 ([JInt z] with -2^63 <= z < 2^64), every other number is an f64 (bit pattern),
    arrays/objects are carried as the text [serde_json::to_string] prints for them. *)
Inductive jvalue :=
| JNull | JBool (b : bool) | JInt (z : Z) | JFloat (bits : N) | JStr (s : bytes) | JNested (canon : bytes).

(** [ScalarValue] *)
Inductive scalar :=
| SNull | SBool (b : bool) | SInt (z : Z) | SFloat (bits : N) | STimestamp (z : Z)
| SUtf8 (s : bytes) | SBinary (b : bytes).

Definition i64_max : Z := (2 ^ 63 - 1)%Z.

(** [impl From<JsonValue> for ScalarValue] — the lossy step of reading a WAL line:
    u64 above i64::MAX becomes its decimal text, arrays/objects become their JSON text. *)
Definition scalar_of_json (v : jvalue) : scalar :=
  match v with
  | JNull => SNull
  | JBool b => SBool b
  | JInt z => if (z <=? i64_max)%Z then SInt z else SUtf8 (dec_of_Z z)
  | JFloat bits => SFloat bits
  | JStr s => SUtf8 s
  | JNested c => SUtf8 c
  end.

(** standard base64 with padding ([BASE64_STANDARD.encode]) *)
Definition b64_char (i : N) : N :=
  if i <? 26 then 65 + i else if i <? 52 then 97 + (i - 26) else if i <? 62 then 48 + (i - 52)
  else if i =? 62 then 43 else 47.
Fixpoint base64 (b : bytes) : bytes :=
  match b with
  | [] => []
  | [x] => [b64_char (x / 4); b64_char ((x mod 4) * 16); 61; 61]
  | [x; y] => [b64_char (x / 4); b64_char ((x mod 4) * 16 + y / 16); b64_char ((y mod 16) * 4); 61]
  | x :: y :: z :: r =>
      b64_char (x / 4) :: b64_char ((x mod 4) * 16 + y / 16) :: b64_char ((y mod 16) * 4 + z / 64)
      :: b64_char (z mod 64) :: base64 r
  end.

(** finite f64 bit pattern: exponent field not all ones *)
Definition f64_finite (bits : N) : bool := negb (((bits / 2 ^ 52) mod 2 ^ 11) =? 2047).

(** One trip through the archive encoding: [impl Serialize for ScalarValue] into MessagePack, then
    [impl Deserialize] = [serde_json::Value::deserialize] followed by [ScalarValue::from].
    Timestamp -> Int64, Binary -> base64 text, NaN/inf -> Null (serde_json's [visit_f64]). *)
Definition mp_roundtrip (v : scalar) : scalar :=
  match v with
  | SNull => SNull
  | SBool b => SBool b
  | SInt z => SInt z
  | SFloat bits => if f64_finite bits then SFloat bits else SNull
  | STimestamp z => SInt z
  | SUtf8 s => SUtf8 s
  | SBinary b => SUtf8 (base64 b)
  end.

(** ** Entries *)

Record entry := mkEntry {
  e_ts : N; e_ctx : bytes; e_type : bytes; e_payload : list (bytes * scalar); e_id : N }.

(** the fields of a recognised WAL line, payload pairs in line order *)
Record jentry := mkJEntry {
  j_ts : N; j_ctx : bytes; j_type : bytes; j_payload : list (bytes * jvalue); j_id : N }.

(** [BTreeMap::insert]: sorted by key bytes, a later duplicate replaces the value *)
Fixpoint map_insert {A} (k : bytes) (v : A) (m : list (bytes * A)) : list (bytes * A) :=
  match m with
  | [] => [(k, v)]
  | (k', v') :: r =>
      match bytes_cmp k k' with
      | Lt => (k, v) :: m
      | Eq => (k, v) :: r
      | Gt => (k', v') :: map_insert k v r
      end
  end.
Definition build_map {A} (ps : list (bytes * A)) : list (bytes * A) :=
  fold_left (fun m p => map_insert (fst p) (snd p) m) ps [].

Definition entry_of_json (j : jentry) : entry :=
  mkEntry (j_ts j) (j_ctx j) (j_type j)
          (build_map (map (fun p => (fst p, scalar_of_json (snd p))) (j_payload j))) (j_id j).

Definition mp_entry (e : entry) : entry :=
  mkEntry (e_ts e) (e_ctx e) (e_type e) (map (fun p => (fst p, mp_roundtrip (snd p))) (e_payload e)) (e_id e).

(** A line of a WAL file as [WalArchive::from_wal_file] sees it. *)
Inductive line :=
| LBadUtf8              (* not valid UTF-8: [BufRead::lines] yields Err, the whole read fails *)
| LBlank                (* [line.trim().is_empty()]: skipped *)
| LJunk                 (* does not deserialize as a WalEntry (torn tail, foreign text): skipped *)
| LEntry (j : jentry).

Fixpoint parse_lines (ls : list line) : option (list entry) :=
  match ls with
  | [] => Some []
  | LBadUtf8 :: _ => None
  | LBlank :: r => parse_lines r
  | LJunk :: r => parse_lines r
  | LEntry j :: r => match parse_lines r with Some es => Some (entry_of_json j :: es) | None => None end
  end.

(** ** Directories *)

Inductive wobj := WFile (ls : list line) | WDir.

Record afile := mkAFile {
  a_log_id : N; a_start : N; a_end : N; a_count : N; a_entries : list entry }.
Inductive aobj :=
| AFile (f : afile)     (* a decodable archive *)
| AGarbage              (* a regular file that does not decode (truncated / foreign) *)
| ADirEnt.              (* a directory occupying the name *)

Definition wdir := list (bytes * wobj).
Definition adir := list (bytes * aobj).

(** state of the shard's archive directory path *)
Inductive aroot := RMissing | RNotDir | RDir (d : adir).

Fixpoint lookup {A} (n : bytes) (d : list (bytes * A)) : option A :=
  match d with
  | [] => None
  | (n', o) :: r => if bytes_eqb n n' then Some o else lookup n r
  end.

(** create or replace the object under a name *)
Fixpoint put {A} (n : bytes) (o : A) (d : list (bytes * A)) : list (bytes * A) :=
  match d with
  | [] => [(n, o)]
  | (n', o') :: r => if bytes_eqb n n' then (n, o) :: r else (n', o') :: put n o r
  end.

(** ** File names *)

Fixpoint strip_prefix (p s : bytes) : option bytes :=
  match p, s with
  | [], _ => Some s
  | x :: p', y :: s' => if x =? y then strip_prefix p' s' else None
  | _ :: _, [] => None
  end.
Definition strip_suffix (q s : bytes) : option bytes :=
  match strip_prefix (rev q) (rev s) with Some r => Some (rev r) | None => None end.

Definition u64_max : N := 2 ^ 64 - 1.

(** value of a run of ASCII digits; [None] on a non-digit or when the value passes u64::MAX *)
Fixpoint digits_val (s : bytes) (acc : N) : option N :=
  match s with
  | [] => Some acc
  | c :: r =>
      if is_digit c then
        let acc' := acc * 10 + digit_val c in
        if acc' <=? u64_max then digits_val r acc' else None
      else None
  end.

(** [str::parse::<u64>]: optional '+', at least one digit, no overflow *)
Definition parse_u64 (s : bytes) : option N :=
  let ds := match s with c :: r => if c =? 43 then r else s | [] => s end in
  match ds with [] => None | _ => digits_val ds 0 end.

(** the id a directory scan assigns to a name ("wal-<u64>.log"), if any *)
Definition parse_log_name (n : bytes) : option N :=
  match strip_prefix walarch_log_prefix n with
  | None => None
  | Some s => match strip_suffix walarch_log_suffix s with None => None | Some num => parse_u64 num end
  end.

(** [format!("{:0w}", n)] *)
Definition pad_dec (w : nat) (n : N) : bytes :=
  if n <? 10 ^ N.of_nat w then pad_digits w n else dec_of_N n.

(** the file [archive_log id] opens: "wal-{:05}.log" *)
Definition log_name (id : N) : bytes :=
  walarch_log_prefix ++ pad_dec walarch_pad_width id ++ walarch_log_suffix.

(** What a directory scan (archiver and cleaner use the same one) makes of a name: the id, when the name
    parses as "wal-<u64>.log", the id is below [keep] and — since fix 1c3fa90, flag read from the Rust
    text — the name is exactly the canonical name [archive_log] opens for that id. *)
Definition scan_id (n : bytes) (keep : N) : option N :=
  match parse_log_name n with
  | Some id =>
      if walarch_eligible id keep && (negb walarch_scan_canonical_only || bytes_eqb n (log_name id))
      then Some id else None
  | None => None
  end.

(** [generate_filename]: "wal-{:05}-{start}-{end}.wal.zst" *)
Definition archive_name (id s e : N) : bytes :=
  walarch_arch_prefix ++ pad_dec walarch_arch_pad_width id ++ walarch_arch_sep1 ++ dec_of_N s
  ++ walarch_arch_sep2 ++ dec_of_N e ++ walarch_arch_suffix.

(** [Path::extension() == "zst"]: ends with ".zst" and something precedes the dot *)
Definition has_ext (n : bytes) : bool :=
  match strip_suffix walarch_ext n with Some (_ :: _) => true | _ => false end.

(** ** Building an archive ([from_wal_file]) *)

Definition ts_min (es : list entry) : N := fold_left (fun a e => N.min a (e_ts e)) es u64_max.
Definition ts_max (es : list entry) : N := fold_left (fun a e => N.max a (e_ts e)) es 0.

(** The header of the archive of [es]; the body that a later read returns is the MessagePack
    round trip of the entries. *)
Definition make_archive (id : N) (es : list entry) : afile :=
  let n := N.of_nat (length es) in
  mkAFile id (if n =? 0 then 0 else ts_min es) (ts_max es) n (map mp_entry es).

Definition afile_name (f : afile) : bytes := archive_name (a_log_id f) (a_start f) (a_end f).

(** ** Faults *)

(** outcome of the I/O of one archive write, chosen by the environment per log id:
    [IoFailEarly]: fails before the archive file is created (serialisation/compression, open);
    [IoFailLate]: [File::create] succeeded (truncating whatever was there) and the write failed. *)
Inductive io_outcome := IoOk | IoFailEarly | IoFailLate.

Record faults := mkFaults {
  f_io : N -> io_outcome;        (* per log id *)
  f_del_ok : bytes -> bool }.    (* per WAL file name: does [remove_file] succeed *)

(** ** The archiver *)

(** [WalArchiver::archive_log]: result [Some name] = Ok(path), [None] = Err. *)
Definition archive_log (io : N -> io_outcome) (wal : wdir) (root : aroot) (id : N) : aroot * option bytes :=
  match lookup (log_name id) wal with
  | None => (root, None)                         (* "WAL file not found" *)
  | Some WDir => (root, None)                    (* open succeeds, reading fails (EISDIR) *)
  | Some (WFile ls) =>
      match parse_lines ls with
      | None => (root, None)                     (* invalid UTF-8 in a line *)
      | Some es =>
          let f := make_archive id es in
          match root with
          | RNotDir => (RNotDir, None)           (* create_dir_all fails *)
          | _ =>
              let d := match root with RDir d => d | _ => [] end in
              let nm := afile_name f in
              match lookup nm d with
              | Some ADirEnt => (RDir d, None)   (* File::create: is a directory *)
              | _ =>
                  match io id with
                  | IoFailEarly => (RDir d, None)
                  | IoFailLate => (RDir (if walarch_create_truncates then put nm AGarbage d else d), None)
                  | IoOk => (RDir (put nm (AFile f) d), Some nm)
                  end
              end
          end
      end
  end.

(** [WalArchiver::archive_logs_up_to]: one [archive_log] per directory entry the scan accepts
    (in directory order; the results do not depend on it). *)
Fixpoint archive_scan (io : N -> io_outcome) (wal : wdir) (todo : list (bytes * wobj)) (root : aroot)
         (keep : N) : aroot * list (option bytes) :=
  match todo with
  | [] => (root, [])
  | (n, _) :: r =>
      match scan_id n keep with
      | Some id =>
          let (root1, res) := archive_log io wal root id in
          let (root2, rs) := archive_scan io wal r root1 keep in
          (root2, res :: rs)
      | None => archive_scan io wal r root keep
      end
  end.
Definition archive_logs_up_to (io : N -> io_outcome) (wal : wdir) (root : aroot) (keep : N) :=
  archive_scan io wal wal root keep.

(** ** The cleaner *)

Definition is_none {A} (o : option A) : bool := match o with None => true | Some _ => false end.
Definition is_wfile (o : wobj) : bool := match o with WFile _ => true | WDir => false end.

(** the deletion loop: [remove_file] on every entry the scan accepts
    (fails on a directory, or when the environment says so) *)
Definition delete_hits (del_ok : bytes -> bool) (keep : N) (p : bytes * wobj) : bool :=
  match scan_id (fst p) keep with
  | Some _ => is_wfile (snd p) && del_ok (fst p)
  | None => false
  end.
Definition delete_pass (del_ok : bytes -> bool) (keep : N) (d : wdir) : wdir :=
  filter (fun p => negb (delete_hits del_ok keep p)) d.

(** The world the cleaner acts on.  [w_wal] is the WAL directory of the configuration (what
    [WalArchiver::new] reads).  [w_cwal = None]: the cleaner was built by [WalCleaner::new] and works on
    that same directory (the production path); [Some d]: it was built by [with_wal_dir] on another
    directory [d].  Since fix db8e58e (flag read from the Rust text) the cleaner's archiver reads the
    directory the cleaner deletes from. *)
Record world := mkWorld { w_wal : wdir; w_cwal : option wdir; w_root : aroot }.

Definition cleaner_dir (w : world) : wdir := match w_cwal w with Some d => d | None => w_wal w end.
Definition set_cleaner_dir (w : world) (d : wdir) (root : aroot) : world :=
  match w_cwal w with
  | Some _ => mkWorld (w_wal w) (Some d) root
  | None => mkWorld d None root
  end.

(** the directory the cleaner's archive pass reads *)
Definition archiver_dir (w : world) : wdir :=
  if walarch_cleaner_archives_own_dir then cleaner_dir w else w_wal w.

(** [WalCleaner::cleanup_up_to]; second component: the archive results ([]) in plain mode). *)
Definition cleanup_up_to (conservative : bool) (fl : faults) (w : world) (keep : N)
  : world * list (option bytes) :=
  if conservative then
    let (root1, res) := archive_logs_up_to (f_io fl) (archiver_dir w) (w_root w) keep in
    if walarch_abort_on_failure && existsb is_none res
    then (mkWorld (w_wal w) (w_cwal w) root1, res)
    else (set_cleaner_dir w (delete_pass (f_del_ok fl) keep (cleaner_dir w)) root1, res)
  else (set_cleaner_dir w (delete_pass (f_del_ok fl) keep (cleaner_dir w)) (w_root w), []).

(** ** Recovery *)

(** [str::split(sep)] *)
Fixpoint split_on (c : N) (s : bytes) : list bytes :=
  match s with
  | [] => [[]]
  | x :: r =>
      if x =? c then [] :: split_on c r
      else match split_on c r with h :: t => (x :: h) :: t | [] => [[x]] end
  end.

Definition key_max : N * N * N := (u64_max, u64_max, u64_max).

(** [archive_sort_key]: (id, start, end) parsed from "wal-{id}-{start}-{end}.wal.zst", anything else last *)
Definition archive_sort_key (n : bytes) : N * N * N :=
  match strip_prefix walarch_key_prefix n with
  | None => key_max
  | Some s =>
      match strip_suffix walarch_key_suffix s with
      | None => key_max
      | Some m =>
          match split_on walarch_key_sep m with
          | [a; b; c] =>
              match parse_u64 a, parse_u64 b, parse_u64 c with
              | Some x, Some y, Some z => (x, y, z)
              | _, _, _ => key_max
              end
          | _ => key_max
          end
      end
  end.

Definition key_cmp (k1 k2 : N * N * N) : comparison :=
  let '(a1, b1, c1) := k1 in
  let '(a2, b2, c2) := k2 in
  match a1 ?= a2 with
  | Eq => match b1 ?= b2 with Eq => c1 ?= c2 | o => o end
  | o => o
  end.

(** the order [list_archives] sorts by: plain path order before fix 06752f6, since then the numeric key
    with the path as tie-break (flag read from the Rust text) *)
Definition name_leb (a b : bytes * aobj) : bool :=
  let by_path := match bytes_cmp (fst a) (fst b) with Gt => false | _ => true end in
  if walarch_recovery_numeric_sort then
    match key_cmp (archive_sort_key (fst a)) (archive_sort_key (fst b)) with
    | Lt => true
    | Gt => false
    | Eq => by_path
    end
  else by_path.

Fixpoint insert_by {A} (leb : A -> A -> bool) (x : A) (l : list A) : list A :=
  match l with
  | [] => [x]
  | y :: r => if leb x y then x :: l else y :: insert_by leb x r
  end.
Definition isort_by {A} (leb : A -> A -> bool) (l : list A) : list A :=
  fold_right (insert_by leb) [] l.

(** [list_archives]: [None] = Err (the path exists but cannot be listed) *)
Definition list_archives (root : aroot) : option adir :=
  match root with
  | RMissing => Some []
  | RNotDir => None
  | RDir d => Some (isort_by name_leb (filter (fun p => has_ext (fst p)) d))
  end.

Definition entries_of (o : aobj) : list entry :=
  match o with AFile f => a_entries f | _ => [] end.

(** [recover_all]: archives in name order, undecodable ones skipped *)
Definition recover_all (root : aroot) : option (list entry) :=
  match list_archives root with
  | Some l => Some (flat_map (fun p => entries_of (snd p)) l)
  | None => None
  end.

(** ** Histories: a sequence of cleanups, the WAL directory being whatever the writer left
    between them, the archive directory persisting. *)
Record round := mkRound { r_wal : wdir; r_keep : N; r_faults : faults }.

Definition run_round (root : aroot) (r : round) : aroot * wdir * list (option bytes) :=
  let (w', res) := cleanup_up_to true (r_faults r) (mkWorld (r_wal r) None root) (r_keep r) in
  (w_root w', w_wal w', res).

Fixpoint run_history (root : aroot) (h : list round) : aroot :=
  match h with
  | [] => root
  | r :: h' => run_history (fst (fst (run_round root r))) h'
  end.

(** ** Decidable description of the known failing input class (ArchiveNameReused) *)

(** the archive name a log of this round would be written under *)
Definition round_archive_names (wal : wdir) (keep : N) : list bytes :=
  flat_map (fun p =>
    match scan_id (fst p) keep with
    | Some id =>
        match lookup (log_name id) wal with
        | Some (WFile ls) =>
            match parse_lines ls with Some es => [afile_name (make_archive id es)] | None => [] end
        | _ => []
        end
    | None => []
    end) wal.
Definition name_reused (nm : bytes) (wal : wdir) (keep : N) : bool :=
  existsb (bytes_eqb nm) (round_archive_names wal keep).

(** ** From the bytes of a log file to its lines, and which lines are entries

    Both readers of a log file — [WalArchive::from_wal_file] and [WalRecovery::replay_log_file] — iterate
    [BufReader::lines()]: every piece that ends in "\n" is a line (one "\r" before the "\n" is dropped
    with it), and what follows the last "\n" is a line too unless it is empty.  In particular a last
    line WITHOUT a trailing newline is a line like any other: the WAL writer emits the JSON text and the
    "\n" as two writes, so a crash between them leaves exactly that — a complete entry that replay
    accepts.  A line is an entry iff it deserializes as a WalEntry ([LEntry]); surrounding whitespace
    (including a "\r" kept on an unterminated last line) does not matter to serde_json. *)

(** drop one trailing "\r" *)
Definition strip_cr (p : bytes) : bytes :=
  match rev_append p [] with      (* the linear-time reverse: lines can be long *)
  | c :: t => if c =? 13 then rev_append t [] else p
  | [] => p
  end.

(** the pieces between "\n"s: all but the last were terminated *)
Fixpoint lines_of_pieces (ps : list bytes) : list bytes :=
  match ps with
  | [] => []
  | [last] => match last with [] => [] | _ => [last] end
  | p :: r => strip_cr p :: lines_of_pieces r
  end.

(** [BufRead::lines] on the content of a file *)
Definition split_lines (content : bytes) : list bytes := lines_of_pieces (split_on 10 content).

(** the reader's view of a file whose raw lines are classified by [cls] *)
Definition file_lines (cls : bytes -> line) (content : bytes) : list line := map cls (split_lines content).

(** [WalRecovery::replay_log_file]: the entries WAL replay restores from the lines of one file, in
    order — a line that is not UTF-8, blank or not a WalEntry is skipped and replay goes on.
    (Replay aborts at an entry whose context id or event type is blank; not modelled, the archive keeps
    such an entry.) *)
Fixpoint replay_entries (ls : list line) : list entry :=
  match ls with
  | [] => []
  | LEntry j :: r => entry_of_json j :: replay_entries r
  | _ :: r => replay_entries r
  end.

(** the order in which [MemTable::iter] returns replayed events: by context id, insertion order within *)
Definition ctx_leb (a b : entry) : bool :=
  match bytes_cmp (e_ctx a) (e_ctx b) with Gt => false | _ => true end.
Definition memtable_order (es : list entry) : list entry := isort_by ctx_leb es.
