(** Model of the temporal pruning structures:
    - src/shared/datetime/time_bucketing.rs [naive_bucket_of] (hour / day),
    - src/engine/core/time/temporal_calendar_index.rs [TemporalCalendarIndex]
      (calendar_dir.rs [CalendarDir::add_zone_range] is the same loop),
    - src/engine/core/time/zone_temporal_index.rs [ZoneTemporalIndex] (stride as regenerated),
    - src/engine/core/time/temporal_builder.rs [build_for_zone_plans] (one temporal field),
    - src/engine/core/zone/selector/pruner/temporal_pruner.rs [apply_temporal_only]
      (since sneldb commit db7c428: signed probe instant, pre-1970 zones filed from bucket 0).
    Executable definitions only.

    Timestamps of a zone are [Z] in the i64 range (what [as_i64] / [u as i64] pushed).
    Bucket ids are the bucket start second truncated to [zidx_bucket_bits] bits. *)
From Coq Require Import NArith ZArith List Bool.
From Snel Require Import Base.Bytes Gen.Params Model.ZoneSel Model.Time.
Import ListNotations.

(** * Buckets *)
Open Scope N_scope.

Inductive gran := GHour | GDay.
Definition gran_secs (g : gran) : N := match g with GHour => zidx_hour_secs | GDay => zidx_day_secs end.
Definition gran_step (g : gran) : N := match g with GHour => zidx_hour_step | GDay => zidx_day_step end.

(** [naive_bucket_of(ts, gran)] = [(ts / s) * s] *)
Definition naive_bucket_of (g : gran) (ts : N) : N := (ts / gran_secs g) * gran_secs g.
(** [bucket_id]: [(start & u32::MAX) as u32] *)
Definition bucket_id (g : gran) (ts : N) : N := naive_bucket_of g ts mod 2 ^ zidx_bucket_bits.

Record calendar := { cal_hour : list (N * list N); cal_day : list (N * list N) }.
Definition cal_empty : calendar := {| cal_hour := []; cal_day := [] |}.

(** one [while t <= end { map[bucket_id(t)].insert(zone); t += step }] loop *)
Definition mark_body (g : gran) (z : N) (st : N * list (N * list N)) : N * list (N * list N) :=
  (fst st + gran_step g, am_add_zone (bucket_id g (fst st)) z (snd st)).
Definition mark_range (g : gran) (z lo hi : N) (m : list (N * list N)) : list (N * list N) :=
  let start := naive_bucket_of g lo in
  let stop := naive_bucket_of g hi in
  if stop <? start then m
  else snd (N.iter ((stop - start) / gran_step g + 1) (mark_body g z) (start, m)).

(** [add_zone_range(zone_id, min_ts, max_ts)] *)
Definition add_zone_range (c : calendar) (z lo hi : N) : calendar :=
  {| cal_hour := mark_range GHour z lo hi (cal_hour c);
     cal_day := mark_range GDay z lo hi (cal_day c) |}.

(** [zones_for_ts]: the hour bucket if it exists, else the day bucket, else nothing *)
Definition zones_for_ts (c : calendar) (ts : N) : list N :=
  match am_get (bucket_id GHour ts) (cal_hour c) with
  | Some s => s
  | None => match am_get (bucket_id GDay ts) (cal_day c) with Some s => s | None => [] end
  end.

Definition union_where (p : N -> bool) (m : list (N * list N)) : list N :=
  fold_right (fun e acc => if p (fst e) then zs_union (snd e) acc else acc) [] m.
(** [zones_for_ge] / [zones_for_le]: union of the day buckets whose (truncated) id is
    [>=] / [<=] the probe's day-bucket id *)
Definition zones_for_ge (c : calendar) (ts : N) : list N :=
  union_where (fun b => bucket_id GDay ts <=? b) (cal_day c).
Definition zones_for_le (c : calendar) (ts : N) : list N :=
  union_where (fun b => b <=? bucket_id GDay ts) (cal_day c).

(** [FieldIndex::zones_intersecting(op, v : i64)].  [In] is [unreachable!()] in Rust and
    never requested by the pruner; it is mapped to the empty set here. *)
Definition zones_intersecting (c : calendar) (op : cmp_op) (v : Z) : list N :=
  match op with
  | OEq => if (v <? 0)%Z then [] else zones_for_ts c (Z.to_N v)
  | OGt | OGte => if (v <? 0)%Z then [] else zones_for_ge c (Z.to_N v)
  | OLt | OLte => if (v <? 0)%Z then [] else zones_for_le c (Z.to_N v)
  | ONeq =>
      let all := union_where (fun _ => true) (cal_day c) in
      let eq := if (v <? 0)%Z then [] else zones_for_ts c (Z.to_N v) in
      zs_diff all eq
  | OIn => []
  end.

(** * Per-zone index *)
Open Scope Z_scope.

(** two's complement wrap of an i64 result (release arithmetic) *)
Definition to_i64 (z : Z) : Z := (z + 2 ^ 63) mod 2 ^ 64 - 2 ^ 63.

(** [sort_unstable(); dedup()] — insertion that drops duplicates *)
Fixpoint zins (t : Z) (s : list Z) : list Z :=
  match s with
  | [] => [t]
  | x :: r => if t <? x then t :: s else if t =? x then s else x :: zins t r
  end.
Definition sort_dedup (ts : list Z) : list Z := fold_right zins [] ts.

Record zti := { z_min : Z; z_max : Z; z_keys : list N }.

Definition key_of (mn t : Z) : N := Z.to_N (Z.max (Z.quot (to_i64 (t - mn)) zidx_stride) 0).

(** [ZoneTemporalIndex::from_timestamps(ts, stride, _)] (fences are never read) *)
Definition from_timestamps (ts : list Z) : zti :=
  let s := sort_dedup ts in
  let mn := hd 0 s in
  let mx := last s 0 in
  {| z_min := mn; z_max := mx; z_keys := map (key_of mn) s |}.

(** [contains_ts].  The binary search over [keys] is modelled as membership (the keys are
    strictly increasing whenever [max - min < 2^63], see [TemporalProofs.keys_sorted]). *)
Definition contains_ts (x : zti) (ts : Z) : bool :=
  if (ts <? z_min x) || (ts >? z_max x) then false
  else
    let off := to_i64 (ts - z_min x) in
    if (zidx_stride >? 1) && negb (Z.rem off zidx_stride =? 0) then false
    else existsb (N.eqb (Z.to_N (Z.max (Z.quot off zidx_stride) 0))) (z_keys x).

(** * Builder (one temporal field of one flush) *)
Record tindex := { t_cal : option calendar; t_ztis : list (N * zti) }.
Definition tindex_empty : tindex := {| t_cal := None; t_ztis := [] |}.

Definition zmin_list (l : list Z) : Z := fold_right Z.min (hd 0 l) l.
Definition zmax_list (l : list Z) : Z := fold_right Z.max (hd 0 l) l.

(** the calendar range registered for a zone with extreme values [mn], [mx] (i64).
    [mode] (regenerated per branch of the builder): 0 = only when [mn >= 0 && mx >= 0],
    else the zone is left out of the calendar; 1 = always, clamped at 0
    ([min_ts.max(0) as u64], [max_ts.max(0) as u64]). *)
Definition cal_range (mode : N) (mn mx : Z) : option (N * N) :=
  match mode with
  | 0%N => if (0 <=? mn) && (0 <=? mx) then Some (Z.to_N mn, Z.to_N mx) else None
  | _ => Some (Z.to_N (Z.max mn 0), Z.to_N (Z.max mx 0))
  end.

(** one zone: nothing when the zone has no value for the field; else a per-zone index
    and (see [cal_range]) a calendar range *)
Definition add_zone (mode : N) (ix : tindex) (zid : N) (vals : list Z) : tindex :=
  match vals with
  | [] => ix
  | _ =>
      let ztis := t_ztis ix ++ [(zid, from_timestamps vals)] in
      match cal_range mode (zmin_list vals) (zmax_list vals) with
      | Some (lo, hi) =>
          let c := match t_cal ix with Some c => c | None => cal_empty end in
          {| t_cal := Some (add_zone_range c zid lo hi); t_ztis := ztis |}
      | None => {| t_cal := t_cal ix; t_ztis := ztis |}
      end
  end.

Definition build (mode : N) (zones : list (N * list Z)) : tindex :=
  fold_left (fun ix zv => add_zone mode ix (fst zv) (snd zv)) zones tindex_empty.

(** The values the builder pushes for a payload cell: [as_i64] (Int64, Timestamp, a
    string that parses as i64), else [as_u64 as i64] (a string that parses as u64 only);
    Float64 / Boolean / Null / missing cells are skipped. *)
Inductive tcell := TCInt (z : Z) | TCStr (s : bytes) | TCOther.
Definition parse_i64 (s : bytes) : option Z :=
  match parse_int_str s with Some v => try_i64 v | None => None end.

(** [load_for_field]: the LAST directory entry with the zone id wins *)
Fixpoint zti_lookup (zid : N) (l : list (N * zti)) : option zti :=
  match l with
  | [] => None
  | (z, x) :: r =>
      match zti_lookup zid r with
      | Some y => Some y
      | None => if (z =? zid)%N then Some x else None
      end
  end.

(** * The pruner's literal handling *)
Inductive tlit :=
| TLInt (z : Z)                       (* ScalarValue::Int64 / Timestamp *)
| TLStr (s : bytes)                   (* ScalarValue::Utf8 *)
| TLFloat (num : Z) (den : positive)  (* ScalarValue::Float64 with value num/den *)
| TLOther.                            (* Boolean, Null, Binary *)

(** [str::parse::<u64>]: optional [+], at least one digit, digits only, below 2^64 *)
Definition parse_u64 (s : bytes) : option N :=
  let body := match s with 43%N :: r => r | _ => s end in
  match body with
  | [] => None
  | _ => match all_digits_val body 0 with
         | Some v => if v <? 2 ^ 64 then Some (Z.to_N v) else None
         | None => None
         end
  end.

Definition cell_ts (c : tcell) : option Z :=
  match c with
  | TCInt z => Some z
  | TCStr s =>
      match parse_i64 s with
      | Some v => Some v
      | None => match parse_u64 s with Some u => Some (to_i64 (Z.of_N u)) | None => None end
      end
  | TCOther => None
  end.
Definition zone_ts (cells : list tcell) : list Z :=
  flat_map (fun c => match cell_ts c with Some t => [t] | None => [] end) cells.
Definition build_cells (zones : list (N * list tcell)) : tindex :=
  build zidx_cal_mode_field (map (fun zc => (fst zc, zone_ts (snd zc))) zones).
(** the fixed [timestamp] column: [ev.timestamp as i64] *)
Definition build_fixed (zones : list (N * list N)) : tindex :=
  build zidx_cal_mode_ts (map (fun zc => (fst zc, map (fun n => to_i64 (Z.of_N n)) (snd zc))) zones).

(** the signed instant [ts : i64] the pruner probes the per-zone indexes with: an integer
    literal as is, a string through [TimeParser] and [i64::MIN] when it is not a time
    literal, any other kind 0 *)
Definition lit_ts (l : tlit) : Z :=
  match l with
  | TLInt z => z
  | TLStr s =>
      match parse_str_to_epoch_seconds s with
      | Some p => p
      | None => - 2 ^ 63
      end
  | TLFloat _ _ => 0
  | TLOther => 0
  end.

(** [cal_ts = ts.max(0)]: the calendar lookup is clamped at 0 *)
Definition cal_ts (v : Z) : Z := Z.max v 0.

Definition zone_overlaps (op : cmp_op) (x : zti) (v : Z) : bool :=
  match op with
  | OEq => contains_ts x v
  | OGt => z_max x >? v
  | OGte => z_max x >=? v
  | OLt => z_min x <? v
  | OLte => z_min x <=? v
  | _ => false
  end.

Definition op_answered (op : cmp_op) : bool :=
  match op with
  | OEq | OGt | OGte | OLt | OLte => true
  | ONeq => zidx_temporal_handles_neq
  | OIn => false
  end.

(** [TemporalPruner::apply_temporal_only].  A calendar that cannot be loaded gives
    [Some []] for the fixed [timestamp] column and [None] for any other column. *)
Definition apply_temporal_only (is_timestamp : bool) (ix : tindex) (op : cmp_op) (l : tlit)
  : option (list N) :=
  if negb (op_answered op) then None else
  let v := lit_ts l in
  match t_cal ix with
  | None => if is_timestamp then Some [] else None
  | Some c =>
      Some (filter (fun zid => match zti_lookup zid (t_ztis ix) with
                               | Some x => zone_overlaps op x v
                               | None => false
                               end)
                   (zones_intersecting c op (cal_ts v)))
  end.

(** What a query sees for strategies [TemporalEq] / [TemporalRange]. *)
Definition select_temporal (is_timestamp : bool) (ix : tindex) (all_zones : list N)
                           (op : cmp_op) (l : tlit) : list N :=
  select STemporal op false all_zones (apply_temporal_only is_timestamp ix op l).

(** * Brute-force meaning of a probe *)

(** the instant a literal denotes (None: no numeric meaning) *)
Inductive litval := LVInt (v : Z) | LVRat (num : Z) (den : positive).
Definition lit_value (l : tlit) : option litval :=
  match l with
  | TLInt z => Some (LVInt z)
  | TLStr s =>
      match parse_str_to_epoch_seconds s with
      | Some p => Some (LVInt p)
      | None => None      (* not a time literal: no instant *)
      end
  | TLFloat n d => Some (LVRat n d)
  | TLOther => None
  end.

Definition cmp_holds (op : cmp_op) (c : comparison) : bool :=
  match op, c with
  | OEq, Eq | OIn, Eq => true
  | ONeq, Lt | ONeq, Gt => true
  | OGt, Gt => true
  | OGte, Gt | OGte, Eq => true
  | OLt, Lt => true
  | OLte, Lt | OLte, Eq => true
  | _, _ => false
  end.

Definition row_matches (op : cmp_op) (t : Z) (v : litval) : bool :=
  match v with
  | LVInt x => cmp_holds op (t ?= x)
  | LVRat n d => cmp_holds op (t * Zpos d ?= n)
  end.
