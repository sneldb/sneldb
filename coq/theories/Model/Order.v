(** Model of ORDER BY / LIMIT / OFFSET (C10) — executable definitions only.

    - [scalar_compare]: src/engine/types/mod.rs [ScalarValue::compare]
      (u64 -> i64 -> f64 -> bool -> str -> string-repr cascade) with the
      accessors [as_u64/as_i64/as_f64/as_bool/as_str/to_string_repr];
      Rust's [str::parse::<u64|i64|f64>] are modelled at byte level.
    - [merger_run]: src/engine/core/read/flow/ordered_merger.rs [MergerState::run]
      (binary heap of one head per stream ordered by key then stream index,
      skip [offset], stop at [limit]).
    - [flow_sort]: the per-flow [sort_unstable_by] + [truncate] of
      memtable_source.rs / segment_query_runner.rs.  A flow's input is taken to be all matching rows
      of its source: the ORDER BY zone pre-selection (src/engine/query/rlte_planner.rs) is not
      modelled (class OrderedLimitWrongSlice of known/C10.json).
    - [shard_ordered], [coord_ordered]: engine/query/streaming/merger.rs
      (limit = n+m, offset 0) and command/handlers/query/merge/streaming.rs
      (offset m, limit n).
    - [writer_run]: command/handlers/query/streaming/response_writer.rs
      [try_accept_row] (dedup by event id, skip m, stop at n).
    - [handler_precheck]: command/handlers/query/handler.rs (OFFSET without LIMIT). *)
From Coq Require Import ZArith NArith List Bool.
From Snel Require Import Base.Bytes Base.OrdF64 Gen.Params.
Import ListNotations.
Open Scope Z_scope.

(** * Runtime values ([ScalarValue]) *)

(** [VFloat bits repr]: [repr] is Rust's [f64::to_string()] of [bits]; it is an
    input of the model (the harness checks it against the real formatting on
    every case) because shortest-round-trip float printing is not modelled. *)
Inductive value :=
| VNull
| VBool (b : bool)
| VInt (z : Z)            (* Int64 *)
| VFloat (bits : N) (repr : bytes)
| VTs (z : Z)             (* Timestamp(i64) *)
| VStr (s : bytes)        (* Utf8 *)
| VBin (b : bytes).       (* Binary *)

Definition i64_lo : Z := - 2 ^ 63.
Definition i64_hi : Z := 2 ^ 63 - 1.
Definition u64_hi : Z := 2 ^ 64 - 1.

(** * Integer parsing: [str::parse::<i64>], [str::parse::<u64>] *)

Fixpoint digits_val (s : bytes) (acc : Z) : option Z :=
  match s with
  | [] => Some acc
  | c :: r => if is_digit c then digits_val r (acc * 10 + Z.of_N (digit_val c)) else None
  end.

(** optional sign, at least one digit, nothing else *)
Definition parse_int (s : bytes) : option Z :=
  match s with
  | [] => None
  | 45%N :: ((_ :: _) as r) => option_map Z.opp (digits_val r 0)
  | 43%N :: ((_ :: _) as r) => digits_val r 0
  | _ => digits_val s 0
  end.

Definition parse_i64 (s : bytes) : option Z :=
  match parse_int s with
  | Some z => if (i64_lo <=? z) && (z <=? i64_hi) then Some z else None
  | None => None
  end.

(** unsigned types do not accept a leading '-' (not even "-0") *)
Definition starts_with_minus (s : bytes) : bool :=
  match s with c :: _ => (c =? 45)%N | [] => false end.

Definition parse_u64 (s : bytes) : option Z :=
  if starts_with_minus s then None
  else match parse_int s with
       | Some z => if (0 <=? z) && (z <=? u64_hi) then Some z else None
       | None => None
       end.

(** * Float parsing: [str::parse::<f64>] (core::num::dec2flt), correctly rounded *)

(** leading digit run: value, number of digits, rest *)
Fixpoint scan_digits (s : bytes) (acc : Z) (cnt : Z) : Z * Z * bytes :=
  match s with
  | c :: r => if is_digit c then scan_digits r (acc * 10 + Z.of_N (digit_val c)) (cnt + 1)
              else (acc, cnt, s)
  | [] => (acc, cnt, s)
  end.

Definition lower_bytes (s : bytes) : bytes := map to_lower s.

Definition str_inf : bytes := [105; 110; 102]%N.
Definition str_infinity : bytes := [105; 110; 102; 105; 110; 105; 116; 121]%N.
Definition str_nan : bytes := [110; 97; 110]%N.

(** number of decimal digits of [m > 0] is at most [Z.log2 m / 3 + 1] and at least
    [Z.log2 m / 4 + 1]; only used to decide the clamping below *)
Definition dec_exp_clamp : Z := 400.

(** value [m * 10^e] ([m >= 0]) to the nearest double *)
Definition f64_of_decimal (neg : bool) (m e : Z) : N :=
  if m =? 0 then f64_of_ratio neg 0 1
  else
    let hi := Z.log2 m / 3 + 1 + e in      (* m*10^e < 10^hi *)
    let lo := Z.log2 m / 4 + e in          (* 10^lo <= m*10^e *)
    if dec_exp_clamp <? lo then f64_of_ratio neg (10 ^ dec_exp_clamp) 1
    else if hi <? - dec_exp_clamp then f64_of_ratio neg 0 1
    else if 0 <=? e then f64_of_ratio neg (m * 10 ^ e) 1
    else f64_of_ratio neg m (10 ^ (- e)).

Definition parse_f64 (s : bytes) : option N :=
  match s with
  | [] => None
  | c :: r0 =>
    let neg := (c =? 45)%N in
    let r := if (c =? 45)%N || (c =? 43)%N then r0 else s in
    match r with
    | [] => None
    | _ =>
      let '(ip, ni, r1) := scan_digits r 0 0 in
      let '(m, nf, r2) :=
        match r1 with
        | 46%N :: r1' => scan_digits r1' ip 0
        | _ => (ip, 0, r1)
        end in
      if ni + nf =? 0 then
        let l := lower_bytes r in
        if bytes_eqb l str_nan then Some f64_qnan_bits
        else if bytes_eqb l str_inf || bytes_eqb l str_infinity
             then Some (f64_of_ratio neg (10 ^ dec_exp_clamp) 1)
        else None
      else
        match r2 with
        | [] => Some (f64_of_decimal neg m (- nf))
        | ec :: r3 =>
          if (ec =? 101)%N || (ec =? 69)%N then
            let '(eneg, r4) :=
              match r3 with
              | 45%N :: t => (true, t)
              | 43%N :: t => (false, t)
              | _ => (false, r3)
              end in
            let '(ev, ne, r5) := scan_digits r4 0 0 in
            if ne =? 0 then None
            else match r5 with
                 | [] => Some (f64_of_decimal neg m ((if eneg then - ev else ev) - nf))
                 | _ => None
                 end
          else None
        end
    end
  end.

(** * Accessors of [ScalarValue] *)

Definition as_u64 (v : value) : option Z :=
  match v with
  | VInt z | VTs z => if 0 <=? z then Some z else None
  | VStr s => parse_u64 s
  | _ => None
  end.

Definition as_i64 (v : value) : option Z :=
  match v with
  | VInt z | VTs z => Some z
  | VStr s => parse_i64 s
  | _ => None
  end.

Definition as_f64 (v : value) : option N :=
  match v with
  | VFloat b _ => Some b
  | VInt z | VTs z => Some (f64_of_Z z)
  | VStr s => parse_f64 s
  | _ => None
  end.

Definition str_true : bytes := [116; 114; 117; 101]%N.
Definition str_false : bytes := [102; 97; 108; 115; 101]%N.

Definition as_bool (v : value) : option bool :=
  match v with
  | VBool b => Some b
  | VStr s =>
      let l := lower_bytes s in
      if bytes_eqb l str_true || bytes_eqb l [49%N] then Some true
      else if bytes_eqb l str_false || bytes_eqb l [48%N] then Some false
      else None
  | VInt z => Some (negb (z =? 0))
  | _ => None
  end.

Definition as_str (v : value) : option bytes :=
  match v with VStr s => Some s | _ => None end.

(** standard base64 with padding ([BASE64_STANDARD.encode]) *)
Definition b64_char (i : N) : N :=
  (if i <? 26 then 65 + i else if i <? 52 then 97 + (i - 26)
   else if i <? 62 then 48 + (i - 52) else if i =? 62 then 43 else 47)%N.

Fixpoint base64 (b : bytes) : bytes :=
  match b with
  | [] => []
  | [x] => [b64_char (x / 4); b64_char ((x mod 4) * 16); 61; 61]%N
  | [x; y] => [b64_char (x / 4); b64_char ((x mod 4) * 16 + y / 16);
               b64_char ((y mod 16) * 4); 61]%N
  | x :: y :: z :: r =>
      (b64_char (x / 4) :: b64_char ((x mod 4) * 16 + y / 16)
       :: b64_char ((y mod 16) * 4 + z / 64) :: b64_char (z mod 64) :: base64 r)%N
  end.

Definition to_string_repr (v : value) : bytes :=
  match v with
  | VNull => []
  | VBool true => str_true
  | VBool false => str_false
  | VInt z | VTs z => dec_of_Z z
  | VFloat _ r => r
  | VStr s => s
  | VBin b => base64 b
  end.

Definition bool_cmp (a b : bool) : comparison :=
  match a, b with
  | false, true => Lt
  | true, false => Gt
  | _, _ => Eq
  end.

(** * [ScalarValue::compare] *)
Definition scalar_compare (a b : value) : comparison :=
  match as_u64 a, as_u64 b with
  | Some x, Some y => Z.compare x y
  | _, _ =>
  match as_i64 a, as_i64 b with
  | Some x, Some y => Z.compare x y
  | _, _ =>
  match as_f64 a, as_f64 b with
  | Some x, Some y => match f64_partial_cmp x y with Some c => c | None => Eq end
  | _, _ =>
  match as_bool a, as_bool b with
  | Some x, Some y => bool_cmp x y
  | _, _ =>
  match as_str a, as_str b with
  | Some x, Some y => bytes_cmp x y
  | _, _ => bytes_cmp (to_string_repr a) (to_string_repr b)
  end end end end end.

(** * Generic list machinery *)

Section Lists.
  Context {A : Type}.

  (** first [n] elements, [n : N] (no unary numbers: limits go up to 2^32) *)
  Fixpoint takeN (n : N) (l : list A) : list A :=
    match l with
    | [] => []
    | x :: r => if (n =? 0)%N then [] else x :: takeN (N.pred n) r
    end.

  Fixpoint dropN (n : N) (l : list A) : list A :=
    match l with
    | [] => []
    | x :: r => if (n =? 0)%N then l else dropN (N.pred n) r
    end.

  Definition take_opt (n : option N) (l : list A) : list A :=
    match n with Some k => takeN k l | None => l end.

  (** rows [m .. m+n) *)
  Definition slice (m n : N) (l : list A) : list A := takeN n (dropN m l).

  (** stable insertion sort; [cmp x y = Gt] means [x] goes after [y] *)
  Fixpoint insert_by (cmp : A -> A -> comparison) (x : A) (l : list A) : list A :=
    match l with
    | [] => [x]
    | y :: r => match cmp x y with
                | Gt => y :: insert_by cmp x r
                | _ => x :: l
                end
    end.

  Fixpoint sort_by (cmp : A -> A -> comparison) (l : list A) : list A :=
    match l with
    | [] => []
    | x :: r => insert_by cmp x (sort_by cmp r)
    end.

  (** ** k-way merge driven by a heap holding one head per stream.
      [before (i, x) (j, y) = true] iff the heap pops item [(i, x)] before [(j, y)].
      With one item per stream and a total preorder on keys the greatest heap item
      is unique, so the pop order does not depend on the heap's internal layout;
      the model scans the heads from stream 0 upwards and keeps the current best. *)
  Fixpoint pick (before : nat * A -> nat * A -> bool) (i : nat) (ss : list (list A))
           (best : option (nat * A)) : option (nat * A) :=
    match ss with
    | [] => best
    | s :: r =>
        let best' :=
          match s with
          | [] => best
          | x :: _ => match best with
                      | None => Some (i, x)
                      | Some b => if before (i, x) b then Some (i, x) else best
                      end
          end in
        pick before (S i) r best'
    end.

  Fixpoint drop_head (i : nat) (ss : list (list A)) : list (list A) :=
    match ss with
    | [] => []
    | s :: r => match i with
                | O => tl s :: r
                | S j => s :: drop_head j r
                end
    end.

  Fixpoint total_len (ss : list (list A)) : nat :=
    match ss with
    | [] => O
    | s :: r => (length s + total_len r)%nat
    end.

  Fixpoint kmerge_fuel (before : nat * A -> nat * A -> bool) (fuel : nat)
           (ss : list (list A)) : list A :=
    match fuel with
    | O => []
    | S f => match pick before O ss None with
             | None => []
             | Some (i, x) => x :: kmerge_fuel before f (drop_head i ss)
             end
    end.

  Definition kmerge (before : nat * A -> nat * A -> bool) (ss : list (list A)) : list A :=
    kmerge_fuel before (total_len ss) ss.

  (** The loop of [MergerState::run], literally: pop, stop if [emitted >= limit],
      skip while [skipped > 0], else emit; stop again if the limit is reached;
      refill from the stream the item came from. *)
  Fixpoint merger_loop (before : nat * A -> nat * A -> bool) (fuel : nat)
           (ss : list (list A)) (skipped : N) (limit : option N) (emitted : N) : list A :=
    match fuel with
    | O => []
    | S f =>
      match pick before O ss None with
      | None => []
      | Some (i, x) =>
        let full := match limit with Some l => (l <=? emitted)%N | None => false end in
        if full then []
        else if (0 <? skipped)%N
        then merger_loop before f (drop_head i ss) (N.pred skipped) limit emitted
        else
          let emitted' := N.succ emitted in
          let full' := match limit with Some l => (l <=? emitted')%N | None => false end in
          x :: (if full' then [] else merger_loop before f (drop_head i ss) 0%N limit emitted')
      end
    end.
End Lists.

(** * The ordered merger on rows *)

(** a row: sort key and an opaque row identity *)
Definition row : Type := value * N.

Definition row_cmp (a b : row) : comparison := scalar_compare (fst a) (fst b).

(** [HeapItem::cmp]: [ord = compare(key).then(other.shard_idx.cmp(self.shard_idx))],
    reversed when ascending; the heap is a max-heap, so [x] is popped before [y]
    iff [cmp x y = Greater]. *)
Definition heap_item_cmp {A} (cmp : A -> A -> comparison) (ascending : bool)
           (x y : nat * A) : comparison :=
  let ord := match cmp (snd x) (snd y) with
             | Eq => Nat.compare (fst y) (fst x)
             | c => c
             end in
  if ascending then CompOpp ord else ord.

Definition heap_before {A} (cmp : A -> A -> comparison) (ascending : bool)
           (x y : nat * A) : bool :=
  match heap_item_cmp cmp ascending x y with Gt => true | _ => false end.

(** direction-adjusted comparator used by the per-flow sort *)
Definition dir_cmp {A} (cmp : A -> A -> comparison) (ascending : bool) (a b : A) : comparison :=
  if ascending then cmp a b else CompOpp (cmp a b).

(** [StreamingContext::effective_limit] *)
Definition effective_limit (limit offset : option N) : option N :=
  match limit with
  | Some l => Some (l + match offset with Some o => o | None => 0%N end)%N
  | None => None
  end.

Section OrderedPath.
  Context {A : Type}.
  Variable cmp : A -> A -> comparison.

  (** [OrderedStreamMerger::spawn(.., ascending, offset, limit, ..)] on the rows of
      the receivers (batch boundaries are not observable in the row sequence) *)
  Definition merger_run_g (ascending : bool) (offset : N) (limit : option N)
             (streams : list (list A)) : list A :=
    merger_loop (heap_before cmp ascending) (total_len streams) streams offset limit 0%N.

  (** per-flow: collect, sort, truncate to the flow limit (None when ORDER BY defers it) *)
  Definition flow_sort_g (ascending : bool) (lim : option N) (rows : list A) : list A :=
    take_opt lim (sort_by (dir_cmp cmp ascending) rows).

  (** shard level (engine/query/streaming/merger.rs): offset 0, limit n+m *)
  Definition shard_ordered_g (ascending : bool) (limit offset : option N)
             (flows : list (list A)) : list A :=
    merger_run_g ascending 0%N (effective_limit limit offset)
                 (map (flow_sort_g ascending None) flows).

  (** coordinator (merge/streaming.rs): offset m, limit n, applied once *)
  Definition coord_ordered_g (ascending : bool) (limit offset : option N)
             (shards : list (list (list A))) : list A :=
    merger_run_g ascending (match offset with Some o => o | None => 0%N end) limit
                 (map (shard_ordered_g ascending limit offset) shards).
End OrderedPath.

Definition merger_run := merger_run_g row_cmp.
Definition flow_sort := flow_sort_g row_cmp.
Definition shard_ordered := shard_ordered_g row_cmp.
Definition coord_ordered := coord_ordered_g row_cmp.

(** * The response writer (unordered path and final dedup) *)

Fixpoint mem_N (x : N) (l : list N) : bool :=
  match l with
  | [] => false
  | y :: r => (x =? y)%N || mem_N x r
  end.

(** [try_accept_row] over the row sequence; a row carries [Some id] when its
    event_id column converts with [as_u64], else [None] *)
Fixpoint writer_go {A} (limit offset : option N) (seen : list N) (skipped emitted : N)
         (rows : list (option N * A)) : list A :=
  match rows with
  | [] => []
  | (oid, x) :: r =>
    let dup := match oid with Some id => mem_N id seen | None => false end in
    let seen' := match oid with Some id => if dup then seen else id :: seen | None => seen end in
    if dup then writer_go limit offset seen' skipped emitted r
    else
      let skip := match offset with Some o => (skipped <? o)%N | None => false end in
      if skip then writer_go limit offset seen' (N.succ skipped) emitted r
      else
        let full := match limit with Some l => (l <=? emitted)%N | None => false end in
        if full then []      (* limit_reached: the loops stop *)
        else x :: writer_go limit offset seen' skipped (N.succ emitted) r
  end.

Definition writer_run {A} (limit offset : option N) (rows : list (option N * A)) : list A :=
  writer_go limit offset [] 0%N 0%N rows.

(** event id of a row as the writer sees it *)
Definition event_id_of (v : value) : option N :=
  match as_u64 v with Some z => Some (Z.to_N z) | None => None end.

(** * Handler rule *)
Inductive precheck := PreOk | PreBadRequest.

(** [query_offset_requires_limit] is regenerated from handler.rs by the translator *)
Definition handler_precheck (limit offset : option N) : precheck :=
  match offset, limit with
  | Some _, None => if query_offset_requires_limit then PreBadRequest else PreOk
  | _, _ => PreOk
  end.

(** which limits the response writer receives (handler.rs): none for ordered
    queries (already applied by the merger), the command's for unordered ones *)
Definition writer_limits (ordered : bool) (limit offset : option N) : option N * option N :=
  if ordered then (None, None) else (limit, offset).

(** * Column kinds on which [scalar_compare] is the typed order *)

(** i64 / datetime columns: Int64 and Timestamp cells *)
Definition is_intlike (v : value) : bool :=
  match v with
  | VNull | VInt _ | VTs _ => true
  | _ => false
  end.

(** u64 columns: non-negative Int64 / Timestamp cells, and values above i64::MAX,
    which [ScalarValue::from] holds as Utf8 decimal strings *)
Definition is_u64like (v : value) : bool :=
  match v with
  | VNull => true
  | VInt z | VTs z => 0 <=? z
  | VStr s => match parse_u64 s with Some z => i64_hi <? z | None => false end
  | _ => false
  end.

Definition is_floatlike (v : value) : bool :=
  match v with
  | VNull => true
  | VFloat b r => negb (f64_is_nan b) && negb (match r with [] => true | _ => false end)
  | _ => false
  end.

(** float columns also hold Int64 cells (an integral JSON number in a float field);
    integers of magnitude at most 2^53 convert to doubles exactly *)
Definition num_int_bound : Z := 9007199254740992.
Definition is_numlike (v : value) : bool :=
  match v with
  | VNull => true
  | VFloat b r => negb (f64_is_nan b) && negb (match r with [] => true | _ => false end)
  | VInt z | VTs z => (- num_int_bound <=? z) && (z <=? num_int_bound)
  | _ => false
  end.

Definition is_boollike (v : value) : bool :=
  match v with VNull | VBool _ => true | _ => false end.

(** strings that none of the numeric / boolean accessors accept *)
Definition plain_string (s : bytes) : bool :=
  match parse_u64 s, parse_i64 s, parse_f64 s, as_bool (VStr s) with
  | None, None, None, None => true
  | _, _, _, _ => false
  end.

Definition is_plainstr (v : value) : bool :=
  match v with VNull => true | VStr s => plain_string s | _ => false end.

Inductive kind := KInt | KU64 | KFloat | KNum | KBool | KStr.

Definition in_kind (k : kind) (v : value) : bool :=
  match k with
  | KInt => is_intlike v
  | KU64 => is_u64like v
  | KFloat => is_floatlike v
  | KNum => is_numlike v
  | KBool => is_boollike v
  | KStr => is_plainstr v
  end.

Definition opt_cmp {A} (c : A -> A -> comparison) (a b : option A) : comparison :=
  match a, b with
  | None, None => Eq
  | None, Some _ => Lt
  | Some _, None => Gt
  | Some x, Some y => c x y
  end.

(** position of a numeric cell on the double line *)
Definition num_key (v : value) : option Z :=
  match v with
  | VFloat x _ => Some (f64_key x)
  | VInt z | VTs z => Some (f64_key (f64_of_Z z))
  | _ => None
  end.

(** the typed order of each kind (missing values first) *)
Definition typed_compare (k : kind) (a b : value) : comparison :=
  match k with
  | KInt => opt_cmp Z.compare (as_i64 a) (as_i64 b)
  | KU64 => opt_cmp Z.compare (as_u64 a) (as_u64 b)
  | KFloat =>
      opt_cmp Z.compare
        (match a with VFloat x _ => Some (f64_key x) | _ => None end)
        (match b with VFloat x _ => Some (f64_key x) | _ => None end)
  | KNum => opt_cmp Z.compare (num_key a) (num_key b)
  | KBool =>
      opt_cmp bool_cmp (match a with VBool x => Some x | _ => None end)
                       (match b with VBool x => Some x | _ => None end)
  | KStr =>
      bytes_cmp (match a with VStr s => s | _ => [] end)
                (match b with VStr s => s | _ => [] end)
  end.

Definition all_kinds : list kind := [KInt; KU64; KFloat; KNum; KBool; KStr].

(** a column (list of keys) is coherent when one kind covers all its values *)
Definition coherent (vs : list value) : bool :=
  existsb (fun k => forallb (in_kind k) vs) all_kinds.

(** * Known-finding classes of incoherent sort columns (see Props/C10.v) *)
Inductive order_class := NumericLookingStrings | NumericMixed | MixedKinds.

Definition is_strnull (v : value) : bool :=
  match v with VNull | VStr _ => true | _ => false end.
Definition is_numnull (v : value) : bool :=
  match v with VNull | VInt _ | VTs _ | VFloat _ _ => true | _ => false end.

(** [None]: one kind covers the column and [scalar_compare] is its typed order.
    - [NumericLookingStrings]: a string column in which some value is accepted by a
      numeric or boolean accessor ("9" "10" "1a"; "true" "1" "x"; "nan").
    - [NumericMixed]: Int64 / Timestamp cells beyond 2^53 together with Float64
      cells (the integer rounds when compared with a float), or a NaN.
    - [MixedKinds]: any other mixture of runtime kinds in one column (arises from
      the string re-typing after FLUSH, C07). *)
Definition classify_column (vs : list value) : option order_class :=
  if coherent vs then None
  else if forallb is_strnull vs then Some NumericLookingStrings
  else if forallb is_numnull vs then Some NumericMixed
  else Some MixedKinds.
