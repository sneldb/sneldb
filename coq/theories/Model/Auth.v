(** Model of sneldb's authentication and authorisation (property C13) — executable
    definitions only.

    Sources: src/engine/auth/{types,user_ops,permission_ops,signature,manager,db_ops}.rs,
    src/frontend/tcp/listener.rs (check_auth / TcpAuthState), src/frontend/unix/connection.rs,
    src/frontend/http/dispatcher.rs (check_auth_with_headers), src/command/dispatcher.rs and the
    handlers store / query / define / auth / permissions / replay / remember / show / compare /
    flush.

    Strings are byte lists.  Two places where the Rust code is Unicode-aware are modelled on
    ASCII only: [char::is_alphanumeric] in [validate_user_id] and [str::trim].  HMAC-SHA256 is an
    uninterpreted function (a [Section] variable), so is the command parser ([parse]).
    Constants, reserved ids, role names and — per handler — whether it has the reserved-id
    shortcut / receives the caller's identity come from the regenerated [Gen.Params]. *)
From Coq Require Import NArith List Bool.
From Snel Require Import Base.Bytes Gen.Params.
Import ListNotations.
Open Scope N_scope.

Definition blen (s : bytes) : N := N.of_nat (length s).
Definition is_nil {A} (l : list A) : bool := match l with [] => true | _ => false end.

(** ---- HashMap<String, _> / HashSet<String> as association lists / lists ---- *)
Fixpoint alookup {A} (k : bytes) (m : list (bytes * A)) : option A :=
  match m with
  | [] => None
  | (k', v) :: r => if bytes_eqb k k' then Some v else alookup k r
  end.
Fixpoint aremove {A} (k : bytes) (m : list (bytes * A)) : list (bytes * A) :=
  match m with
  | [] => []
  | (k', v) :: r => if bytes_eqb k k' then aremove k r else (k', v) :: aremove k r
  end.
Definition ainsert {A} (k : bytes) (v : A) (m : list (bytes * A)) : list (bytes * A) :=
  (k, v) :: aremove k m.

Definition smem (k : bytes) (s : list bytes) : bool := existsb (bytes_eqb k) s.
Definition sremove (k : bytes) (s : list bytes) : list bytes :=
  filter (fun x => negb (bytes_eqb k x)) s.
Definition sinsert (k : bytes) (s : list bytes) : list bytes := k :: sremove k s.

(** ---- users, permission sets, the permission cache (types.rs) ---- *)
Record perm := mkPerm { p_read : bool; p_write : bool }.
Definition perm_none : perm := mkPerm false false.

Record user := mkUser {
  u_id : bytes; u_key : bytes; u_active : bool;
  u_roles : list bytes; u_perms : list (bytes * perm) }.

Record pcache := mkPC {
  pc_perms : list (bytes * list (bytes * perm));
  pc_admin : list bytes; pc_ro : list bytes; pc_ed : list bytes; pc_wo : list bytes }.
Definition pcache_empty : pcache := mkPC [] [] [] [] [].

(** some role of the user is one of [names] (the arms of the match in [update_user]) *)
Definition role_in (names roles : list bytes) : bool := existsb (fun r => smem r names) roles.

(** [PermissionCache::update_user] *)
Definition update_user (c : pcache) (u : user) : pcache :=
  let id := u_id u in
  let upd names set := if role_in names (u_roles u) then sinsert id set else sremove id set in
  mkPC (if is_nil (u_perms u) then aremove id (pc_perms c) else ainsert id (u_perms u) (pc_perms c))
       (upd auth_roles_admin (pc_admin c))
       (upd auth_roles_read_only (pc_ro c))
       (upd auth_roles_editor (pc_ed c))
       (upd auth_roles_write_only (pc_wo c)).

Definition cache_perm (c : pcache) (uid t : bytes) : option perm :=
  match alookup uid (pc_perms c) with
  | Some ps => alookup t ps
  | None => None
  end.

(** [PermissionCache::can_read] *)
Definition can_read (c : pcache) (uid t : bytes) : bool :=
  if smem uid (pc_admin c) then true
  else
    match cache_perm c uid t with
    | Some p =>
        if p_read p then true
        else if negb (p_read p) && negb (p_write p) then false
        else smem uid (pc_ro c) || smem uid (pc_ed c)
    | None => smem uid (pc_ro c) || smem uid (pc_ed c)
    end.

(** [PermissionCache::can_write] *)
Definition can_write (c : pcache) (uid t : bytes) : bool :=
  if smem uid (pc_admin c) then true
  else
    match cache_perm c uid t with
    | Some p => p_write p
    | None => smem uid (pc_ed c) || smem uid (pc_wo c)
    end.

Definition is_admin (c : pcache) (uid : bytes) : bool := smem uid (pc_admin c).

(** ---- server state ---- *)
Record state := mkSt {
  st_users : list (bytes * user);                 (* UserCache *)
  st_cache : pcache;                              (* PermissionCache *)
  st_sessions : list (bytes * (bytes * N));       (* token -> (user id, expires_at) *)
  st_schemas : list bytes;                        (* defined event types *)
  st_mats : list (bytes * list bytes) }.          (* remembered query -> event types it reads *)
Definition state_empty : state := mkSt [] pcache_empty [] [] [].

Definition set_users_cache (s : state) (us : list (bytes * user)) (c : pcache) : state :=
  mkSt us c (st_sessions s) (st_schemas s) (st_mats s).
Definition set_sessions (s : state) (ss : list (bytes * (bytes * N))) : state :=
  mkSt (st_users s) (st_cache s) ss (st_schemas s) (st_mats s).

(** insert the user into the user cache, then refresh the permission cache *)
Definition put_user (s : state) (u : user) : state :=
  set_users_cache s (ainsert (u_id u) u (st_users s)) (update_user (st_cache s) u).

Inductive auth_err := EInvalidId | EIdTooLong | EKeyTooLong | EExists | ENotFound.

(** [validate_user_id] (ASCII model of [char::is_alphanumeric]) *)
Definition id_char_ok (c : N) : bool := is_alpha c || is_digit c || (c =? 95) || (c =? 45).
Definition is_reserved_id (id : bytes) : bool :=
  bytes_eqb id auth_bypass_id || bytes_eqb id auth_noauth_id.
Definition validate_user_id (id : bytes) : option auth_err :=
  if is_nil id then Some EInvalidId
  else if auth_max_user_id_len <? blen id then Some EIdTooLong
  else if negb (forallb id_char_ok id) then Some EInvalidId
  else if auth_validate_rejects_reserved && is_reserved_id id then Some EInvalidId
  else None.

(** [create_user_with_roles]; [fresh_key] is the key the server would generate *)
Definition create_user (s : state) (id : bytes) (key : option bytes) (fresh_key : bytes)
    (roles : list bytes) : option auth_err * state :=
  match validate_user_id id with
  | Some e => (Some e, s)
  | None =>
      let too_long := match key with Some k => auth_max_key_len <? blen k | None => false end in
      if too_long then (Some EKeyTooLong, s)
      else
        match alookup id (st_users s) with
        | Some _ => (Some EExists, s)
        | None =>
            let k := match key with Some k => k | None => fresh_key end in
            (None, put_user s (mkUser id k true roles []))
        end
  end.

(** [AuthManager::revoke_key]: mark inactive, refresh the cache, drop the user's sessions *)
Definition revoke_key (s : state) (id : bytes) : option auth_err * state :=
  match alookup id (st_users s) with
  | None => (Some ENotFound, s)
  | Some u =>
      let s1 := put_user s (mkUser id (u_key u) false (u_roles u) (u_perms u)) in
      (None, set_sessions s1
               (filter (fun e => negb (bytes_eqb (fst (snd e)) id)) (st_sessions s1)))
  end.

(** [AuthManager::grant_permission] (sets the permission set of one event type) *)
Definition grant_permission (s : state) (id t : bytes) (p : perm) : option auth_err * state :=
  match alookup id (st_users s) with
  | None => (Some ENotFound, s)
  | Some u =>
      (None, put_user s (mkUser id (u_key u) (u_active u) (u_roles u) (ainsert t p (u_perms u))))
  end.

(** [AuthManager::revoke_permission] (drops the entry of one event type) *)
Definition revoke_permission (s : state) (id t : bytes) : option auth_err * state :=
  match alookup id (st_users s) with
  | None => (Some ENotFound, s)
  | Some u =>
      (None, put_user s (mkUser id (u_key u) (u_active u) (u_roles u) (aremove t (u_perms u))))
  end.

Definition get_permission (s : state) (id t : bytes) : perm :=
  match alookup id (st_users s) with
  | Some u => match alookup t (u_perms u) with Some p => p | None => perm_none end
  | None => perm_none
  end.

(** [load_from_db] after a restart: the user records survive, the permission cache is rebuilt
    from them, sessions (in memory only) are gone. *)
Definition restart (s : state) : state :=
  mkSt (st_users s)
       (fold_left (fun c e => update_user c (snd e)) (st_users s) pcache_empty)
       [] (st_schemas s) (st_mats s).

(** ---- sessions (manager.rs) ---- *)
Definition new_session (s : state) (tok uid : bytes) (now expiry : N) : state :=
  set_sessions s (ainsert tok (uid, now + expiry) (st_sessions s)).

(** [validate_session_token] *)
Definition validate_token (s : state) (tok : bytes) (now : N) : option bytes :=
  match alookup tok (st_sessions s) with
  | None => None
  | Some (uid, exp) =>
      if exp <? now then None
      else match alookup uid (st_users s) with
           | Some u => if u_active u then Some uid else None
           | None => None
           end
  end.
Definition revoke_token (s : state) (tok : bytes) : bool * state :=
  (match alookup tok (st_sessions s) with Some _ => true | None => false end,
   set_sessions s (aremove tok (st_sessions s))).
Definition revoke_user_sessions (s : state) (uid : bytes) : N * state :=
  let keep := filter (fun e => negb (bytes_eqb (fst (snd e)) uid)) (st_sessions s) in
  (N.of_nat (length (st_sessions s) - length keep), set_sessions s keep).

(** ---- string helpers of the gates ---- *)
(** split at the first occurrence of byte [c] *)
Fixpoint split_byte (c : N) (s : bytes) : option (bytes * bytes) :=
  match s with
  | [] => None
  | x :: r =>
      if x =? c then Some ([], r)
      else match split_byte c r with
           | Some (a, b) => Some (x :: a, b)
           | None => None
           end
  end.

Fixpoint is_prefix (p s : bytes) : bool :=
  match p, s with
  | [], _ => true
  | x :: p', y :: s' => (x =? y) && is_prefix p' s'
  | _ :: _, [] => false
  end.

(** split at the LAST occurrence of the byte string [pat] ([str::rfind] + [split_at]) *)
Fixpoint rsplit_sub (pat s : bytes) : option (bytes * bytes) :=
  match s with
  | [] => None
  | x :: r =>
      match rsplit_sub pat r with
      | Some (a, b) => Some (x :: a, b)
      | None => if is_prefix pat s then Some ([], skipn (length pat) s) else None
      end
  end.

Definition colon : N := 58.
Definition token_marker : bytes := [32; 84; 79; 75; 69; 78; 32].      (* " TOKEN " *)
Definition auth_word : bytes := [65; 85; 84; 72; 32].                  (* "AUTH " *)
Definition eq_ignore_case (a b : bytes) : bool := bytes_eqb (map to_lower a) (map to_lower b).

(** [parse_auth]: "user_id:signature:command" *)
Definition parse_auth (s : bytes) : option (bytes * bytes * bytes) :=
  match split_byte colon s with
  | None => None
  | Some (uid, rest) =>
      match split_byte colon rest with
      | None => None
      | Some (sig, cmd) =>
          if is_nil uid || (auth_max_user_id_len <? blen uid) then None
          else if auth_max_sig_len <? blen sig then None
          else Some (uid, sig, cmd)
      end
  end.

(** ---- abstract commands and the dispatcher ---- *)
(** a query reads its head event type and the further types of its event sequence *)
Definition qspec := (bytes * list bytes)%type.
Definition q_types (q : qspec) : list bytes := fst q :: snd q.

Inductive cmd :=
| CStore (t : bytes)
| CQuery (q : qspec)
| CReplay (t : option bytes) (present : list bytes)  (* [present]: event types stored in the context *)
| CCompare (qs : list qspec)
| CRemember (name : bytes) (q : qspec)
| CShow (name : bytes)
| CFlush
| CPing
| CDefine (t : bytes)
| CCreateUser (id : bytes) (key : option bytes) (roles : option (list bytes))
| CRevokeKey (id : bytes)
| CListUsers
| CGrant (r w : bool) (ts : list bytes) (id : bytes)
| CRevokePerm (r w : bool) (ts : list bytes) (id : bytes)
| CShowPerms (id : bytes)
| CBatch.

(** 401 / 403 / 400 / 500 / handler ran past its authorisation checks / dispatcher panic *)
Inductive outcome := O401 | O403 | O400 | O500 | OExec | OPanic.

(** The check pattern shared by the handlers:
    [None => 401], [uid != BYPASS_USER_ID && !ok(uid) => 403]. *)
Definition hcheck (skip : bool) (who : option bytes) (ok : bytes -> bool) : option outcome :=
  match who with
  | None => Some O401
  | Some u => if (skip && bytes_eqb u auth_bypass_id) || ok u then None else Some O403
  end.

Definition is_blank (s : bytes) : bool := is_nil (trim s).

Fixpoint grant_loop (s : state) (r w : bool) (ts : list bytes) (id : bytes) : outcome * state :=
  match ts with
  | [] => (OExec, s)
  | t :: rest =>
      if negb (smem t (st_schemas s)) then (O400, s)
      else
        let ex := get_permission s id t in
        match grant_permission s id t (mkPerm (p_read ex || r) (p_write ex || w)) with
        | (Some _, _) => (O400, s)
        | (None, s') => grant_loop s' r w rest id
        end
  end.

(** REVOKE goes through [grant_permission] with the reduced set, so an explicit
    (false,false) entry is left behind. *)
Fixpoint revoke_loop (s : state) (r w : bool) (ts : list bytes) (id : bytes) : outcome * state :=
  match ts with
  | [] => (OExec, s)
  | t :: rest =>
      let ex := get_permission s id t in
      match grant_permission s id t (mkPerm (p_read ex && negb r) (p_write ex && negb w)) with
      | (Some _, _) => (O400, s)
      | (None, s') => revoke_loop s' r w rest id
      end
  end.

(** [mat_types], [replay_types] and [writer_role] are read by the specification only ([needs],
    [writer_role_spec] in AuthProofs), not by [dispatch]: its whole-context REPLAY checks every defined
    type whatever [present] is, its FLUSH arm asks [is_admin]. *)
Definition mat_types (s : state) (name : bytes) : list bytes :=
  match alookup name (st_mats s) with Some ts => ts | None => [] end.

(** event types a read command touches *)
Definition replay_types (t : option bytes) (present : list bytes) : list bytes :=
  match t with Some t => [t] | None => present end.

(** A handler that does not receive the caller's identity cannot check anything (SHOW).  One that
    does (REPLAY d146031, comparison 20fee3f, REMEMBER 8e7945c) checks as QUERY does: every event
    type read must be readable. *)
Definition read_check (ident : bool) (c : pcache) (who : option bytes) (ts : list bytes) : option outcome :=
  if ident then hcheck true who (fun u => forallb (can_read c u) ts) else None.

Definition writer_role (c : pcache) (u : bytes) : bool :=
  smem u (pc_admin c) || smem u (pc_ed c) || smem u (pc_wo c).

(** [dispatch_command] with [auth_manager = Some _] (what [FrontendContext::from_config] builds). *)
Definition dispatch (s : state) (who : option bytes) (c : cmd) (fresh_key : bytes) : outcome * state :=
  let pc := st_cache s in
  match c with
  | CStore t =>
      match (if auth_ident_store then hcheck auth_skip_store who (fun u => can_write pc u t) else None) with
      | Some o => (o, s)
      | None => (OExec, s)
      end
  | CQuery q =>
      if is_blank (fst q) then (O400, s)
      else
        match (if auth_ident_query then hcheck auth_skip_query who (fun u => can_read pc u (fst q)) else None) with
        | Some o => (o, s)
        | None =>
            match (if auth_query_checks_sequence
                   then hcheck auth_skip_query who (fun u => forallb (can_read pc u) (snd q)) else None) with
            | Some o => (o, s)
            | None => (OExec, s)
            end
        end
  | CReplay t present =>
      (* d146031: the named event type, or EVERY DEFINED event type when the whole context is
         replayed (registry.get_all()), must be readable *)
      match read_check auth_ident_replay pc who (match t with Some t => [t] | None => st_schemas s end) with
      | Some o => (o, s)
      | None => (OExec, s)
      end
  | CCompare qs =>
      (* 20fee3f: the identity / read check comes first, the "at least 2 queries" check second *)
      match read_check auth_ident_compare pc who (flat_map q_types qs) with
      | Some o => (o, s)
      | None => if Nat.ltb (length qs) 2 then (O400, s) else (OExec, s)
      end
  | CRemember name q =>
      match read_check auth_ident_remember pc who (q_types q) with
      | Some o => (o, s)
      | None =>
          match alookup name (st_mats s) with
          | Some _ => (O500, s)
          | None => (OExec, mkSt (st_users s) (st_cache s) (st_sessions s) (st_schemas s)
                                 (ainsert name (q_types q) (st_mats s)))
          end
      end
  | CShow name =>
      match alookup name (st_mats s) with
      | None => (O500, s)
      | Some ts =>
          match read_check auth_ident_show pc who ts with
          | Some o => (o, s)
          | None => (OExec, s)
          end
      end
  | CFlush =>
      match (if auth_ident_flush then hcheck true who (is_admin pc) else None) with
      | Some o => (o, s)
      | None => (OExec, s)
      end
  | CPing => (OExec, s)
  | CDefine t =>
      match (if auth_ident_define then hcheck auth_skip_define who (is_admin pc) else None) with
      | Some o => (o, s)
      | None => (OExec, mkSt (st_users s) (st_cache s) (st_sessions s)
                             (sinsert t (st_schemas s)) (st_mats s))
      end
  | CCreateUser id key roles =>
      match hcheck auth_skip_users who (is_admin pc) with
      | Some o => (o, s)
      | None =>
          match create_user s id key fresh_key (match roles with Some r => r | None => [] end) with
          | (None, s') => (OExec, s')
          | (Some _, _) => (O400, s)
          end
      end
  | CRevokeKey id =>
      match hcheck auth_skip_users who (is_admin pc) with
      | Some o => (o, s)
      | None =>
          match revoke_key s id with
          | (None, s') => (OExec, s')
          | (Some _, _) => (O400, s)
          end
      end
  | CListUsers =>
      match hcheck auth_skip_users who (is_admin pc) with
      | Some o => (o, s)
      | None => (OExec, s)
      end
  | CGrant r w ts id =>
      match hcheck auth_skip_perms who (is_admin pc) with
      | Some o => (o, s)
      | None => grant_loop s r w ts id
      end
  | CRevokePerm r w ts id =>
      match hcheck auth_skip_perms who (is_admin pc) with
      | Some o => (o, s)
      | None => revoke_loop s r w ts id
      end
  | CShowPerms id =>
      match hcheck auth_skip_perms who (is_admin pc) with
      | Some o => (o, s)
      | None => match alookup id (st_users s) with Some _ => (OExec, s) | None => (O400, s) end
      end
  | CBatch => (OPanic, s)
  end.

(** ---- the gates ---- *)
Record gate_cfg := mkCfg { g_bypass : bool; g_has_mgr : bool; g_expiry : N }.

Inductive gate_result :=
| GReject
| GAuthOk (u : bytes)                 (* AUTH accepted: "OK TOKEN <token>" *)
| GDispatch (text : bytes) (u : bytes).

Section Gates.
  (** hex(HMAC-SHA256(key, message)) — uninterpreted *)
  Variable hmac : bytes -> bytes -> bytes.

  (** [signature::verify_signature] *)
  Definition verify_signature (s : state) (msg uid sig : bytes) : bool :=
    if auth_max_sig_len <? blen sig then false
    else if auth_max_user_id_len <? blen uid then false
    else if auth_verify_rejects_reserved && is_reserved_id uid then false
    else match alookup uid (st_users s) with
         | None => false
         | Some u => u_active u && bytes_eqb sig (hmac (u_key u) msg)
         end.

  (** [check_auth] of the TCP (and WebSocket) listener.
      [conn]: the user the connection authenticated as (TcpAuthState.user_id);
      [fresh_tok]: the session token the server would generate now. *)
  Definition gate_tcp (cfg : gate_cfg) (s : state) (conn : option bytes) (line : bytes)
      (now : N) (fresh_tok : bytes) : gate_result * option bytes * state :=
    let t := trim line in
    if g_bypass cfg then (GDispatch t auth_bypass_id, conn, s)
    else if (5 <=? blen t) && eq_ignore_case (firstn 5 t) auth_word then
      (* TcpAuthState::authenticate *)
      match split_byte colon (trim (skipn 5 t)) with
      | None => (GReject, conn, s)
      | Some (uid, sig) =>
          if g_has_mgr cfg && verify_signature s uid uid sig
          then (GAuthOk uid, Some uid, new_session s fresh_tok uid now (g_expiry cfg))
          else (GReject, conn, s)
      end
    else if negb (g_has_mgr cfg) then (GDispatch t auth_noauth_id, conn, s)
    else
      let by_token :=
        match rsplit_sub token_marker t with
        | Some (before, after) =>
            let tok := trim after in
            if negb (is_nil tok) && (blen tok <=? auth_token_max_len) then
              match validate_token s tok now with
              | Some uid => Some (GDispatch (trim before) uid)
              | None => None
              end
            else None
        | None => None
        end in
      match by_token with
      | Some r => (r, conn, s)
      | None =>
          match conn with
          | Some uid =>
              match split_byte colon t with
              | Some (sig, rest) =>
                  let c := trim rest in
                  if verify_signature s c uid sig then (GDispatch c uid, conn, s) else (GReject, conn, s)
              | None => (GReject, conn, s)
              end
          | None =>
              match parse_auth t with
              | Some (uid, sig, c) =>
                  if verify_signature s c uid sig then (GDispatch c uid, conn, s) else (GReject, conn, s)
              | None => (GReject, conn, s)
              end
          end
      end.

  (** [Connection::check_auth] of the UNIX-socket frontend (inline format only) *)
  Definition gate_unix (cfg : gate_cfg) (s : state) (line : bytes) : gate_result :=
    let t := trim line in
    if g_bypass cfg then GDispatch t auth_bypass_id
    else if negb (g_has_mgr cfg) then GDispatch t auth_noauth_id
    else match parse_auth t with
         | Some (uid, sig, c) => if verify_signature s c uid sig then GDispatch c uid else GReject
         | None => GReject
         end.

  (** [check_auth_with_headers] of the HTTP /command endpoint;
      [hdr]: X-Auth-User / X-Auth-Signature when both are present and non-empty *)
  Definition gate_http (cfg : gate_cfg) (s : state) (hdr : option (bytes * bytes)) (body : bytes)
      : gate_result :=
    let t := trim body in
    if g_bypass cfg then GDispatch t auth_bypass_id
    else if negb (g_has_mgr cfg) then GDispatch t auth_noauth_id
    else match hdr with
         | Some (uid, sig) => if verify_signature s t uid sig then GDispatch t uid else GReject
         | None =>
             match parse_auth t with
             | Some (uid, sig, c) => if verify_signature s c uid sig then GDispatch c uid else GReject
             | None => GReject
             end
         end.

  (** ---- a whole request: gate, parser (uninterpreted), dispatcher ---- *)
  Variable parse : bytes -> option cmd.

  Inductive served :=
  | SAuthFail
  | SAuthOk (u : bytes)
  | SParseErr (u : bytes)
  | SOut (c : cmd) (u : bytes) (o : outcome).

  Definition after_gate (r : gate_result) (s : state) (fresh_key : bytes) : served * state :=
    match r with
    | GReject => (SAuthFail, s)
    | GAuthOk u => (SAuthOk u, s)
    | GDispatch text u =>
        match parse text with
        | None => (SParseErr u, s)
        | Some c => let '(o, s') := dispatch s (Some u) c fresh_key in (SOut c u o, s')
        end
    end.

  Definition serve_tcp (cfg : gate_cfg) (s : state) (conn : option bytes) (line : bytes) (now : N)
      (fresh_tok fresh_key : bytes) : served * option bytes * state :=
    let '(r, conn', s1) := gate_tcp cfg s conn line now fresh_tok in
    let '(o, s2) := after_gate r s1 fresh_key in (o, conn', s2).

  Definition serve_unix (cfg : gate_cfg) (s : state) (line : bytes) (fresh_key : bytes) : served * state :=
    after_gate (gate_unix cfg s line) s fresh_key.

  Definition serve_http (cfg : gate_cfg) (s : state) (hdr : option (bytes * bytes)) (body : bytes)
      (fresh_key : bytes) : served * state :=
    after_gate (gate_http cfg s hdr body) s fresh_key.
End Gates.
