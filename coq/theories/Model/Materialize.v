(** Model of REMEMBER QUERY … AS m / SHOW m — executable definitions only.

    Rust sources: src/command/handlers/remember.rs (remember_query_with_data_dir),
    src/command/handlers/show/orchestrator.rs (ShowExecutionPipeline::run, build_outcome),
    show/delta/{refresher,watermark}.rs (DeltaRefresher, WatermarkDeduplicator::filter),
    show/store/frame_streamer.rs, show/streaming/response_writer.rs (ShowResponseWriter),
    src/engine/materialize/{high_water,sink,spec}.rs, materialize/store/{materialized_store,manifest}.rs,
    store/frame/writer.rs + store/codec/encoder.rs (the per-frame mark), materialize/catalog/*,
    src/engine/core/zone/selector/{index_selector,pruner/materialization_pruner}.rs,
    src/engine/query/streaming/{scan,merger}.rs and command/handlers/query/merge/streaming.rs (which batches
    a streaming query produces).

    What the code does (and the model reproduces):
    - a streaming, un-ordered QUERY delivers, per shard, at most one batch from the memtable flow and one
      batch from the segment flow (batch size 32768), fanned in without order; [sources] lists them, the
      arrival order is an input ([choice], taken from the observed frames in the correspondence run and
      universally quantified in the theorems);
    - REMEMBER stores every arriving batch as one frame (raw stream: no de-duplication; LIMIT n cuts the
      stream after n rows, each source having been cut to n rows by the pushed-down limit);
    - the mark of a frame is (max "timestamp" column, max "event_id" column) — two independent maxima
      (encoder.rs) — and the mark of a materialisation is the MAXIMUM of the marks of its frames
      (sink.rs: [self.high_water.advance(..)] in append and over all frames in bootstrap_from_manifest;
      [frames_mark]);
    - SHOW streams the stored frames, then the delta query: the query with SINCE raised to the mark's
      timestamp (spec.rs delta_command; applied to the query's own time field), run with the
      materialisation metadata, which makes the zone selector skip a segment whose .zones file mtime is
      below mark.ts - 1 (file_definitely_stale) and every zone whose CORE timestamp_max is below mark.ts
      (materialization_high_water_ts is always present, so the created_at comparison is dead code);
      delta rows pass the WatermarkDeduplicator iff (time-field value, event id) > mark lexicographically
      (the filter is enabled iff the time-field column is part of the result schema; otherwise the
      response writer drops delta rows whose id it has seen); every non-empty filtered delta batch is
      appended as a new frame; SHOW never applies LIMIT/OFFSET to its output.

    - SHOW persists in two steps: every filtered delta batch is appended to the store (frame file + manifest)
      while the response is streamed; the catalog entry (with its own copy of the mark) is rewritten only after the
      response was written completely.  A client that hangs up (or a crash) in between leaves new frames in the
      store and a stale catalog mark ([OShowFail]; the delta task is aborted, so any duplicate-free selection of the
      delta batches may have been appended).  The next SHOW takes the frames, the guard timestamp and the
      watermark filter from the STORE's manifest (its mark) and only the SINCE of the delta query from the catalog
      entry ([n_cat]).

    - Several remembered queries live side by side in the catalog, each with its own store directory
      (catalog/entry.rs: [storage_path = root_dir.join(alias)]) and its own catalog entry; names are compared
      exactly (case-sensitively) by the catalog index, the duplicate check and the path.  The model identifies a view
      by a number; two spellings are the same number iff they are the same string (the harness keeps that map), so
      [lookup] / [update] are the whole name semantics and an operation on one view touches no other ([frame_property]).

    Not modelled: ORDER BY / OFFSET / aggregates / sequences in the remembered query, retention policies,
    batches above 32768 rows, a SHOW racing with a flush (SHOW waits for in-flight flushes first). *)
From Coq Require Import NArith List Bool.
From Snel Require Import Gen.Params.
Import ListNotations.
Open Scope N_scope.

(** Read from the Rust text on every run (tools/params/p50_materialize.py -> Gen/Params.v):
    [mat_sink_mark_last] (sink.rs: whether the mark is assigned from the last frame instead of advanced),
    [mat_stale_cmp], [mat_stale_slack] (index_selector.rs file_definitely_stale: mtime < cutoff - 1),
    [mat_zone_drop] (materialization_pruner.rs / segment_fully_materialized: timestamp_max < high_water),
    [mat_wm_strict] (watermark.rs: (ts, id) > mark), [mat_show_applies_limit] (orchestrator.rs passes
    None, None to the SHOW response writer), [mat_stream_batch_rows] (scan.rs STREAMING_BATCH_SIZE: one batch
    per flow below that many rows; the translator also checks that a frame's mark is built from the maxima of
    the columns named "timestamp" and "event_id"). *)

(** ** Events, queries *)

Record event := mkEvent {
  e_k : N;      (* payload key, unique per event (observation key) *)
  e_ts : N;     (* core timestamp: the STORE handler's wall-clock second *)
  e_pt : N;     (* payload time field (a "datetime" field of the schema) *)
  e_id : N;     (* event id: (ms << 22 | shard << 12 | seq), assigned when the shard applies the STORE *)
  e_ctx : N;    (* context id *)
  e_v : N;      (* integer payload field used by WHERE *)
  e_type : N }. (* event type (several types with the same field layout) *)

Inductive tfield := TCore | TPayload.
Inductive cmp := CEq | CGe | CLt.

Record query := mkQuery {
  q_ctx : option N;              (* FOR ctx *)
  q_where : option (cmp * N);    (* WHERE v <op> n *)
  q_since : option N;            (* SINCE "secs" *)
  q_tf : tfield;                 (* USING <payload time field> or the core timestamp *)
  q_tf_returned : bool;          (* is the time-field column part of the result schema
                                    (always for the core timestamp; for a payload field unless RETURN omits it) *)
  q_limit : option N;
  q_type : N }.                  (* the event type queried *)

Definition tfval (q : query) (e : event) : N :=
  match q_tf q with TCore => e_ts e | TPayload => e_pt e end.

Definition cmp_holds (c : cmp) (a b : N) : bool :=
  match c with CEq => a =? b | CGe => b <=? a | CLt => a <? b end.

(** With a WHERE clause the time filter is not among the plan's filter groups, so the time-field column of a
    SEGMENT row is loaded only if the projection asks for it: SINCE on a payload time field that RETURN omits
    then compares against a missing value and rejects every segment row, while memtable rows are evaluated on
    the event itself (observed on the engine: same query, rows of the memtable returned, rows of segments not). *)
Definition since_blind (q : query) : bool :=
  match q_tf q with
  | TCore => false
  | TPayload => negb (q_tf_returned q) && (match q_where q with Some _ => true | None => false end)
  end.

Definition matches_at (disk : bool) (q : query) (e : event) : bool :=
  (e_type e =? q_type q)
  && (match q_ctx q with None => true | Some c => e_ctx e =? c end)
  && (match q_where q with None => true | Some (c, n) => cmp_holds c (e_v e) n end)
  && (match q_since q with
      | None => true
      | Some s => if disk && since_blind q then false else s <=? tfval q e
      end).

(** the selection predicate of the query *)
Definition matches (q : query) (e : event) : bool := matches_at false q e.

(** ** Marks *)

Definition mark := (N * N)%type.
Definition mlt (a b : mark) : bool := (fst a <? fst b) || ((fst a =? fst b) && (snd a <? snd b)).
Definition mle (a b : mark) : bool := negb (mlt b a).
Definition mark_zero (m : mark) : bool := (fst m =? 0) && (snd m =? 0).

Definition max_of (f : event -> N) (l : list event) : N := fold_right (fun e m => N.max (f e) m) 0 l.
(** encoder.rs: max over the "timestamp" column and, independently, max over the "event_id" column *)
Definition frame_mark (f : list event) : mark := (max_of e_ts f, max_of e_id f).
Definition mark_max (a b : mark) : mark := if mlt a b then b else a.
(** sink.rs: HighWaterMark::advance over every frame — the maximum ([mat_sink_mark_last = false], the code as it
    is since c71d768); the other branch is the rule before that, "mark of the last frame", under which
    [MarkOfLastFrame] below was a class; with the maximum it never occurs *)
Definition frames_mark (fs : list (list event)) : mark :=
  if mat_sink_mark_last
  then match fs with [] => (0, 0) | _ => frame_mark (last fs []) end
  else fold_left (fun m f => mark_max m (frame_mark f)) fs (0, 0).
Definition ekey (e : event) : mark := (e_ts e, e_id e).

(** ** Layout of the stored events at a quiescent moment *)

Record segment := mkSeg { g_mtime : N; g_zones : list (list event) }.
Record shard := mkShard { s_mem : list event; s_segs : list segment }.
Definition layout := list shard.

Definition seg_events (g : segment) : list event := concat (g_zones g).
Definition shard_events (s : shard) : list event := s_mem s ++ flat_map seg_events (s_segs s).
Definition content (l : layout) : list event := flat_map shard_events l.

Definition zone_tsmax (z : list event) : N := max_of e_ts z.

(** [guard = Some h]: the query carries the materialisation metadata with high-water timestamp [h] *)
Definition zone_kept (g : option N) (z : list event) : bool :=
  match g with None => true | Some h => negb (mat_zone_drop (zone_tsmax z) h) end.
Definition seg_stale (g : option N) (s : segment) : bool :=
  match g with None => false | Some h => mat_stale_cmp (g_mtime s) (h - mat_stale_slack) end.
Definition seg_rows (g : option N) (q : query) (s : segment) : list event :=
  if seg_stale g s then []
  else flat_map (fun z => if zone_kept g z then filter (matches_at true q) z else []) (g_zones s).
Definition shard_sources (g : option N) (q : query) (s : shard) : list (list event) :=
  [filter (matches q) (s_mem s); flat_map (seg_rows g q) (s_segs s)].
(** the batches of a streaming query, in source order (index 2*shard for the memtable flow,
    2*shard+1 for the segment flow); empty ones are not delivered *)
Definition sources (g : option N) (q : query) (l : layout) : list (list event) :=
  flat_map (shard_sources g q) l.

(** ** Arrival order / row choice *)

(** one element per arriving batch: the source index and (only used when the query has a LIMIT) the keys of
    the rows that arrived *)
Definition choice := list (N * list N).

Definition nthN {A} (l : list A) (i : N) (d : A) : A := nth (N.to_nat i) l d.
Definition memN (k : N) (ks : list N) : bool := existsb (N.eqb k) ks.
Fixpoint nodupN (l : list N) : bool :=
  match l with [] => true | x :: r => negb (memN x r) && nodupN r end.
Definition lenN {A} (l : list A) : N := N.of_nat (length l).
Definition nonempty {A} (l : list A) : bool := match l with [] => false | _ => true end.
Definition seqN (n : nat) : list N := map N.of_nat (seq 0 n).

Definition frames_of (bs : list (list event)) (ord : list N) : list (list event) :=
  map (fun i => nthN bs i []) ord.
(** the order names every non-empty batch exactly once and nothing else *)
Definition valid_order (bs : list (list event)) (ord : list N) : bool :=
  nodupN ord
  && forallb (fun i => i <? lenN bs) ord
  && forallb (fun j => Bool.eqb (nonempty (nthN bs j [])) (memN j ord)) (seqN (length bs)).

Definition pick (b : list event) (ks : list N) : list event := filter (fun e => memN (e_k e) ks) b.
Definition keys_ok (b : list event) (ks : list N) : bool :=
  nodupN ks && forallb (fun k => existsb (fun e => e_k e =? k) b) ks.

(** REMEMBER … LIMIT n: every source delivers at most n rows, the handler stores rows until n are stored *)
Fixpoint cut_frames (bs : list (list event)) (rem : N) (ch : choice) (used : list N)
  : option (list (list event) * list N * N) :=
  match ch with
  | [] => Some ([], used, rem)
  | (i, ks) :: r =>
      let b := nthN bs i [] in
      let f := pick b ks in
      if negb (memN i used) && (i <? lenN bs) && nonempty b && (0 <? rem) && keys_ok b ks
         && (lenN f =? N.min rem (lenN b))
      then match cut_frames bs (rem - lenN f) r (i :: used) with
           | Some (fs, u, rm) => Some (f :: fs, u, rm)
           | None => None
           end
      else None
  end.

Definition remember_frames (q : query) (l : layout) (ch : choice) : option (list (list event)) :=
  let bs := sources None q l in
  match q_limit q with
  | None => let ord := map fst ch in
            if valid_order bs ord then Some (frames_of bs ord) else None
  | Some n =>
      match cut_frames bs n ch [] with
      | Some (fs, used, rem) =>
          if (rem =? 0) || forallb (fun j => negb (nonempty (nthN bs j [])) || memN j used) (seqN (length bs))
          then Some fs else None
      | None => None
      end
  end.

(** ** SHOW *)

Definition wm_enabled (q : query) : bool :=
  match q_tf q with TCore => true | TPayload => q_tf_returned q end.
Definition wm_pass (q : query) (m : mark) (e : event) : bool :=
  if mat_wm_strict then mlt m (tfval q e, e_id e) else mle m (tfval q e, e_id e).

(** spec.rs delta_command / should_update_since *)
Definition delta_query (q : query) (m : mark) : query :=
  if mark_zero m then q
  else mkQuery (q_ctx q) (q_where q)
         (Some (match q_since q with Some s => if s <? fst m then fst m else s | None => fst m end))
         (q_tf q) (q_tf_returned q) (q_limit q) (q_type q).

Definition show_filter (q : query) (m : mark) (b : list event) : list event :=
  if wm_enabled q then filter (wm_pass q m) b else b.

(** delta batches of a LIMIT n query: n rows of the source flow, then the watermark filter *)
Fixpoint delta_cut (q : query) (m : mark) (n : N) (bs : list (list event)) (ch : choice) (used : list N)
  : option (list (list event) * list N) :=
  match ch with
  | [] => Some ([], used)
  | (i, ks) :: r =>
      let b := nthN bs i [] in
      let fb := show_filter q m b in
      let f := pick fb ks in
      let dropped := lenN b - lenN fb in
      if negb (memN i used) && (i <? lenN bs) && keys_ok fb ks && nonempty f
         && (if lenN b <=? n then lenN f =? lenN fb
             else (n - dropped <=? lenN f) && (lenN f <=? N.min n (lenN fb)))
      then match delta_cut q m n bs r (i :: used) with
           | Some (fs, u) => Some (f :: fs, u)
           | None => None
           end
      else None
  end.

Definition delta_lower (q : query) (m : mark) (n : N) (b : list event) : N :=
  let fb := show_filter q m b in
  if lenN b <=? n then lenN fb else n - (lenN b - lenN fb).

(** which mark the next SHOW uses (read from the Rust text): the guard timestamp and the watermark filter come from
    the store's manifest ([mat_delta_mark_from_store]: refresher.rs [sink.high_water_mark()]), the SINCE of the delta
    query from the catalog entry ([mat_delta_since_from_catalog]: orchestrator.rs [delta_command(entry.high_water_mark)]) *)
Definition filter_mark (fs : list (list event)) (cat : mark) : mark :=
  if mat_delta_mark_from_store then frames_mark fs else cat.
Definition since_mark (fs : list (list event)) (cat : mark) : mark :=
  if mat_delta_since_from_catalog then cat else frames_mark fs.

Definition delta_batches (q : query) (fs : list (list event)) (cat : mark) (l : layout) : list (list event) :=
  sources (Some (fst (filter_mark fs cat))) (delta_query q (since_mark fs cat)) l.

Definition show_frames (q : query) (fs : list (list event)) (cat : mark) (l : layout) (ch : choice)
  : option (list (list event)) :=
  let m := filter_mark fs cat in
  let bs := delta_batches q fs cat l in
  match q_limit q with
  | None => let fbs := map (show_filter q m) bs in
            let ord := map fst ch in
            if valid_order fbs ord then Some (frames_of fbs ord) else None
  | Some n =>
      match delta_cut q m n bs ch [] with
      | Some (nf, used) =>
          if forallb (fun j => (delta_lower q m n (nthN bs j []) =? 0) || memN j used) (seqN (length bs))
          then Some nf else None
      | None => None
      end
  end.

(** An interrupted SHOW (the response writer failed, the delta task was aborted): the batches named by the
    choice — any duplicate-free selection of the non-empty filtered delta batches, in arrival order — were
    appended; [rest] are the ones that were not. *)
Definition valid_prefix (fbs : list (list event)) (ord : list N) : bool :=
  nodupN ord && forallb (fun i => (i <? lenN fbs) && nonempty (nthN fbs i [])) ord.
Definition rest_of (fbs : list (list event)) (ord : list N) : list (list event) :=
  flat_map (fun j => if memN j ord then [] else let b := nthN fbs j [] in if nonempty b then [b] else [])
           (seqN (length fbs)).
Definition show_fail_frames (q : query) (fs : list (list event)) (cat : mark) (l : layout) (ch : choice)
  : option (list (list event) * list (list event)) :=
  let m := filter_mark fs cat in
  let bs := delta_batches q fs cat l in
  match q_limit q with
  | None => let fbs := map (show_filter q m) bs in
            let ord := map fst ch in
            if valid_prefix fbs ord then Some (frames_of fbs ord, rest_of fbs ord) else None
  | Some n =>
      match delta_cut q m n bs ch [] with
      | Some (nf, _) => Some (nf, [])
      | None => None
      end
  end.

(** orchestrator.rs build_outcome: the catalog mark after a completed SHOW *)
Definition mark_eqb (a b : mark) : bool := (fst a =? fst b) && (snd a =? snd b).
Definition cat_after (cat m0 m' : mark) : mark :=
  if mark_zero m' then cat else if mark_eqb m' m0 then cat else m'.

(** the response writer's id filter when the watermark filter is disabled *)
Fixpoint dedup_seen (seen : list N) (l : list event) : list event :=
  match l with
  | [] => []
  | e :: r => if memN (e_id e) seen then dedup_seen seen r else e :: dedup_seen (e_id e :: seen) r
  end.

Definition apply_limit (q : query) (l : list event) : list event :=
  match q_limit q with
  | Some n => if mat_show_applies_limit then firstn (N.to_nat n) l else l
  | None => l
  end.
Definition show_output (q : query) (old new : list (list event)) : list event :=
  apply_limit q
    (if wm_enabled q then concat old ++ concat new
     else concat old ++ dedup_seen (map e_id (concat old)) (concat new)).

(** ** The catalog and the step function *)

(** [n_frames]: the store's manifest; [n_cat]: the catalog entry's high_water_mark ((0,0) = None) *)
Record entry := mkEntry { n_q : query; n_frames : list (list event); n_cat : mark }.
Record state := mkState { st_layout : layout; st_entries : list (N * entry) }.

Fixpoint lookup (name : N) (es : list (N * entry)) : option entry :=
  match es with
  | [] => None
  | (n, e) :: r => if n =? name then Some e else lookup name r
  end.
Fixpoint update (name : N) (e : entry) (es : list (N * entry)) : list (N * entry) :=
  match es with
  | [] => []
  | (n, e0) :: r => if n =? name then (n, e) :: r else (n, e0) :: update name e r
  end.

Inductive op :=
| OSetLayout (l : layout)                          (* STORE / FLUSH / compaction / restart: the new quiescent layout *)
| ORemember (name : N) (q : query) (ch : choice)
| OShow (name : N) (ch : choice)
| OShowFail (name : N) (ch : choice).               (* SHOW whose delivery failed: frames of [ch] appended, catalog untouched *)

Inductive obs :=
| ObsLayout
| ObsRemembered (frames : list (list event)) (m : mark)
| ObsRejected                                      (* "Materialization '…' already exists" *)
| ObsShow (out : list event) (new_frames : list (list event)) (m : mark) (cat : mark)
| ObsShowFailed (appended : list (list event)) (m : mark) (cat : mark)
| ObsUnknown                                       (* "Materialization '…' not found" *)
| ObsBadChoice.                                    (* the given arrival order is not one the model admits *)

Definition step (st : state) (o : op) : state * obs :=
  match o with
  | OSetLayout l => (mkState l (st_entries st), ObsLayout)
  | ORemember name q ch =>
      match lookup name (st_entries st) with
      | Some _ => (st, ObsRejected)
      | None =>
          match remember_frames q (st_layout st) ch with
          | None => (st, ObsBadChoice)
          | Some fs => (mkState (st_layout st) (st_entries st ++ [(name, mkEntry q fs (frames_mark fs))]),
                        ObsRemembered fs (frames_mark fs))
          end
      end
  | OShow name ch =>
      match lookup name (st_entries st) with
      | None => (st, ObsUnknown)
      | Some en =>
          match show_frames (n_q en) (n_frames en) (n_cat en) (st_layout st) ch with
          | None => (st, ObsBadChoice)
          | Some nf =>
              let fs' := n_frames en ++ nf in
              let cat' := cat_after (n_cat en) (frames_mark (n_frames en)) (frames_mark fs') in
              (mkState (st_layout st) (update name (mkEntry (n_q en) fs' cat') (st_entries st)),
               ObsShow (show_output (n_q en) (n_frames en) nf) nf (frames_mark fs') cat')
          end
      end
  | OShowFail name ch =>
      match lookup name (st_entries st) with
      | None => (st, ObsUnknown)
      | Some en =>
          match show_fail_frames (n_q en) (n_frames en) (n_cat en) (st_layout st) ch with
          | None => (st, ObsBadChoice)
          | Some (ap, _) =>
              let fs' := n_frames en ++ ap in
              (* the catalog entry is rewritten after the response ([mat_catalog_after_response]): not at all here *)
              let cat' := if mat_catalog_after_response then n_cat en
                          else cat_after (n_cat en) (frames_mark (n_frames en)) (frames_mark fs') in
              (mkState (st_layout st) (update name (mkEntry (n_q en) fs' cat') (st_entries st)),
               ObsShowFailed ap (frames_mark fs') cat')
          end
      end
  end.

Definition init : state := mkState [] [].

Fixpoint run (st : state) (ops : list op) : list obs :=
  match ops with
  | [] => []
  | o :: r => let (st', ob) := step st o in ob :: run st' r
  end.

(** ** The live query *)

Definition sel (q : query) (l : layout) : list event := filter (matches q) (content l).

(** ** Decidable descriptions of the failing situations (the known-finding classes) *)

Definition event_eqb (a b : event) : bool :=
  (e_k a =? e_k b) && (e_ts a =? e_ts b) && (e_pt a =? e_pt b) && (e_id a =? e_id b)
  && (e_ctx a =? e_ctx b) && (e_v a =? e_v b) && (e_type a =? e_type b).
Definition in_events (e : event) (l : list event) : bool := existsb (event_eqb e) l.

(** [false]: the frames appended by one REMEMBER / SHOW do not end with the frame carrying the largest row
    and the mark regresses below rows that are already stored (never, when the mark is the maximum) *)
Definition last_dominates (fs : list (list event)) : bool :=
  forallb (fun e => mle (ekey e) (frames_mark fs)) (concat fs).

(** an event that was not there before, matches a remembered query and is not above its mark
    (frozen / backward clock, same millisecond on a lower-numbered shard) *)
Definition late_for (en : entry) (old new : list event) : bool :=
  existsb (fun e => negb (in_events e old) && matches (n_q en) e && mle (ekey e) (frames_mark (n_frames en))) new.
Definition some_late (st : state) (l : layout) : bool :=
  existsb (fun ne => late_for (snd ne) (content (st_layout st)) (content l)) (st_entries st).

(** the same event visible in two places: a read issued inside a flush window (passive memtable + published
    segment), or an event replayed from a WAL file that outlived its segment at a restart *)
Definition dup_content (l : layout) : bool :=
  negb (nodupN (map e_k (content l))) || negb (nodupN (map e_id (content l))).

(** a segment whose .zones file is more than a second older than an event it holds
    (event stamped ahead of the file-system clock) *)
Definition seg_time_bad (g : segment) : bool :=
  existsb (fun e => g_mtime g + mat_stale_slack <? e_ts e) (seg_events g).
Definition mtime_bad (l : layout) : bool :=
  existsb (fun s => existsb seg_time_bad (s_segs s)) l.

Definition zero_id (l : layout) : bool := existsb (fun e => e_id e =? 0) (content l).

(** events are only added (C01/C03/C05 are the properties about that) *)
Definition keeps_events (st : state) (l : layout) : bool :=
  forallb (fun e => in_events e (content l)) (content (st_layout st)).

Inductive known_class :=
| PayloadTimeField | LimitNotReapplied | MarkOfLastFrame | EventNotAboveMark | RawStreamDuplicates | SegmentOlderThanEvent
| InterruptedRefresh.

(** an interrupted SHOW appended some delta batches and left out one holding a row that is not above the mark of
    the appended frames: that row is below the store's mark and is never delivered *)
Definition strands (ap rest : list (list event)) : bool :=
  nonempty ap && existsb (fun e => mle (ekey e) (frames_mark ap)) (concat rest).

(** classes an operation falls into, in the state it is applied to *)
Definition classes_of (st : state) (o : op) : list known_class :=
  match o with
  | OSetLayout l =>
      (if dup_content l then [RawStreamDuplicates] else [])
      ++ (if mtime_bad l then [SegmentOlderThanEvent] else [])
      ++ (if some_late st l then [EventNotAboveMark] else [])
  | ORemember name q ch =>
      match lookup name (st_entries st) with
      | Some _ => []
      | None =>
        (match q_tf q with TPayload => [PayloadTimeField] | TCore => [] end)
        ++ (match q_limit q with Some _ => [LimitNotReapplied] | None => [] end)
        ++ (match remember_frames q (st_layout st) ch with
            | Some fs => if last_dominates fs then [] else [MarkOfLastFrame]
            | None => [] end)
      end
  | OShow name ch =>
      match lookup name (st_entries st) with
      | None => []
      | Some en =>
          match show_frames (n_q en) (n_frames en) (n_cat en) (st_layout st) ch with
          | Some nf => if nonempty nf && negb (last_dominates nf) then [MarkOfLastFrame] else []
          | None => []
          end
      end
  | OShowFail name ch =>
      match lookup name (st_entries st) with
      | None => []
      | Some en =>
          match show_fail_frames (n_q en) (n_frames en) (n_cat en) (st_layout st) ch with
          | Some (ap, rest) =>
              (if nonempty ap && negb (last_dominates ap) then [MarkOfLastFrame] else [])
              ++ (if strands ap rest then [InterruptedRefresh] else [])
          | None => []
          end
      end
  end.

(** ** HighWaterMark (high_water.rs), for the function-level probe *)
Definition hw_advance (m p : mark) : mark := if mlt m p then p else m.
Definition hw_satisfies (m p : mark) : bool := mlt m p.

(** marks reported by a sink after each append of a non-empty batch, and by a re-opened sink *)
Fixpoint sink_marks (acc fs : list (list event)) : list mark :=
  match fs with
  | [] => []
  | f :: r => match f with
              | [] => frames_mark acc :: sink_marks acc r          (* empty batch: append is a no-op *)
              | _ => frames_mark (acc ++ [f]) :: sink_marks (acc ++ [f]) r
              end
  end.
