(** Model of the command parser (src/command/parser/command.rs and the per-command
    parsers) — executable definitions only.

    The QUERY/FIND, REPLAY and STORE grammars are [peg] grammars; they are modelled as
    recursive descent over bytes with PEG semantics: ordered choice ([alt]), greedy
    possessive repetition ([many], [sep_list]), syntactic predicates, and semantic
    actions that run as soon as their sequence has matched.  A Rust [unwrap()] on a
    failed numeric conversion inside an action is the result [Panic site]: it aborts
    the whole parse, no alternative is tried.  The flag [fx] selects the *repaired*
    grammar (sneldb 57cd0c4: the conversions are fallible [{? }] actions), in which the same
    conversions fail the rule ([Err]) instead.  [OOF] (out of fuel) never occurs with the fuel
    the entry points supply (TotalityProofs.parse_command_fuel_enough).

    The peg crate does not memoise: the form [x:and_expr() _ ci('OR') _ y:or_expr() / and_expr()]
    (sneldb before 04c7300) parses [and_expr] twice when no OR follows.  Rules are deterministic
    functions of the position, so the model evaluates the common prefix once; the *result* is the
    same in both forms, the running time is not (exponential in the parenthesis depth in that form;
    Proofs/CostProofs.v counts the rule invocations of both, [Params.expr_grammar_reparses] says
    which one the Rust text is in). *)
From Coq Require Import NArith ZArith List Bool.
From Snel Require Import Base.Bytes Model.Tokenizer.
Import ListNotations.
Open Scope N_scope.

(** * Results *)

Inductive numsite := SiteLimit | SiteOffset | SiteInt | SiteFloat.

Inductive res (A : Type) :=
| Ok (a : A)
| Err                      (* the rule does not match here *)
| Panic (site : numsite)   (* an [unwrap()] in a grammar action fails *)
| OOF.                     (* out of fuel: excluded by [TotalityProofs.parse_command_fuel_enough] *)
Arguments Ok {A} a.
Arguments Err {A}.
Arguments Panic {A} site.
Arguments OOF {A}.

Definition P (A : Type) := bytes -> res (A * bytes).

Definition ret {A} (a : A) : P A := fun s => Ok (a, s).
Definition bind {A B} (p : P A) (f : A -> P B) : P B :=
  fun s => match p s with
           | Ok (a, r) => f a r
           | Err => Err | Panic k => Panic k | OOF => OOF
           end.
(** ordered choice *)
Definition alt {A} (p q : P A) : P A :=
  fun s => match p s with Err => q s | x => x end.
(** [e?] *)
Definition opt {A} (p : P A) : P (option A) :=
  fun s => match p s with
           | Ok (a, r) => Ok (Some a, r)
           | Err => Ok (None, s)
           | Panic k => Panic k | OOF => OOF
           end.
(** a terminal that cannot panic *)
Definition lift {A} (t : bytes -> option (A * bytes)) : P A :=
  fun s => match t s with Some x => Ok x | None => Err end.
(** negative lookahead [!e] *)
Definition notp {A} (t : bytes -> option A) : P unit :=
  fun s => match t s with Some _ => Err | None => Ok (tt, s) end.

Notation "'let*' x ':=' c1 'in' c2" := (bind c1 (fun x => c2))
  (at level 61, x pattern, c1 at next level, right associativity).

(** [e*]: repeat until [p] fails. *)
Fixpoint many {A} (fuel : nat) (p : P A) (s : bytes) : res (list A * bytes) :=
  match fuel with
  | O => OOF
  | S f =>
      match p s with
      | Ok (a, r) =>
          match many f p r with
          | Ok (l, r') => Ok (a :: l, r')
          | Err => Err | Panic k => Panic k | OOF => OOF
          end
      | Err => Ok ([], s)
      | Panic k => Panic k
      | OOF => OOF
      end
  end.

(** [e ** sep] (zero or more) and [e ++ sep] (one or more): a separator that is not followed
    by an element is not consumed. *)
Definition sep_list {A} (p : P A) (sep : bytes -> option bytes) : P (list A) :=
  fun s => match p s with
           | Ok (a, r) =>
               match many (S (length r)) (fun s1 => match sep s1 with Some s2 => p s2 | None => Err end) r with
               | Ok (l, r') => Ok (a :: l, r')
               | Err => Err | Panic k => Panic k | OOF => OOF
               end
           | Err => Ok ([], s)
           | Panic k => Panic k
           | OOF => OOF
           end.
Definition sep_list1 {A} (p : P A) (sep : bytes -> option bytes) : P (list A) :=
  fun s => match sep_list p sep s with
           | Ok ([], _) => Err
           | x => x
           end.

(** * Terminals *)


(** [rule _()] *)
Definition ws (s : bytes) : bytes := drop_while is_tws s.

(** [rule ci(s)]: the maximal alphabetic run must equal the keyword ignoring ASCII case. *)
Definition ci (kw : bytes) (s : bytes) : option bytes :=
  let '(w, r) := span is_alpha s in
  match w with
  | [] => None
  | _ => if ci_eqb w kw then Some r else None
  end.
Definition kw (k : bytes) : P unit := fun s => match ci k s with Some r => Ok (tt, r) | None => Err end.

Definition lit (c : N) (s : bytes) : option bytes :=
  match s with x :: r => if x =? c then Some r else None | [] => None end.
Definition sym (c : N) : P unit := fun s => match lit c s with Some r => Ok (tt, r) | None => Err end.
Definition skip : P unit := fun s => Ok (tt, ws s).

Definition is_ident_start (c : N) : bool := is_alpha c || (c =? 95).
Definition is_ident_char (c : N) : bool := is_alpha c || is_digit c || (c =? 95) || (c =? 45).

(** the ident rule, with the set of continuation characters as a parameter
    (REPLAY's ident additionally accepts ':') *)
Definition ident_with (cont : N -> bool) (s : bytes) : option (bytes * bytes) :=
  match s with
  | c :: r => if is_ident_start c then let '(a, r') := span cont r in Some (c :: a, r') else None
  | [] => None
  end.
Definition ident := ident_with is_ident_char.

(** [rule field() = i:ident() '.' j:ident() / i:ident()] *)
Definition field (s : bytes) : option (bytes * bytes) :=
  match ident s with
  | Some (i, r) =>
      match r with
      | c :: r1 =>
          if c =? 46 then
            match ident r1 with
            | Some (j, r2) => Some (i ++ 46 :: j, r2)
            | None => Some (i, r)
            end
          else Some (i, r)
      | [] => Some (i, r)
      end
  | None => None
  end.

(** [rule string_literal() = DQ chars:$((!DQ [_])* ) DQ] (DQ = the double quote, byte 34) — no escapes. *)
Definition string_lit (s : bytes) : option (bytes * bytes) :=
  match s with
  | c :: r =>
      if c =? 34 then
        let '(a, r') := span (fun c => negb (c =? 34)) r in
        match r' with
        | q :: r'' => if q =? 34 then Some (a, r'') else None
        | [] => None
        end
      else None
  | [] => None
  end.

(** [rule integer() = $(('-')? ['0'..='9']+)]: sign flag and digit string. *)
Definition integer (s : bytes) : option ((bool * bytes) * bytes) :=
  let '(neg, r) := match s with
                   | c :: r => if c =? 45 then (true, r) else (false, s)
                   | [] => (false, s)
                   end in
  let '(d, r') := span is_digit r in
  match d with [] => None | _ => Some ((neg, d), r') end.

(** the text matched by [number]: integer part and optional fraction digits *)
Definition number_text (s : bytes) : option ((bool * bytes * option bytes) * bytes) :=
  match integer s with
  | Some ((neg, d), r) =>
      match r with
      | c :: r1 =>
          if c =? 46 then
            let '(fd, r2) := span is_digit r1 in
            match fd with
            | [] => Some ((neg, d, None), r)
            | _ => Some ((neg, d, Some fd), r2)
            end
          else Some ((neg, d, None), r)
      | [] => Some ((neg, d, None), r)
      end
  | None => None
  end.

Fixpoint digits_val (d : bytes) (acc : N) : N :=
  match d with
  | [] => acc
  | c :: r => digits_val r (acc * 10 + digit_val c)
  end.

(** * Numeric conversions inside grammar actions *)

Definition numfail {A} (fx : bool) (site : numsite) : res A := if fx then Err else Panic site.

(** [n.parse::<u32>().unwrap()]: an unsigned parse rejects a leading '-' (even '-0'). *)
Definition conv_u32 (fx : bool) (site : numsite) (neg : bool) (d : bytes) : res N :=
  if neg then numfail fx site
  else let v := digits_val d 0 in
       if v <? 4294967296 then Ok v else numfail fx site.

(** [n.parse::<i64>().unwrap()] *)
Definition conv_i64 (fx : bool) (neg : bool) (d : bytes) : res Z :=
  let v := Z.of_N (digits_val d 0) in
  let z := if neg then (- v)%Z else v in
  if ((- 9223372036854775808 <=? z) && (z <=? 9223372036854775807))%Z then Ok z else numfail fx SiteInt.

(** [Number::from_f64(n.parse::<f64>().unwrap()).unwrap()]: the decimal parse always succeeds
    for this syntax; [from_f64] is [None] exactly when the correctly rounded value is infinite,
    i.e. when the decimal is >= 2^1024 - 2^970 (half an ulp above the largest double). *)
Definition f64_overflow_threshold : N := 2 ^ 1024 - 2 ^ 970.
Definition float_overflows (d fd : bytes) : bool :=
  f64_overflow_threshold * 10 ^ (N.of_nat (length fd)) <=? digits_val (d ++ fd) 0.

(** * AST *)

Inductive jval :=
| VStr (s : bytes)
| VInt (z : Z)
| VFloat (neg : bool) (d fd : bytes)   (* decimal literal text; the f64 is computed outside the model *)
| VBool (v : bool).

Inductive cmpop := OpEq | OpNeq | OpGt | OpGte | OpLt | OpLte.

Inductive expr :=
| ECmp (f : bytes) (op : cmpop) (v : jval)
| EIn (f : bytes) (vs : list jval)
| EAnd (x y : expr)
| EOr (x y : expr)
| ENot (x : expr).

Inductive agg :=
| ACount (uniq : option bytes)
| ACountField (f : bytes)
| ATotal (f : bytes) | AAvg (f : bytes) | AMin (f : bytes) | AMax (f : bytes).

Inductive gran := GHour | GDay | GWeek | GMonth | GYear.
Inductive seqlink := FollowedBy | PrecededBy.

Inductive clause :=
| ClFor (s : bytes) | ClSince (s : bytes) | ClReturn (l : list bytes) | ClLink (s : bytes)
| ClWhere (e : expr) | ClUsing (f : bytes) | ClUsingTime (f : bytes) | ClAggs (l : list agg)
| ClTime (g : gran) (u : option bytes) | ClGroup (l : list bytes) (u : option bytes)
| ClLimit (n : N) | ClOffset (n : N) | ClOrder (f : bytes) (desc : bool).

Record query := mkQuery {
  q_event : bytes;
  q_ctx : option bytes;
  q_since : option bytes;
  q_time_field : option bytes;
  q_seq_time_field : option bytes;
  q_where : option expr;
  q_limit : option N;
  q_offset : option N;
  q_order : option (bytes * bool);
  q_return : option (list bytes);
  q_link : option bytes;
  q_aggs : option (list agg);
  q_bucket : option gran;
  q_group : option (list bytes);
  q_seq : list (seqlink * bytes)        (* links after the head; [] = no sequence *)
}.

(** * Keywords *)

Definition K_QUERY : bytes := [81; 85; 69; 82; 89]. (* QUERY *)
Definition K_FIND : bytes := [70; 73; 78; 68]. (* FIND *)
Definition K_FOLLOWED : bytes := [70; 79; 76; 76; 79; 87; 69; 68]. (* FOLLOWED *)
Definition K_PRECEDED : bytes := [80; 82; 69; 67; 69; 68; 69; 68]. (* PRECEDED *)
Definition K_BY : bytes := [66; 89]. (* BY *)
Definition K_PER : bytes := [80; 69; 82]. (* PER *)
Definition K_USING : bytes := [85; 83; 73; 78; 71]. (* USING *)
Definition K_SINCE : bytes := [83; 73; 78; 67; 69]. (* SINCE *)
Definition K_LIMIT : bytes := [76; 73; 77; 73; 84]. (* LIMIT *)
Definition K_OFFSET : bytes := [79; 70; 70; 83; 69; 84]. (* OFFSET *)
Definition K_ORDER : bytes := [79; 82; 68; 69; 82]. (* ORDER *)
Definition K_RETURN : bytes := [82; 69; 84; 85; 82; 78]. (* RETURN *)
Definition K_LINKED : bytes := [76; 73; 78; 75; 69; 68]. (* LINKED *)
Definition K_WHERE : bytes := [87; 72; 69; 82; 69]. (* WHERE *)
Definition K_FOR : bytes := [70; 79; 82]. (* FOR *)
Definition K_TIME : bytes := [84; 73; 77; 69]. (* TIME *)
Definition K_COUNT : bytes := [67; 79; 85; 78; 84]. (* COUNT *)
Definition K_UNIQUE : bytes := [85; 78; 73; 81; 85; 69]. (* UNIQUE *)
Definition K_TOTAL : bytes := [84; 79; 84; 65; 76]. (* TOTAL *)
Definition K_AVG : bytes := [65; 86; 71]. (* AVG *)
Definition K_MIN : bytes := [77; 73; 78]. (* MIN *)
Definition K_MAX : bytes := [77; 65; 88]. (* MAX *)
Definition K_HOUR : bytes := [72; 79; 85; 82]. (* HOUR *)
Definition K_DAY : bytes := [68; 65; 89]. (* DAY *)
Definition K_WEEK : bytes := [87; 69; 69; 75]. (* WEEK *)
Definition K_MONTH : bytes := [77; 79; 78; 84; 72]. (* MONTH *)
Definition K_YEAR : bytes := [89; 69; 65; 82]. (* YEAR *)
Definition K_ASC : bytes := [65; 83; 67]. (* ASC *)
Definition K_DESC : bytes := [68; 69; 83; 67]. (* DESC *)
Definition K_OR : bytes := [79; 82]. (* OR *)
Definition K_AND : bytes := [65; 78; 68]. (* AND *)
Definition K_NOT : bytes := [78; 79; 84]. (* NOT *)
Definition K_IN : bytes := [73; 78]. (* IN *)

(** * The expression grammar (query.rs, plotql.rs: expr / or_expr / and_expr / factor), generic in its leaves

    [expr = or_expr], [or_expr = x:and_expr() y:( _ ci('OR') _ y:or_expr() )?] (or the re-parsing form
    with the same result), [and_expr] likewise over [factor],
    [factor = ci('NOT') _ factor / '(' _ expr _ ')' / <leaves>].  query.rs and plotql.rs each carry a
    copy of these rules over their own leaves ([lf]). *)
Section ExprG.
Variable lf : P expr.

Fixpoint or_expr_g (fuel : nat) (s : bytes) {struct fuel} : res (expr * bytes) :=
  match fuel with
  | O => OOF
  | S f =>
      (* x:and_expr() y:( _ ci('OR') _ y:or_expr() {y} )?; the re-parsing form
         x:and_expr() _ ci('OR') _ y:or_expr() / and_expr() has the same result *)
      match and_expr_g f s with
      | Ok (x, r) =>
          match ci K_OR (ws r) with
          | Some r1 =>
              match or_expr_g f (ws r1) with
              | Ok (y, r2) => Ok (EOr x y, r2)
              | Err => Ok (x, r)
              | Panic k => Panic k
              | OOF => OOF
              end
          | None => Ok (x, r)
          end
      | other => other
      end
  end
with and_expr_g (fuel : nat) (s : bytes) {struct fuel} : res (expr * bytes) :=
  match fuel with
  | O => OOF
  | S f =>
      (* x:factor() y:( _ ci('AND') _ y:and_expr() {y} )?; likewise x:factor() _ ci('AND') _ y:and_expr() / factor() *)
      match factor_g f s with
      | Ok (x, r) =>
          match ci K_AND (ws r) with
          | Some r1 =>
              match and_expr_g f (ws r1) with
              | Ok (y, r2) => Ok (EAnd x y, r2)
              | Err => Ok (x, r)
              | Panic k => Panic k
              | OOF => OOF
              end
          | None => Ok (x, r)
          end
      | other => other
      end
  end
with factor_g (fuel : nat) (s : bytes) {struct fuel} : res (expr * bytes) :=
  match fuel with
  | O => OOF
  | S f =>
      (* ci('NOT') _ x:factor() / '(' _ e:expr() _ ')' / comparison() / in_expr() / atom() *)
      let rest_alts (_ : unit) :=
        match (match lit 40 s with
               | Some r1 =>
                   match or_expr_g f (ws r1) with
                   | Ok (e, r2) =>
                       match lit 41 (ws r2) with
                       | Some r3 => Ok (e, r3)
                       | None => Err
                       end
                   | other => other
                   end
               | None => Err
               end) with
        | Err => lf s
        | other => other
        end in
      match ci K_NOT s with
      | Some r1 =>
          match factor_g f (ws r1) with
          | Ok (x, r2) => Ok (ENot x, r2)
          | Err => rest_alts tt
          | Panic k => Panic k
          | OOF => OOF
          end
      | None => rest_alts tt
      end
  end.

End ExprG.

Section Grammar.
Variable fx : bool.   (* false: numeric conversions [unwrap()]; true: they fail the rule (sneldb since 57cd0c4) *)

(** [rule number()] *)
Definition number : P jval :=
  fun s => match number_text s with
           | Some ((neg, d, None), r) =>
               match conv_i64 fx neg d with
               | Ok z => Ok (VInt z, r)
               | Err => Err | Panic k => Panic k | OOF => OOF
               end
           | Some ((neg, d, Some fd), r) =>
               if float_overflows d fd then numfail fx SiteFloat else Ok (VFloat neg d fd, r)
           | None => Err
           end.

(** [rule value() = string_literal / number / ident] *)
Definition value : P jval :=
  alt (fun s => match string_lit s with Some (a, r) => Ok (VStr a, r) | None => Err end)
      (alt number
           (fun s => match ident s with Some (a, r) => Ok (VStr a, r) | None => Err end)).

(** [rule cmp_op()] — ordered: '!=' '>=' '<=' '=' '>' '<' *)
Definition cmp_op1 (c : N) (r : bytes) : option (cmpop * bytes) :=
  if c =? 61 then Some (OpEq, r) else if c =? 62 then Some (OpGt, r) else if c =? 60 then Some (OpLt, r) else None.
Definition cmp_op (s : bytes) : option (cmpop * bytes) :=
  match s with
  | c :: r =>
      match r with
      | d :: r' =>
          if (c =? 33) && (d =? 61) then Some (OpNeq, r')
          else if (c =? 62) && (d =? 61) then Some (OpGte, r')
          else if (c =? 60) && (d =? 61) then Some (OpLte, r')
          else cmp_op1 c r
      | [] => cmp_op1 c r
      end
  | [] => None
  end.

(** the separator [_ ',' _] *)
Definition comma_sep (s : bytes) : option bytes :=
  match lit 44 (ws s) with Some r => Some (ws r) | None => None end.

(** [rule comparison() = f:field() _ op:cmp_op() _ v:value()] *)
Definition comparison : P expr :=
  let* f := lift field in
  let* _ := skip in
  let* op := lift cmp_op in
  let* _ := skip in
  let* v := value in
  ret (ECmp f op v).

(** [rule in_expr() = f:field() _ ci('IN') _ '(' _ values:(value() ** (_ ',' _)) _ ')'] *)
Definition in_expr : P expr :=
  let* f := lift field in
  let* _ := skip in
  let* _ := kw K_IN in
  let* _ := skip in
  let* _ := sym 40 in
  let* _ := skip in
  let* vs := sep_list value comma_sep in
  let* _ := skip in
  let* _ := sym 41 in
  ret (EIn f vs).

(** [rule atom() = f:field()] : a bare field means [field = true] *)
Definition atom : P expr :=
  let* f := lift field in ret (ECmp f OpEq (VBool true)).

Definition leaf : P expr := alt comparison (alt in_expr atom).

(** the three rule levels over this grammar's leaves (generic part: [or_expr_g] above the section) *)
Definition or_expr := or_expr_g leaf.
Definition and_expr := and_expr_g leaf.
Definition factor := factor_g leaf.

(** fuel that always suffices: three rule levels per consumed byte *)
Definition expr_fuel (s : bytes) : nat := 3 * length s + 3.
Definition parse_expr_at : P expr := fun s => or_expr (expr_fuel s) s.

(** * Clauses (query.rs: clause and its alternatives) *)

Definition fieldp : P bytes := lift field.
Definition identp : P bytes := lift ident.
Definition strp : P bytes := lift string_lit.

Definition for_clause : P clause :=
  let* _ := kw K_FOR in let* _ := skip in
  let* id := alt identp strp in ret (ClFor id).

Definition since_clause : P clause :=
  let* _ := kw K_SINCE in let* _ := skip in
  let* ts := strp in ret (ClSince ts).

Definition return_item : P bytes := alt fieldp strp.

Definition return_clause : P clause :=
  let* _ := kw K_RETURN in let* _ := skip in
  let* _ := sym 91 in let* _ := skip in
  let* fields := sep_list return_item comma_sep in
  let* _ := skip in
  let* _ := sym 93 in
  ret (ClReturn fields).

Definition linked_clause : P clause :=
  let* _ := kw K_LINKED in let* _ := skip in
  let* _ := kw K_BY in let* _ := skip in
  let* id := identp in ret (ClLink id).

Definition where_clause : P clause :=
  let* _ := kw K_WHERE in let* _ := skip in
  let* e := parse_expr_at in ret (ClWhere e).

Definition using_time_clause : P clause :=
  let* _ := kw K_USING in let* _ := skip in
  let* _ := kw K_TIME in let* _ := skip in
  let* f := fieldp in ret (ClUsingTime f).

Definition using_clause : P clause :=
  let* _ := kw K_USING in let* _ := skip in
  let* f := fieldp in ret (ClUsing f).

(** [rule clause_start()] (used only under [!]) *)
Definition clause_start (s : bytes) : option unit :=
  let is k := match ci k s with Some _ => true | None => false end in
  if is K_PER || is K_BY || is K_USING || is K_SINCE || is K_LIMIT || is K_OFFSET
     || (match ci K_ORDER s with Some r => match ci K_BY (ws r) with Some _ => true | None => false end | None => false end)
     || is K_RETURN || is K_LINKED || is K_WHERE || is K_FOR || is K_FOLLOWED || is K_PRECEDED
  then Some tt else None.

(** [KW _ !(clause_start()) fld:field()] *)
Definition agg_field (k : bytes) (mk : bytes -> agg) : P agg :=
  let* _ := kw k in let* _ := skip in
  let* _ := notp clause_start in
  let* f := fieldp in ret (mk f).

Definition agg_spec : P agg :=
  alt (let* _ := kw K_COUNT in let* _ := skip in
       let* _ := kw K_UNIQUE in let* _ := skip in
       let* _ := notp clause_start in
       let* f := fieldp in ret (ACount (Some f)))
 (alt (agg_field K_COUNT ACountField)
 (alt (let* _ := kw K_COUNT in ret (ACount None))
 (alt (agg_field K_TOTAL ATotal)
 (alt (agg_field K_AVG AAvg)
 (alt (agg_field K_MIN AMin)
      (agg_field K_MAX AMax)))))).

Definition agg_clause : P clause :=
  let* specs := sep_list1 agg_spec comma_sep in
  ret (ClAggs specs).

Definition granularity : P gran :=
  alt (let* _ := kw K_HOUR in ret GHour)
 (alt (let* _ := kw K_DAY in ret GDay)
 (alt (let* _ := kw K_WEEK in ret GWeek)
 (alt (let* _ := kw K_MONTH in ret GMonth)
      (let* _ := kw K_YEAR in ret GYear)))).

(** [(ci('USING') _ f:field() { f })?] *)
Definition opt_using : P (option bytes) :=
  opt (let* _ := kw K_USING in let* _ := skip in fieldp).

Definition time_clause : P clause :=
  let* _ := kw K_PER in let* _ := skip in
  let* tg := granularity in
  let* _ := skip in
  let* u := opt_using in
  ret (ClTime tg u).

(** [ci('BY') _ first:field() rest:( _ ',' _ f:field() )* using:(...)?] *)
Definition group_clause : P clause :=
  let* _ := kw K_BY in let* _ := skip in
  let* first := fieldp in
  let* rest := (fun s => many (S (length s))
                              (fun s1 => match comma_sep s1 with Some s2 => fieldp s2 | None => Err end) s) in
  let* u := opt_using in
  ret (ClGroup (first :: rest) u).

Definition intp : P (bool * bytes) := lift integer.

(** the action of limit_clause / offset_clause: [n.parse::<u32>().unwrap()] *)
Definition conv_clause (site : numsite) (mk : N -> clause) (n : bool * bytes) : P clause :=
  fun s => match conv_u32 fx site (fst n) (snd n) with
           | Ok v => Ok (mk v, s)
           | Err => Err | Panic k => Panic k | OOF => OOF
           end.

Definition limit_clause : P clause :=
  let* _ := kw K_LIMIT in let* _ := skip in
  let* n := intp in conv_clause SiteLimit ClLimit n.

Definition offset_clause : P clause :=
  let* _ := kw K_OFFSET in let* _ := skip in
  let* n := intp in conv_clause SiteOffset ClOffset n.

(** [ci('ORDER') _ ci('BY') _ f:field() _ d:$(ci('ASC') / ci('DESC'))?] *)
Definition order_clause : P clause :=
  let* _ := kw K_ORDER in let* _ := skip in
  let* _ := kw K_BY in let* _ := skip in
  let* f := fieldp in
  let* _ := skip in
  let* d := opt (alt (let* _ := kw K_ASC in ret false) (let* _ := kw K_DESC in ret true)) in
  ret (ClOrder f (match d with Some dd => dd | None => false end)).

Definition clause_p : P clause :=
  alt for_clause (alt since_clause (alt return_clause (alt linked_clause (alt where_clause
 (alt using_time_clause (alt using_clause (alt agg_clause (alt time_clause (alt group_clause
 (alt limit_clause (alt offset_clause order_clause))))))))))).

(** [QueryParts::apply_clause]: the last clause of a kind wins; PER/BY with USING also set the time field. *)
Definition empty_query (ev : bytes) (links : list (seqlink * bytes)) : query :=
  mkQuery ev None None None None None None None None None None None None None links.

Definition apply_clause (q : query) (c : clause) : query :=
  let 'mkQuery ev ctx since tf stf wh lim off ord retf link aggs tb gb sq := q in
  match c with
  | ClFor v => mkQuery ev (Some v) since tf stf wh lim off ord retf link aggs tb gb sq
  | ClSince v => mkQuery ev ctx (Some v) tf stf wh lim off ord retf link aggs tb gb sq
  | ClReturn v => mkQuery ev ctx since tf stf wh lim off ord (Some v) link aggs tb gb sq
  | ClLink v => mkQuery ev ctx since tf stf wh lim off ord retf (Some v) aggs tb gb sq
  | ClWhere e => mkQuery ev ctx since tf stf (Some e) lim off ord retf link aggs tb gb sq
  | ClUsing f => mkQuery ev ctx since (Some f) stf wh lim off ord retf link aggs tb gb sq
  | ClUsingTime f => mkQuery ev ctx since tf (Some f) wh lim off ord retf link aggs tb gb sq
  | ClAggs a => mkQuery ev ctx since tf stf wh lim off ord retf link (Some a) tb gb sq
  | ClTime g u =>
      mkQuery ev ctx since (match u with Some f => Some f | None => tf end) stf wh lim off ord retf link aggs (Some g) gb sq
  | ClGroup g u =>
      mkQuery ev ctx since (match u with Some f => Some f | None => tf end) stf wh lim off ord retf link aggs tb (Some g) sq
  | ClLimit n => mkQuery ev ctx since tf stf wh (Some n) off ord retf link aggs tb gb sq
  | ClOffset n => mkQuery ev ctx since tf stf wh lim (Some n) ord retf link aggs tb gb sq
  | ClOrder f d => mkQuery ev ctx since tf stf wh lim off (Some (f, d)) retf link aggs tb gb sq
  end.

(** [rule seq_link()] *)
Definition seq_link : P seqlink :=
  alt (let* _ := kw K_FOLLOWED in let* _ := skip in let* _ := kw K_BY in ret FollowedBy)
      (let* _ := kw K_PRECEDED in let* _ := skip in let* _ := kw K_BY in ret PrecededBy).

(** [rule event_sequence() = head:ident() tail:( _ l:seq_link() _ t:ident() )*] *)
Definition event_sequence : P (bytes * list (seqlink * bytes)) :=
  let* head := identp in
  let* tail := (fun s => many (S (length s))
                              (let* _ := skip in let* l := seq_link in let* _ := skip in
                               let* t := identp in ret (l, t)) s) in
  ret (head, tail).

Definition eof : P unit := fun s => match s with [] => Ok (tt, []) | _ => Err end.

(** [pub rule query() = _ query_kw() _ head:event_sequence() _ clauses:( _ c:clause() )* _] then end of input *)
Definition query_rule : P query :=
  let* _ := skip in
  let* _ := alt (kw K_QUERY) (kw K_FIND) in
  let* _ := skip in
  let* hd := event_sequence in
  let* _ := skip in
  let* clauses := (fun s => many (S (length s)) (let* _ := skip in clause_p) s) in
  let* _ := skip in
  let* _ := eof in
  ret (fold_left apply_clause clauses (empty_query (fst hd) (snd hd))).

Definition parse_query (s : bytes) : res query :=
  match query_rule s with
  | Ok (q, _) => Ok q
  | Err => Err | Panic k => Panic k | OOF => OOF
  end.

End Grammar.

(** the WHERE grammar on a whole string (used by the round-trip theorems) *)
Definition parse_expr (fx : bool) (s : bytes) : res expr :=
  match parse_expr_at fx s with
  | Ok (e, []) => Ok e
  | Ok (_, _ :: _) => Err
  | Err => Err | Panic k => Panic k | OOF => OOF
  end.
