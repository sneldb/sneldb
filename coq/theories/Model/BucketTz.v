(** PER buckets under a configured time zone with a FIXED UTC offset (no DST):
    [CalendarTimeBucketer::bucket_of] converts the instant to local wall-clock time,
    truncates there and converts back. Zones with daylight saving: Model/BucketZone.v. *)
From Coq Require Import ZArith.
From Snel Require Import Base.Civil Model.Bucket.
Open Scope Z_scope.

Definition calendar_bucket_secs_off (week_start off secs : Z) (g : gran) : Z :=
  calendar_bucket_secs week_start (secs + off) g - off.

Definition calendar_next_secs_off (week_start off secs : Z) (g : gran) : Z :=
  calendar_next_secs week_start (secs + off) g - off.
