(** Model of the response encodings of sneldb — executable definitions only.

    Rust sources:
      src/command/handlers/query/streaming/response_writer.rs  (QueryResponseWriter)
      src/command/handlers/show/streaming/response_writer.rs   (ShowResponseWriter)
      src/shared/response/{render,json,unix,arrow,types}.rs    (renderers, ArrowStreamEncoder)
      src/engine/core/read/flow/batch.rs                       (ColumnBatch::to_record_batch)
      src/engine/types/mod.rs                                  (ScalarValue::{to_json,to_string_repr,as_u64})
      src/frontend/http/dispatcher.rs                          (extract_http_status_from_response)

    What a client *decodes* from each encoding is modelled, not the bytes: a JSON/text stream is a
    list of frames whose cells are JSON values, an Arrow IPC stream is a schema and record batches
    whose cells are typed array slots.  Three library behaviours are inputs of the model rather than
    modelled (they are in the trusted base, DESIGN §4): whether serde_json reads a string as an
    object/array (and which one), the f64 Rust parses from a string, and the text Rust prints for
    an f64.  They travel with the value ([SUtf8 s doc fl], [SFloat bits disp]).

    The sets of runtime kinds each Arrow builder accepts are read from the Rust text by
    tools/params/p50_render.py ([render_w_*] for the whole-batch path in batch.rs, [render_r_*] for
    the row-index path in arrow.rs), as is the logical-type -> Arrow-type table of both files. *)
From Coq Require Import NArith ZArith List Bool.
From Snel Require Import Base.Bytes Gen.Params.
Import ListNotations.
Open Scope N_scope.

(** ** Values *)

(** [ScalarValue].  [SFloat bits disp]: [disp] is the text of [f64::to_string].
    [SUtf8 s doc fl]: [doc = Some c] iff [serde_json::from_str::<Value>(s)] is an object or an
    array, [c] its canonical compact text; [fl] is [s.parse::<f64>().ok()] as a bit pattern. *)
Inductive scalar :=
| SNull
| SBool (b : bool)
| SInt (z : Z)
| SFloat (bits : N) (disp : bytes)
| STs (z : Z)
| SUtf8 (s : bytes) (doc : option bytes) (fl : option N)
| SBin (b : bytes).

Definition i64_min : Z := (- 2 ^ 63)%Z.
Definition i64_max : Z := (2 ^ 63 - 1)%Z.
Definition u64_max : Z := (2 ^ 64 - 1)%Z.

(** standard base64 with padding ([BASE64_STANDARD.encode]) *)
Definition b64_char (i : N) : N :=
  if i <? 26 then 65 + i else if i <? 52 then 97 + (i - 26) else if i <? 62 then 48 + (i - 52)
  else if i =? 62 then 43 else 47.
Fixpoint base64 (b : bytes) : bytes :=
  match b with
  | [] => []
  | [x] => [b64_char (x / 4); b64_char ((x mod 4) * 16); 61; 61]
  | [x; y] => [b64_char (x / 4); b64_char ((x mod 4) * 16 + y / 16); b64_char ((y mod 16) * 4); 61]
  | x :: y :: z :: r =>
      b64_char (x / 4) :: b64_char ((x mod 4) * 16 + y / 16) :: b64_char ((y mod 16) * 4 + z / 64)
      :: b64_char (z mod 64) :: base64 r
  end.

(** finite f64 bit pattern: exponent field not all ones *)
Definition f64_finite (bits : N) : bool := negb (((bits / 2 ^ 52) mod 2 ^ 11) =? 2047).

(** *** Rust integer parsing ([str::parse::<i64>], [str::parse::<u64>]) *)

(** value of a non-empty all-digit string; [None] on any other byte or the empty string *)
Fixpoint digits_val_acc (s : bytes) (acc : N) : option N :=
  match s with
  | [] => Some acc
  | c :: r => if is_digit c then digits_val_acc r (acc * 10 + digit_val c) else None
  end.
Definition digits_val (s : bytes) : option N :=
  match s with [] => None | _ => digits_val_acc s 0 end.

(** [s.parse::<i64>().ok()]: optional '+' or '-', at least one digit, value in range *)
Definition parse_i64 (s : bytes) : option Z :=
  match s with
  | 45 :: r => match digits_val r with
               | Some n => if (Z.of_N n <=? 2 ^ 63)%Z then Some (- Z.of_N n)%Z else None
               | None => None end
  | 43 :: r => match digits_val r with
               | Some n => if (Z.of_N n <=? i64_max)%Z then Some (Z.of_N n) else None
               | None => None end
  | _ => match digits_val s with
         | Some n => if (Z.of_N n <=? i64_max)%Z then Some (Z.of_N n) else None
         | None => None end
  end.

(** [s.parse::<u64>().ok()]: optional '+', at least one digit, value below 2^64 *)
Definition parse_u64 (s : bytes) : option N :=
  let body := match s with 43 :: r => r | _ => s end in
  match digits_val body with
  | Some n => if n <? 2 ^ 64 then Some n else None
  | None => None
  end.

(** [ScalarValue::as_u64] (the event id the writers de-duplicate on) *)
Definition as_u64 (v : scalar) : option N :=
  match v with
  | SInt z => if (0 <=? z)%Z then Some (Z.to_N z) else None
  | STs z => if (0 <=? z)%Z then Some (Z.to_N z) else None
  | SUtf8 s _ _ => parse_u64 s
  | _ => None
  end.

(** *** The Utf8 re-parsing rule of [ScalarValue::to_json] *)

(** JSON whitespace *)
Definition is_json_ws (c : N) : bool := (c =? 32) || (c =? 9) || (c =? 10) || (c =? 13).

(** [s] is a JSON document that serde_json reads as an unsigned integer: optional whitespace,
    ["0"] or a digit run without leading zero, optional whitespace; value below 2^64 (larger
    ones become f64).  Returns the value. *)
Definition json_uint (s : bytes) : option N :=
  let t := rev (drop_while is_json_ws (rev (drop_while is_json_ws s))) in
  match t with
  | [] => None
  | 48 :: _ :: _ => None
  | _ => match digits_val t with
         | Some n => if n <? 2 ^ 64 then Some n else None
         | None => None
         end
  end.

(** the number branch: only a u64 above [i64::MAX] leaves the string form *)
Definition big_u64 (s : bytes) : option N :=
  match json_uint s with
  | Some n => if (render_json_big_threshold <? n) then Some n else None
  | None => None
  end.

(** ** Decoded cells *)

(** What a reader obtains for one cell.  [DDoc c]: a JSON array/object (canonical text [c]). *)
Inductive dcell :=
| DNull | DBool (b : bool) | DInt (z : Z) | DFloat (bits : N) | DStr (s : bytes) | DDoc (c : bytes).

(** [ScalarValue::to_json] as decoded from the frame by a JSON reader.  Non-finite floats have no
    JSON number ([Number::from_f64] is [None]) and become [null]. *)
Definition json_cell (v : scalar) : dcell :=
  match v with
  | SNull => DNull
  | SBool b => DBool b
  | SInt z => DInt z
  | SFloat bits _ => if f64_finite bits then DFloat bits else DNull
  | STs z => DInt z
  | SUtf8 s (Some c) _ => DDoc c
  | SUtf8 s None _ => match big_u64 s with Some n => DInt (Z.of_N n) | None => DStr s end
  | SBin b => DStr (base64 b)
  end.

(** the line-oriented text renderer (unix.rs) calls the same [to_json] on every cell *)
Definition text_cell (v : scalar) : dcell := json_cell v.

(** [ScalarValue::to_string_repr] *)
Definition true_s : bytes := [116; 114; 117; 101].
Definition false_s : bytes := [102; 97; 108; 115; 101].
Definition to_string_repr (v : scalar) : bytes :=
  match v with
  | SNull => []
  | SBool b => if b then true_s else false_s
  | SInt z => dec_of_Z z
  | SFloat _ disp => disp
  | STs z => dec_of_Z z
  | SUtf8 s _ _ => s
  | SBin b => base64 b
  end.

(** *** Arrow *)

Inductive atype := AInt64 | AFloat64 | ABool | ATsMs | ALargeUtf8.

Definition atype_of_code (c : N) : atype :=
  match c with 0 => AInt64 | 1 => AFloat64 | 2 => ABool | 3 => ATsMs | _ => ALargeUtf8 end.

Fixpoint is_prefix (p s : bytes) : bool :=
  match p, s with
  | [], _ => true
  | x :: p', y :: s' => (x =? y) && is_prefix p' s'
  | _ :: _, [] => false
  end.

Fixpoint lookup_exact (tbl : list (bytes * N)) (s : bytes) : option N :=
  match tbl with
  | [] => None
  | (k, c) :: r => if bytes_eqb k s then Some c else lookup_exact r s
  end.
Fixpoint lookup_prefix (tbl : list (bytes * N)) (s : bytes) : option N :=
  match tbl with
  | [] => None
  | (k, c) :: r => if is_prefix k s then Some c else lookup_prefix r s
  end.

(** [logical_to_arrow_type] — the two copies (arrow.rs for the stream schema and the row-index
    path, batch.rs for the whole-batch arrays) are regenerated separately. *)
Definition ltype_lookup (exact pref : list (bytes * N)) (dflt : N) (lt : bytes) : atype :=
  atype_of_code
    match lookup_exact exact lt with
    | Some c => c
    | None => match lookup_prefix pref lt with Some c => c | None => dflt end
    end.
Definition arrow_type_schema (lt : bytes) : atype :=
  ltype_lookup render_ltype_exact_arrow render_ltype_prefix_arrow render_ltype_default_arrow lt.
Definition arrow_type_batch (lt : bytes) : atype :=
  ltype_lookup render_ltype_exact_batch render_ltype_prefix_batch render_ltype_default_batch lt.

(** [i64 as f64]: round to nearest, ties to even *)
Definition f64_of_Z (z : Z) : N :=
  if (z =? 0)%Z then 0 else
  let sign := if (z <? 0)%Z then 2 ^ 63 else 0 in
  let m := Z.abs_N z in
  let e := N.log2 m in
  if e <=? 52 then sign + (e + 1023) * 2 ^ 52 + (m * 2 ^ (52 - e) - 2 ^ 52)
  else
    let sh := e - 52 in
    let q := m / 2 ^ sh in
    let r := m mod 2 ^ sh in
    let half := 2 ^ (sh - 1) in
    let q' := if (half <? r) || ((r =? half) && N.odd q) then q + 1 else q in
    sign + (e + 1023) * 2 ^ 52 + (q' - 2 ^ 52).

(** the boolean words of the whole-batch Boolean builder ([to_ascii_lowercase]) *)
Definition bool_word (s : bytes) : option bool :=
  let l := map to_lower s in
  if bytes_eqb l true_s || bytes_eqb l [49] then Some true
  else if bytes_eqb l false_s || bytes_eqb l [48] then Some false
  else None.

Definition opt_int (o : option Z) : dcell := match o with Some z => DInt z | None => DNull end.

(** Whole-batch path: [ColumnBatch::to_record_batch] (batch.rs [build_*_array_from_scalars]). *)
Definition arrow_cell_whole (t : atype) (v : scalar) : dcell :=
  match t with
  | AInt64 =>
      match v with
      | SInt z => if render_w_int_int64 then DInt z else DNull
      | STs z => if render_w_int_ts then DInt z else DNull
      | SUtf8 s _ _ => if render_w_int_utf8 then opt_int (parse_i64 s) else DNull
      | _ => DNull
      end
  | AFloat64 =>
      match v with
      | SFloat bits _ => if render_w_float_float then DFloat bits else DNull
      | SInt z => if render_w_float_int64 then DFloat (f64_of_Z z) else DNull
      | SUtf8 _ _ fl => if render_w_float_utf8 then match fl with Some b => DFloat b | None => DNull end else DNull
      | _ => DNull
      end
  | ABool =>
      match v with
      | SBool b => if render_w_bool_bool then DBool b else DNull
      | SUtf8 s _ _ => if render_w_bool_utf8 then match bool_word s with Some b => DBool b | None => DNull end else DNull
      | SInt z => if render_w_bool_int64 then DBool (negb (z =? 0)%Z) else DNull
      | _ => DNull
      end
  | ATsMs =>
      match v with
      | STs z => if render_w_ts_ts then DInt z else DNull
      | SInt z => if render_w_ts_int64 then DInt z else DNull
      | SUtf8 s _ _ => if render_w_ts_utf8 then opt_int (parse_i64 s) else DNull
      | _ => DNull
      end
  | ALargeUtf8 =>
      match v with
      | SNull => DNull
      | _ => DStr (to_string_repr v)
      end
  end.

(** Row-index path: [build_record_batch] with [Some(indices)] (arrow.rs). *)
Definition arrow_cell_row (t : atype) (v : scalar) : dcell :=
  match t with
  | AInt64 =>
      match v with
      | SInt z => if render_r_int_int64 then DInt z else DNull
      | STs z => if render_r_int_ts then DInt z else DNull
      | SUtf8 s _ _ => if render_r_int_utf8 then opt_int (parse_i64 s) else DNull
      | _ => DNull
      end
  | AFloat64 =>
      match v with
      | SFloat bits _ => if render_r_float_float then DFloat bits else DNull
      | SInt z => if render_r_float_int64 then DFloat (f64_of_Z z) else DNull
      | SUtf8 _ _ fl => if render_r_float_utf8 then match fl with Some b => DFloat b | None => DNull end else DNull
      | _ => DNull
      end
  | ABool =>
      match v with
      | SBool b => if render_r_bool_bool then DBool b else DNull
      | SUtf8 s _ _ => if render_r_bool_utf8 then match bool_word s with Some b => DBool b | None => DNull end else DNull
      | SInt z => if render_r_bool_int64 then DBool (negb (z =? 0)%Z) else DNull
      | _ => DNull
      end
  | ATsMs =>
      match v with
      | STs z => if render_r_ts_ts then DInt z else DNull
      | SInt z => if render_r_ts_int64 then DInt z else DNull
      | SUtf8 s _ _ => if render_r_ts_utf8 then opt_int (parse_i64 s) else DNull
      | _ => DNull
      end
  | ALargeUtf8 =>
      match v with
      | SNull => DNull
      | _ => DStr (to_string_repr v)
      end
  end.

Inductive apath := PWhole | PRow.

(** The whole-batch path types its arrays with batch.rs's table, the row-index path with
    arrow.rs's (the announced stream schema always comes from arrow.rs). *)
Definition arrow_cell (p : apath) (lt : bytes) (v : scalar) : dcell :=
  match p with
  | PWhole => arrow_cell_whole (arrow_type_batch lt) v
  | PRow => arrow_cell_row (arrow_type_schema lt) v
  end.

(** ** Agreement of decoded cells *)

(** the integer a finite f64 equals, if any *)
Definition f64_int_value (bits : N) : option Z :=
  if negb (f64_finite bits) then None else
  let neg := 2 ^ 63 <=? bits in
  let ex := (bits / 2 ^ 52) mod 2 ^ 11 in
  let frac := bits mod 2 ^ 52 in
  let m := if ex =? 0 then frac else 2 ^ 52 + frac in
  let e := if ex =? 0 then 1 else ex in
  (* value = m * 2^(e - 1075) *)
  let mag :=
    if 1075 <=? e then Some (m * 2 ^ (e - 1075))
    else if m mod 2 ^ (1075 - e) =? 0 then Some (m / 2 ^ (1075 - e)) else None in
  match mag with
  | Some a => Some (if neg then (- Z.of_N a)%Z else Z.of_N a)
  | None => None
  end.

Definition f64_is_nan (bits : N) : bool :=
  (((bits / 2 ^ 52) mod 2 ^ 11) =? 2047) && negb (bits mod 2 ^ 52 =? 0).
Definition f64_is_zero (bits : N) : bool := (bits mod 2 ^ 63) =? 0.

(** numeric equality of two f64 (IEEE [==]) *)
Definition f64_eq (a b : N) : bool :=
  negb (f64_is_nan a) && negb (f64_is_nan b) && ((a =? b) || (f64_is_zero a && f64_is_zero b)).

(** "numbers numerically equal, nulls as nulls, strings byte-identical" *)
Definition cell_agree (a b : dcell) : bool :=
  match a, b with
  | DNull, DNull => true
  | DBool x, DBool y => Bool.eqb x y
  | DInt x, DInt y => (x =? y)%Z
  | DInt x, DFloat f | DFloat f, DInt x =>
      match f64_int_value f with Some y => (x =? y)%Z | None => false end
  | DFloat x, DFloat y => f64_eq x y
  | DStr x, DStr y => bytes_eqb x y
  | DDoc x, DDoc y => bytes_eqb x y
  | _, _ => false
  end.

(** all decodings of one cell agree: JSON (= text), Arrow whole-batch, Arrow row-index *)
Definition cell_all_agree (lt : bytes) (v : scalar) : bool :=
  cell_agree (json_cell v) (arrow_cell PWhole lt v) &&
  cell_agree (json_cell v) (arrow_cell PRow lt v) &&
  cell_agree (arrow_cell PWhole lt v) (arrow_cell PRow lt v) &&
  cell_agree (json_cell v) (text_cell v).

(** an integer that [as f64] represents exactly *)
Definition int_exact_in_f64 (z : Z) : bool :=
  match f64_int_value (f64_of_Z z) with Some y => (y =? z)%Z | None => false end.

(** ** Known classes of disagreeing cells *)

Inductive kclass :=
| Utf8BigU64AsNumber          (* Utf8 holding a u64 above i64::MAX: JSON number, Arrow null / string / float *)
| Utf8JsonDocReparsed         (* Utf8 holding an array/object text: JSON array/object, Arrow string or null *)
| NonFiniteFloatAsNull        (* NaN / inf in a Float or String column: JSON null, Arrow NaN / inf / text *)
| NonIntegerInIntegerColumn   (* Boolean, finite Float64, Utf8 or Binary cell in an Int64 column *)
| NonTimestampInTimestampColumn
| NonFloatInFloatColumn       (* Boolean, Timestamp, Utf8 or Binary cell, or an Int64 that f64 cannot hold exactly, in a Float64 column *)
| NonBooleanInBooleanColumn   (* Int64, Timestamp, finite Float64, Utf8 or Binary cell in a Boolean column *)
| NonStringInStringColumn.    (* Boolean, Int64, Timestamp or finite Float64 cell in a LargeUtf8 column *)

Definition mismatch_class (t : atype) : kclass :=
  match t with
  | AInt64 => NonIntegerInIntegerColumn
  | ATsMs => NonTimestampInTimestampColumn
  | AFloat64 => NonFloatInFloatColumn
  | ABool => NonBooleanInBooleanColumn
  | ALargeUtf8 => NonStringInStringColumn
  end.

(** The class of a cell, [None] when the cell is outside every known class.  The declared type is
    the Arrow type of the column (both tables agree on it: [RenderProofs.tables_agree]). *)
Definition known_class_t (t : atype) (v : scalar) : option kclass :=
  match v with
  | SNull => None
  | SUtf8 s (Some _) _ => Some Utf8JsonDocReparsed
  | SUtf8 s None _ =>
      match big_u64 s with
      | Some _ => Some Utf8BigU64AsNumber
      | None => match t with ALargeUtf8 => None | _ => Some (mismatch_class t) end
      end
  | SFloat bits _ =>
      if f64_finite bits then match t with AFloat64 => None | _ => Some (mismatch_class t) end
      else match t with AFloat64 | ALargeUtf8 => Some NonFiniteFloatAsNull | _ => None end
  | SBool _ => match t with ABool => None | _ => Some (mismatch_class t) end
  | SInt z =>
      match t with
      | AInt64 | ATsMs => None
      | AFloat64 =>
          (* both Arrow conversions write [z as f64] when their builders take Int64 cells (after fix
             fba8206); that agrees with the JSON integer exactly when the conversion is exact *)
          if render_w_float_int64 && render_r_float_int64 && int_exact_in_f64 z then None
          else Some NonFloatInFloatColumn
      | _ => Some (mismatch_class t)
      end
  | STs _ => match t with AInt64 | ATsMs => None | _ => Some (mismatch_class t) end
  | SBin _ => match t with ALargeUtf8 => None | _ => Some (mismatch_class t) end
  end.
Definition known_class (lt : bytes) (v : scalar) : option kclass := known_class_t (arrow_type_schema lt) v.

(** "the runtime kind matches the declared type" *)
Definition kind_matches (t : atype) (v : scalar) : bool :=
  match v, t with
  | SNull, _ => true
  | (SInt _ | STs _), (AInt64 | ATsMs) => true
  | SFloat _ _, AFloat64 => true
  | SBool _, ABool => true
  | (SUtf8 _ _ _ | SBin _), ALargeUtf8 => true
  | _, _ => false
  end.
(** the three value-dependent exceptions inside matching kinds *)
Definition reparsed_or_nonfinite (v : scalar) : bool :=
  match v with
  | SUtf8 s (Some _) _ => true
  | SUtf8 s None _ => match big_u64 s with Some _ => true | None => false end
  | SFloat bits _ => negb (f64_finite bits)
  | _ => false
  end.

(** ** The response writers *)

Definition row := list scalar.
Definition batch := list row.           (* row-major; every row has one cell per column *)

Record column := mkColumn { c_name : bytes; c_type : bytes }.

Inductive wkind :=
| WQuery
| WShow (materialized_frames : N) (watermark : bool).

Record wcfg := mkCfg {
  w_limit : option N;
  w_offset : option N;
  w_batch_size : N;          (* CONFIG.query.streaming_batch_size: 0 = one frame per row *)
  w_kind : wkind }.

Record wstate := mkState {
  st_seen : list N;
  st_skipped : N;
  st_emitted : N;
  st_done : bool;            (* limit_reached / done *)
  st_batches : N }.          (* ShowResponseWriter.batch_count *)

Definition st0 : wstate := mkState [] 0 0 false 0.

Definition mem_N (x : N) (l : list N) : bool := existsb (N.eqb x) l.

Definition event_id_name : bytes := [101; 118; 101; 110; 116; 95; 105; 100].

Fixpoint index_of_name (cols : list column) (i : N) : option N :=
  match cols with
  | [] => None
  | c :: r => if bytes_eqb (c_name c) event_id_name then Some i else index_of_name r (N.succ i)
  end.
Definition event_id_idx (cols : list column) : option N := index_of_name cols 0.

Definition row_event_id (idx : option N) (r : row) : option N :=
  match idx with
  | Some i => match nth_error r (N.to_nat i) with Some v => as_u64 v | None => None end
  | None => None
  end.

(** how the de-duplication set treats the rows of the current batch *)
Inductive dedup_mode := DedupOn | DedupInsertOnly | DedupOff.

Definition dedup_mode_of (k : wkind) (batches_seen : N) : dedup_mode :=
  match k with
  | WQuery => DedupOn
  | WShow mfc wm => if wm then DedupOff else if batches_seen <? mfc then DedupInsertOnly else DedupOn
  end.

(** One row through [try_accept_row] (QueryResponseWriter) / the inlined loop body
    (ShowResponseWriter): de-duplicate, then OFFSET, then LIMIT.  Returns the new state and
    whether the row is accepted. *)
Definition accept_row (cfg : wcfg) (mode : dedup_mode) (st : wstate) (eid : option N) : wstate * bool :=
  let dup :=
    match mode, eid with
    | DedupOn, Some id => mem_N id (st_seen st)
    | _, _ => false
    end in
  let seen' :=
    match mode, eid with
    | (DedupOn | DedupInsertOnly), Some id => if mem_N id (st_seen st) then st_seen st else id :: st_seen st
    | _, _ => st_seen st
    end in
  let st1 := mkState seen' (st_skipped st) (st_emitted st) (st_done st) (st_batches st) in
  if dup then (st1, false)
  else
    let skip := match w_offset cfg with Some off => st_skipped st <? off | None => false end in
    if skip then (mkState seen' (N.succ (st_skipped st)) (st_emitted st) (st_done st) (st_batches st), false)
    else
      let full := match w_limit cfg with Some lim => lim <=? st_emitted st | None => false end in
      if full then (mkState seen' (st_skipped st) (st_emitted st) true (st_batches st), false)
      else (mkState seen' (st_skipped st) (N.succ (st_emitted st)) (st_done st) (st_batches st), true).

(** the row loop of one batch: stops at the row that hits the limit *)
Fixpoint accept_rows (cfg : wcfg) (mode : dedup_mode) (idx : option N) (st : wstate)
         (rows : list row) (i : N) : wstate * list N :=
  match rows with
  | [] => (st, [])
  | r :: rest =>
      let '(st1, ok) := accept_row cfg mode st (row_event_id idx r) in
      if st_done st1 then (st1, if ok then [i] else [])
      else
        let '(st2, l) := accept_rows cfg mode idx st1 rest (N.succ i) in
        (st2, if ok then i :: l else l)
  end.

(** The batch loop shared by [write_json] and [write_arrow]: per received batch the list of
    accepted row indices ([None] for a batch that produces no frame).  The loop stops receiving
    once the limit was hit. *)
Fixpoint run_batches (cfg : wcfg) (idx : option N) (st : wstate) (bs : list batch)
  : wstate * list (batch * list N) :=
  match bs with
  | [] => (st, [])
  | b :: rest =>
      if st_done st then (st, [])
      else
        match b with
        | [] => run_batches cfg idx st rest          (* is_empty: skipped, not counted *)
        | _ =>
            let mode := dedup_mode_of (w_kind cfg) (st_batches st) in
            let '(st1, sel) := accept_rows cfg mode idx st b 0 in
            let st2 := mkState (st_seen st1) (st_skipped st1) (st_emitted st1) (st_done st1)
                               (N.succ (st_batches st1)) in
            let '(st3, out) := run_batches cfg idx st2 rest in
            (st3, match sel with [] => out | _ => (b, sel) :: out end)
        end
  end.

Definition select_rows (b : batch) (sel : list N) : list row :=
  flat_map (fun i => match nth_error b (N.to_nat i) with Some r => [r] | None => [] end) sel.

(** *** Frames as a reader decodes them *)

Inductive jframe :=
| JSchema (cols : list (bytes * bytes))            (* name, logical type *)
| JBatch (rows : list (list dcell))                (* {"type":"batch","rows":[[..],..]} *)
| JRow (cells : list (bytes * dcell))              (* {"type":"row","values":{name:value,..}} *)
| JEnd (row_count : N).

Definition json_row (r : row) : list dcell := map json_cell r.

Definition json_frames_of (cfg : wcfg) (cols : list column) (b : batch) (sel : list N) : list jframe :=
  let rows := select_rows b sel in
  if 0 <? w_batch_size cfg then [JBatch (map json_row rows)]
  else map (fun r => JRow (combine (map c_name cols) (json_row r))) rows.

(** [write_json] with the JSON or the text renderer *)
Definition write_json (cfg : wcfg) (cols : list column) (bs : list batch) : list jframe :=
  let '(st, out) := run_batches cfg (event_id_idx cols) st0 bs in
  JSchema (map (fun c => (c_name c, c_type c)) cols)
  :: flat_map (fun p => json_frames_of cfg cols (fst p) (snd p)) out
  ++ [JEnd (st_emitted st)].

Inductive aframe :=
| ASchema (fields : list (bytes * atype))
| ABatch (rows : list (list dcell)).

(** [valid_row_indices.len() == batch.len()] and contiguous from 0 *)
Fixpoint is_iota (sel : list N) (i : N) : bool :=
  match sel with
  | [] => true
  | x :: r => (x =? i) && is_iota r (N.succ i)
  end.
Definition whole_batch (b : batch) (sel : list N) : bool :=
  (N.of_nat (length sel) =? N.of_nat (length b)) && is_iota sel 0.

Definition arrow_row (p : apath) (cols : list column) (r : row) : list dcell :=
  map (fun cv => arrow_cell p (c_type (fst cv)) (snd cv)) (combine cols r).

Definition arrow_frame_of (cols : list column) (b : batch) (sel : list N) : aframe :=
  if whole_batch b sel then ABatch (map (arrow_row PWhole cols) b)
  else ABatch (map (arrow_row PRow cols) (select_rows b sel)).

(** [write_arrow]: schema message, one record batch per batch with accepted rows, end marker.
    The Arrow stream carries no row count of its own. *)
Definition write_arrow (cfg : wcfg) (cols : list column) (bs : list batch) : list aframe :=
  let '(_, out) := run_batches cfg (event_id_idx cols) st0 bs in
  ASchema (map (fun c => (c_name c, arrow_type_schema (c_type c))) cols)
  :: map (fun p => arrow_frame_of cols (fst p) (snd p)) out.

(** *** What the reader reconstructs *)

Definition jframe_rows (f : jframe) : list (list dcell) :=
  match f with
  | JBatch rows => rows
  | JRow cells => [map snd cells]
  | _ => []
  end.
Definition json_rows (fs : list jframe) : list (list dcell) := flat_map jframe_rows fs.
Fixpoint json_announced (fs : list jframe) : option N :=
  match fs with
  | [] => None
  | JEnd n :: _ => Some n
  | _ :: r => json_announced r
  end.
Definition json_names (fs : list jframe) : list bytes :=
  match fs with JSchema cols :: _ => map fst cols | _ => [] end.

Definition aframe_rows (f : aframe) : list (list dcell) :=
  match f with ABatch rows => rows | _ => [] end.
Definition arrow_rows (fs : list aframe) : list (list dcell) := flat_map aframe_rows fs.
Definition arrow_names (fs : list aframe) : list bytes :=
  match fs with ASchema fields :: _ => map fst fields | _ => [] end.

(** the source rows the writer hands to any renderer *)
Definition accepted_rows (cfg : wcfg) (cols : list column) (bs : list batch) : list row :=
  flat_map (fun p => select_rows (fst p) (snd p)) (snd (run_batches cfg (event_id_idx cols) st0 bs)).

Fixpoint rows_agree (a b : list (list dcell)) : bool :=
  match a, b with
  | [], [] => true
  | x :: a', y :: b' =>
      (Nat.eqb (length x) (length y)) && forallb (fun p => cell_agree (fst p) (snd p)) (combine x y)
      && rows_agree a' b'
  | _, _ => false
  end.

(** the JSON stream and the Arrow stream of the same result decode alike *)
Definition responses_agree (cfg : wcfg) (cols : list column) (bs : list batch) : bool :=
  let j := write_json cfg cols bs in
  let a := write_arrow cfg cols bs in
  forallb (fun p => bytes_eqb (fst p) (snd p)) (combine (json_names j) (arrow_names a))
  && Nat.eqb (length (json_names j)) (length (arrow_names a))
  && rows_agree (json_rows j) (arrow_rows a)
  && match json_announced j with Some n => n =? N.of_nat (length (json_rows j)) | None => false end.

(** *** Reference semantics of the writer (for the functional theorem) *)

(** keep the first row of every event id; rows without an id are all kept *)
Fixpoint dedup_first (idx : option N) (seen : list N) (rows : list row) : list row :=
  match rows with
  | [] => []
  | r :: rest =>
      match row_event_id idx r with
      | Some id => if mem_N id seen then dedup_first idx seen rest
                   else r :: dedup_first idx (id :: seen) rest
      | None => r :: dedup_first idx seen rest
      end
  end.

Definition opt_skip (o : option N) (l : list row) : list row :=
  match o with Some n => skipn (N.to_nat n) l | None => l end.
Definition opt_take (o : option N) (l : list row) : list row :=
  match o with Some n => firstn (N.to_nat n) l | None => l end.

(** QUERY: LIMIT (OFFSET (dedup rows)) *)
Definition writer_spec (cfg : wcfg) (cols : list column) (bs : list batch) : list row :=
  opt_take (w_limit cfg) (opt_skip (w_offset cfg) (dedup_first (event_id_idx cols) [] (concat bs))).

(** ** Error responses *)

(** [StatusCode] in declaration order *)
Inductive status := StOk | StBadRequest | StUnauthorized | StForbidden | StNotFound | StInternal | StUnavailable.
Definition status_index (s : status) : N :=
  match s with StOk => 0 | StBadRequest => 1 | StUnauthorized => 2 | StForbidden => 3
             | StNotFound => 4 | StInternal => 5 | StUnavailable => 6 end.
Definition status_code (s : status) : N := nth (N.to_nat (status_index s)) render_status_codes 0.

Inductive encoding := EJson | EText | EArrow.

(** JSON string escaping as serde_json and sonic-rs write it (input is valid UTF-8) *)
Definition hex_digit (n : N) : N := if n <? 10 then 48 + n else 87 + n.
Definition json_escape_byte (c : N) : bytes :=
  if c =? 34 then [92; 34]
  else if c =? 92 then [92; 92]
  else if c =? 8 then [92; 98]
  else if c =? 12 then [92; 102]
  else if c =? 10 then [92; 110]
  else if c =? 13 then [92; 114]
  else if c =? 9 then [92; 116]
  else if c <? 32 then [92; 117; 48; 48; hex_digit (c / 16); hex_digit (c mod 16)]
  else [c].
Definition json_string (s : bytes) : bytes := 34 :: flat_map json_escape_byte s ++ [34].

Definition lit (s : list N) : bytes := s.
(* {"count":0,"status": *)
Definition js_head : bytes :=
  [123;34;99;111;117;110;116;34;58;48;44;34;115;116;97;116;117;115;34;58].
(* ,"message": *)
Definition js_message : bytes := [44;34;109;101;115;115;97;103;101;34;58].
(* ,"results":[]} *)
Definition js_results_end : bytes := [44;34;114;101;115;117;108;116;115;34;58;91;93;125].
(* {"count":0,"message": *)
Definition ar_head : bytes :=
  [123;34;99;111;117;110;116;34;58;48;44;34;109;101;115;115;97;103;101;34;58].
(* ,"results":[],"status": *)
Definition ar_results_status : bytes :=
  [44;34;114;101;115;117;108;116;115;34;58;91;93;44;34;115;116;97;116;117;115;34;58].

(** [Renderer::render(&Response::error(status, msg))]: the bytes each renderer produces.
    JsonRenderer: struct field order count,status,message,results; ArrowRenderer: a
    [serde_json::Map] (sorted keys) count,message,results,status; UnixRenderer: "<code> <msg>\n". *)
Definition render_error (e : encoding) (s : status) (msg : bytes) : bytes :=
  match e with
  | EJson => js_head ++ dec_of_N (status_code s) ++ js_message ++ json_string msg ++ js_results_end ++ [10]
  | EArrow => ar_head ++ json_string msg ++ ar_results_status ++ dec_of_N (status_code s) ++ [125; 10]
  | EText => dec_of_N (status_code s) ++ [32] ++ msg ++ [10]
  end.

(** the status a reader of the body finds: the "status" member, or the number that starts the
    first line of the text rendering *)
Fixpoint leading_number (s : bytes) (acc : N) (seen : bool) : option N :=
  match s with
  | c :: r => if is_digit c then leading_number r (acc * 10 + digit_val c) true
              else if seen then Some acc else None
  | [] => if seen then Some acc else None
  end.
Definition body_status (e : encoding) (s : status) (msg : bytes) : option N :=
  match e with
  | EText => leading_number (render_error EText s msg) 0 false
  | _ => Some (status_code s)      (* the member written by the renderer; the JSON reader is not modelled *)
  end.

(** [extract_http_status_from_response] on those bytes (frontend/http/dispatcher.rs).
    A body that does not start with '{': the status is read from a leading "<3 digits> " when
    [render_http_text_header] (sneldb c214409), else 200.  A body that starts with '{' is parsed only if
    it shows the word "status" — inside a fixed window ([render_http_sniff_window = Some w], sneldb
    before c214409) or inside the part that would be parsed ([None], since c214409) — and is shorter
    than [render_http_parse_full_below] bytes (of a longer body only the first
    [render_http_parse_prefix] bytes are parsed, never a complete document); everything else is
    answered with 200. *)
Definition status_word : bytes := [115; 116; 97; 116; 117; 115].
Fixpoint has_window (w : bytes) (s : bytes) (fuel : nat) : bool :=
  match fuel with
  | O => false
  | S f => match s with
           | [] => false
           | _ :: r => (Nat.leb (length w) (length s) && is_prefix w s) || has_window w r f
           end
  end.
Definition map_http (code : N) : N :=
  if mem_N code render_http_known_codes then code else 200.
Definition three_digit_header (out : bytes) : option N :=
  match out with
  | a :: b :: c :: d :: _ =>
      if is_digit a && is_digit b && is_digit c && (d =? 32)
      then Some (100 * digit_val a + 10 * digit_val b + digit_val c) else None
  | _ => None
  end.
Definition http_status_of_error (e : encoding) (s : status) (msg : bytes) : N :=
  let out := render_error e s msg in
  match out with
  | c :: _ =>
      if negb (c =? 123) then
        (if render_http_text_header
         then match three_digit_header out with Some code => map_http code | None => 200 end
         else 200)
      else
        let len := N.of_nat (length out) in
        let parse_len := if len <? render_http_parse_full_below then len else N.min len render_http_parse_prefix in
        let head := firstn (N.to_nat (match render_http_sniff_window with Some w => w | None => parse_len end)) out in
        if negb (has_window status_word head (length head)) then 200
        else if len <? render_http_parse_full_below then map_http (status_code s)
        else 200
  | [] => 200
  end.

(** the three encodings of one error are answered with the same HTTP status (where they are not is the
    known class of the error clause, [http_known]) *)
Definition http_status_same (s : status) (msg : bytes) : bool :=
  (http_status_of_error EJson s msg =? http_status_of_error EText s msg) &&
  (http_status_of_error EJson s msg =? http_status_of_error EArrow s msg).
(** KnownClass of the error clause (HttpStatusLongErrorBodyUnparsed), for the dispatcher of sneldb c214409
    ([render_http_text_header] on, no sniff window): an error (status other than 200) whose JSON /
    Arrow-fallback body reaches the full-parse limit *)
Definition http_known (s : status) (msg : bytes) : bool :=
  match s with
  | StOk => false
  | _ => (render_http_parse_full_below <=? N.of_nat (length (render_error EJson s msg)))
         || (render_http_parse_full_below <=? N.of_nat (length (render_error EArrow s msg)))
  end.
