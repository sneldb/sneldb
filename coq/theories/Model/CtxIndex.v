(** C08 part C: the context index ([ZoneIndex], src/engine/core/zone/zone_index.rs) as it is
    filled by [ZoneWriter::write_all] (src/engine/core/zone/zone_writer.rs) and asked by
    [ZoneIndex::find_candidate_zones] (what [IndexZoneSelector] uses for `FOR <context>` /
    `context_id = ...`).

    A zone plan is reduced to what the index is built from: its id, its event type and the
    context ids of its rows in row order.  [BTreeMap<String, V>] is an association list looked
    up by byte equality (the iteration order of the map is irrelevant to every answer; the
    OCaml printer sorts the dump).  The file round trip ([write_to_path_async] /
    [load_from_path]) is the identity in the model and is exercised by the Rust probe.
    Executable definitions, and the specification [zone_holds] at the end. *)
From Coq Require Import NArith List Bool.
From Snel Require Import Base.Bytes.
Import ListNotations.
Open Scope N_scope.

Record zplan := { zp_id : N; zp_evt : bytes; zp_ctxs : list bytes }.

(** * [BTreeMap<String, A>] *)
Fixpoint sm_get {A : Type} (k : bytes) (m : list (bytes * A)) : option A :=
  match m with
  | [] => None
  | (k', v) :: r => if bytes_eqb k k' then Some v else sm_get k r
  end.

(** [*map.entry(k).or_default() = f (old value)] *)
Fixpoint sm_upd {A : Type} (k : bytes) (f : option A -> A) (m : list (bytes * A)) : list (bytes * A) :=
  match m with
  | [] => [(k, f None)]
  | (k', v) :: r => if bytes_eqb k k' then (k', f (Some v)) :: r else (k', v) :: sm_upd k f r
  end.

(** event type -> context id -> zone ids (a [Vec<u32>]: one entry per insertion) *)
Definition cindex := list (bytes * list (bytes * list N)).

Definition or_nil {A : Type} (o : option (list A)) : list A :=
  match o with Some l => l | None => [] end.

(** [ZoneIndex::insert]:
    [self.index.entry(event_type).or_default().entry(context_id).or_default().push(id)] *)
Definition insert (et ctx : bytes) (z : N) (ix : cindex) : cindex :=
  sm_upd et (fun o => sm_upd ctx (fun oz => or_nil oz ++ [z]) (or_nil o)) ix.

(** [ZoneWriter::write_all]:
    [for zp in zone_plans { for ev in &zp.events { index.insert(&zp.event_type, &ev.context_id, zp.id) } }] *)
Definition insert_rows (et : bytes) (z : N) (cs : list bytes) (ix : cindex) : cindex :=
  fold_left (fun ix c => insert et c z ix) cs ix.
Definition insert_zone (ix : cindex) (zp : zplan) : cindex :=
  insert_rows (zp_evt zp) (zp_id zp) (zp_ctxs zp) ix.
Definition build (zps : list zplan) : cindex := fold_left insert_zone zps [].

(** [sort_unstable] + [dedup] of the collected zone ids: a strictly increasing list *)
Fixpoint zins (z : N) (s : list N) : list N :=
  match s with
  | [] => [z]
  | x :: r => if z <? x then z :: s else if z =? x then s else x :: zins z r
  end.
Definition sort_dedup (l : list N) : list N := fold_right zins [] l.

(** the zone list stored under (event type, context) *)
Definition zones_of (ix : cindex) (et c : bytes) : list N :=
  or_nil (sm_get c (or_nil (sm_get et ix))).

(** [ZoneIndex::find_candidate_zones(event_type, context_id, _)]: unknown event type -> nothing;
    [Some ctx]: the zones listed under that context (nothing if it has no entry);
    [None]: the union over all contexts of the event type. *)
Definition find (ix : cindex) (et : bytes) (ctx : option bytes) : list N :=
  match sm_get et ix with
  | None => []
  | Some cm =>
      match ctx with
      | Some c => match sm_get c cm with None => [] | Some zs => sort_dedup zs end
      | None => sort_dedup (concat (map snd cm))
      end
  end.

(** The whole index as the probe prints it: per event type, per context, the zone set. *)
Definition dump (ix : cindex) : list (bytes * list (bytes * list N)) :=
  map (fun e => (fst e, map (fun c => (fst c, sort_dedup (snd c))) (snd e))) ix.

(** Brute-force statement of "zone [z] holds a row of context [c] for event type [et]". *)
Definition zone_holds (zps : list zplan) (et c : bytes) (z : N) : Prop :=
  exists zp, In zp zps /\ zp_id zp = z /\ zp_evt zp = et /\ In c (zp_ctxs zp).
