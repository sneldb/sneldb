(** A printer for the command ASTs of Model/Parser.v and the well-formedness predicates under
    which printing then parsing is the identity (Proofs/ParserProofs.v for expressions,
    QueryRoundTrip.v and CommandRoundTrip.v for queries).  The printer has no
    counterpart in the Rust code; it is the specification side of "the parser preserves
    structure" and the generator of the round-trip test inputs.  Executable definitions only.

    Keywords are printed through a speller [sp : bytes -> bytes]; the round-trip theorems hold
    for every speller that only changes letter case, which is the statement "keywords are
    case-insensitive". *)
From Coq Require Import NArith ZArith List Bool.
From Snel Require Import Base.Bytes Model.Tokenizer Model.Parser.
Import ListNotations.
Open Scope N_scope.

(** * Well-formedness *)

(** every keyword of the QUERY grammar *)
Definition keywords : list bytes :=
  [K_QUERY; K_FIND; K_FOLLOWED; K_PRECEDED; K_BY; K_PER; K_USING; K_SINCE; K_LIMIT; K_OFFSET;
   K_ORDER; K_RETURN; K_LINKED; K_WHERE; K_FOR; K_TIME; K_COUNT; K_UNIQUE; K_TOTAL; K_AVG;
   K_MIN; K_MAX; K_HOUR; K_DAY; K_WEEK; K_MONTH; K_YEAR; K_ASC; K_DESC; K_OR; K_AND; K_NOT; K_IN].

Definition is_keyword (w : bytes) : bool := existsb (ci_eqb w) keywords.

(** an identifier of the grammar whose leading alphabetic run is not a keyword
    ([ci] compares the maximal alphabetic run, so [not_found] *is* read as NOT + [_found]) *)
Definition ident_syntax (i : bytes) : bool :=
  match i with
  | c :: r => is_ident_start c && forallb is_ident_char r
  | [] => false
  end.
Definition wf_ident (i : bytes) : bool :=
  ident_syntax i && negb (is_keyword (fst (span is_alpha i))).

(** [field]: ident or ident.ident *)
Fixpoint split_dot (f : bytes) : bytes * option bytes :=
  match f with
  | [] => ([], None)
  | c :: r => if c =? 46 then ([], Some r)
              else let '(a, o) := split_dot r in (c :: a, o)
  end.
Definition wf_field (f : bytes) : bool :=
  match split_dot f with
  | (a, None) => wf_ident a
  | (a, Some b2) => wf_ident a && ident_syntax b2
  end.

Definition no_quote (s : bytes) : bool := forallb (fun c => negb (c =? 34)) s.
Definition all_digits (d : bytes) : bool := forallb is_digit d.

Definition wf_val (v : jval) : bool :=
  match v with
  | VStr s => no_quote s
  | VInt z => ((- 9223372036854775808 <=? z) && (z <=? 9223372036854775807))%Z
  | VFloat _ d fd =>
      all_digits d && all_digits fd
      && negb (match d with [] => true | _ => false end)
      && negb (match fd with [] => true | _ => false end)
      && negb (float_overflows d fd)
  | VBool _ => false     (* booleans only arise from the bare-field atom, see [wf_expr] *)
  end.

Fixpoint wf_expr (e : expr) : bool :=
  match e with
  | ECmp f OpEq (VBool true) => wf_field f
  | ECmp f _ v => wf_field f && wf_val v
  | EIn f vs => wf_field f && forallb wf_val vs
  | EAnd x y => wf_expr x && wf_expr y
  | EOr x y => wf_expr x && wf_expr y
  | ENot x => wf_expr x
  end.

(** * Printing *)

Section Printer.
Variable sp : bytes -> bytes.    (* keyword speller *)

Definition print_val (v : jval) : bytes :=
  match v with
  | VStr s => 34 :: s ++ [34]
  | VInt z => dec_of_Z z
  | VFloat neg d fd => (if neg then [45] else []) ++ d ++ 46 :: fd
  | VBool v => if v then [116; 114; 117; 101] else [102; 97; 108; 115; 101]
  end.

Definition print_op (o : cmpop) : bytes :=
  match o with
  | OpEq => [61] | OpNeq => [33; 61] | OpGt => [62] | OpGte => [62; 61] | OpLt => [60] | OpLte => [60; 61]
  end.

(** comma-separated list *)
Definition sep_print {A} (pr : A -> bytes) (l : list A) : bytes :=
  match l with
  | [] => []
  | x :: r => pr x ++ flat_map (fun y => 44 :: 32 :: pr y) r
  end.

Definition print_vals (vs : list jval) : bytes := sep_print print_val vs.

(** [lvl]: 0 = or_expr position, 1 = and_expr position, 2 = factor position.  Parentheses
    are printed only where the grammar needs them. *)
Fixpoint print_expr_at (lvl : nat) (e : expr) : bytes :=
  let paren (need : bool) (s : bytes) := if need then 40 :: s ++ [41] else s in
  match e with
  | ECmp f OpEq (VBool true) => f
  | ECmp f o v => f ++ 32 :: print_op o ++ 32 :: print_val v
  | EIn f vs => f ++ 32 :: sp K_IN ++ 32 :: 40 :: print_vals vs ++ [41]
  | EOr x y =>
      paren (Nat.ltb 0 lvl) (print_expr_at 1 x ++ 32 :: sp K_OR ++ 32 :: print_expr_at 0 y)
  | EAnd x y =>
      paren (Nat.ltb 1 lvl) (print_expr_at 2 x ++ 32 :: sp K_AND ++ 32 :: print_expr_at 1 y)
  | ENot x => sp K_NOT ++ 32 :: print_expr_at 2 x
  end.

Definition print_expr (e : expr) : bytes := print_expr_at 0 e.

(** ** Queries *)

Definition quoted (s : bytes) : bytes := 34 :: s ++ [34].

Definition print_list (pr : bytes -> bytes) (l : list bytes) : bytes := sep_print pr l.

Definition print_agg (a : agg) : bytes :=
  match a with
  | ACount None => sp K_COUNT
  | ACount (Some f) => sp K_COUNT ++ 32 :: sp K_UNIQUE ++ 32 :: f
  | ACountField f => sp K_COUNT ++ 32 :: f
  | ATotal f => sp K_TOTAL ++ 32 :: f
  | AAvg f => sp K_AVG ++ 32 :: f
  | AMin f => sp K_MIN ++ 32 :: f
  | AMax f => sp K_MAX ++ 32 :: f
  end.

Definition print_aggs (l : list agg) : bytes := sep_print print_agg l.

Definition gran_kw (g : gran) : bytes :=
  match g with GHour => K_HOUR | GDay => K_DAY | GWeek => K_WEEK | GMonth => K_MONTH | GYear => K_YEAR end.

Definition print_link (l : seqlink * bytes) : bytes :=
  32 :: sp (match fst l with FollowedBy => K_FOLLOWED | PrecededBy => K_PRECEDED end)
     ++ 32 :: sp K_BY ++ 32 :: snd l.

Definition opt_clause {A} (o : option A) (pr : A -> bytes) : bytes :=
  match o with Some a => 32 :: pr a | None => [] end.

(** clause order: FOR, SINCE, USING, USING TIME, WHERE, RETURN, LINKED BY, aggregates, PER, BY,
    ORDER BY, LIMIT, OFFSET (the parser accepts any order; the last clause of a kind wins) *)
Definition print_query (q : query) : bytes :=
  sp K_QUERY ++ 32 :: q_event q
  ++ concat (map print_link (q_seq q))
  ++ opt_clause (q_ctx q) (fun c => sp K_FOR ++ 32 :: quoted c)
  ++ opt_clause (q_since q) (fun c => sp K_SINCE ++ 32 :: quoted c)
  ++ opt_clause (q_time_field q) (fun f => sp K_USING ++ 32 :: f)
  ++ opt_clause (q_seq_time_field q) (fun f => sp K_USING ++ 32 :: sp K_TIME ++ 32 :: f)
  ++ opt_clause (q_where q) (fun e => sp K_WHERE ++ 32 :: print_expr e)
  ++ opt_clause (q_return q) (fun l => sp K_RETURN ++ 32 :: 91 :: print_list quoted l ++ [93])
  ++ opt_clause (q_link q) (fun f => sp K_LINKED ++ 32 :: sp K_BY ++ 32 :: f)
  ++ opt_clause (q_aggs q) print_aggs
  ++ opt_clause (q_bucket q) (fun g => sp K_PER ++ 32 :: sp (gran_kw g))
  ++ opt_clause (q_group q) (fun l => sp K_BY ++ 32 :: print_list (fun f => f) l)
  ++ opt_clause (q_order q) (fun o => sp K_ORDER ++ 32 :: sp K_BY ++ 32 :: fst o ++ 32 :: sp (if snd o then K_DESC else K_ASC))
  ++ opt_clause (q_limit q) (fun n => sp K_LIMIT ++ 32 :: dec_of_N n)
  ++ opt_clause (q_offset q) (fun n => sp K_OFFSET ++ 32 :: dec_of_N n).

End Printer.

(** spellers used by the generators: 0 = as written (the keywords are upper case), 1 = lower case, 2 = alternating *)
Fixpoint alternate (up : bool) (w : bytes) : bytes :=
  match w with
  | [] => []
  | c :: r => (if up then to_upper c else to_lower c) :: alternate (negb up) r
  end.
Definition speller (mode : N) (w : bytes) : bytes :=
  if mode =? 0 then w else if mode =? 1 then map to_lower w else alternate false w.

(** a speller may change nothing but letter case *)
Definition speller_ok (sp : bytes -> bytes) : Prop :=
  forall w, map to_upper (sp w) = map to_upper w.

(** well-formed queries: identifiers are non-keyword identifiers, strings contain no quote,
    numbers fit u32, aggregate and group lists are non-empty *)
Definition wf_agg (a : agg) : bool :=
  match a with
  | ACount None => true
  | ACount (Some f) | ACountField f | ATotal f | AAvg f | AMin f | AMax f => wf_field f
  end.

Definition wf_opt {A} (p : A -> bool) (o : option A) : bool :=
  match o with Some a => p a | None => true end.

Definition wf_query (q : query) : bool :=
  wf_ident (q_event q)
  && forallb (fun l => wf_ident (snd l)) (q_seq q)
  && wf_opt no_quote (q_ctx q)
  && wf_opt no_quote (q_since q)
  && wf_opt wf_field (q_time_field q)
  && wf_opt wf_field (q_seq_time_field q)
  && wf_opt wf_expr (q_where q)
  && wf_opt (forallb no_quote) (q_return q)
  && wf_opt wf_ident (q_link q)
  && wf_opt (fun l => negb (match l with [] => true | _ => false end) && forallb wf_agg l) (q_aggs q)
  && wf_opt (fun l => negb (match l with [] => true | _ => false end) && forallb wf_field l) (q_group q)
  && wf_opt (fun o => wf_field (fst o)) (q_order q)
  && wf_opt (fun n => n <? 4294967296) (q_limit q)
  && wf_opt (fun n => n <? 4294967296) (q_offset q).

(** ** through the public entry point
    [parse_command] first tokenizes the whole input and rejects it if a character is not a token
    character; the tokenizer honours backslash escapes in string literals, the peg grammars do
    not, so both agree on where a literal ends only when strings contain no backslash. *)
Definition no_backslash (s : bytes) : bool := forallb (fun c => negb (c =? 92)) s.
Definition clean_val (v : jval) : bool := match v with VStr s => no_backslash s | _ => true end.
Fixpoint clean_expr (e : expr) : bool :=
  match e with
  | ECmp _ _ v => clean_val v
  | EIn _ vs => forallb clean_val vs
  | EAnd x y | EOr x y => clean_expr x && clean_expr y
  | ENot x => clean_expr x
  end.
Definition clean_query (q : query) : bool :=
  wf_opt no_backslash (q_ctx q) && wf_opt no_backslash (q_since q) && wf_opt clean_expr (q_where q)
  && wf_opt (forallb no_backslash) (q_return q).

