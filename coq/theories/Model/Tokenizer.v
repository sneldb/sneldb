(** Model of src/command/parser/tokenizer.rs ([tokenize]) at byte level — executable
    definitions only.

    The Rust tokenizer works on [char]s; the model works on the UTF-8 bytes.  Inside a
    string literal every char is copied, so bytes and chars agree.  Outside string
    literals the model covers ASCII only: a byte >= 128 there yields [TNonAscii] (the
    Rust code consults Unicode tables — [char::is_alphanumeric], [char::is_numeric] —
    which are not modelled); a result containing [TNonAscii] is 'out of the model's
    domain'. *)
From Coq Require Import NArith List Bool.
From Snel Require Import Base.Bytes Gen.Params.
Import ListNotations.
Open Scope N_scope.

Inductive token :=
| TWord (w : bytes)          (* Token::Word *)
| TNum (raw : bytes)         (* Token::Number; the model keeps the scanned text, not the f64 *)
| TStr (s : bytes)           (* Token::StringLiteral, escapes resolved *)
| TSym (c : N)               (* Token::Symbol: one of Params.tokenizer_symbol_chars *)
| TLBrace | TRBrace | TSemi | TLSq | TRSq | TLPar | TRPar
| TInvalid                   (* Token::Word('<INVALID>') *)
| TNonAscii.                 (* byte >= 128 outside a string literal: not modelled *)

(** linear-time reverse ([List.rev] is quadratic); [frev l = rev l]: Proofs/TokenizerProofs.frev_rev *)
Definition frev {A} (l : list A) : list A := rev_append l [].

Fixpoint span (p : N -> bool) (s : bytes) : bytes * bytes :=
  match s with
  | c :: r => if p c then let '(a, b) := span p r in (c :: a, b) else ([], s)
  | [] => ([], [])
  end.

Definition is_alnum (c : N) : bool := is_alpha c || is_digit c.

(** [' ' | '\t' | '\n' | '\r'] — the tokenizer's (and the PEG grammars') whitespace. *)
Definition is_tws (c : N) : bool := (c =? 32) || (c =? 9) || (c =? 10) || (c =? 13).

(** [parse_number]: chars that are numeric, '.' or '-'. *)
Definition is_numchar (c : N) : bool := is_digit c || (c =? 46) || (c =? 45).
(** [parse_word]: alphanumeric, '_' or '-'. *)
Definition is_wordchar (c : N) : bool := is_alnum c || (c =? 95) || (c =? 45).
(** [Token::Symbol] characters: the arm of the tokenizer's match is read from the Rust text
    (tools/params/p32_tokenizer_symbols.py; ':' ',' '=' '>' '<' '!' '.' and, since b3737c8, '+'). *)
Definition is_symchar (c : N) : bool := existsb (N.eqb c) tokenizer_symbol_chars.

Definition unescape (e : N) : N :=
  if e =? 110 then 10 else if e =? 116 then 9 else if e =? 114 then 13 else e.

(** [parse_string_literal] after the opening quote: content (reversed accumulator) and rest.
    A backslash takes the next char verbatim (or as \n \t \r); an unterminated literal
    runs to the end of the input. *)
Fixpoint scan_string (s : bytes) (acc : bytes) : bytes * bytes :=
  match s with
  | [] => (frev acc, [])
  | c :: r =>
      if c =? 34 then (frev acc, r)
      else if c =? 92 then
        match r with
        | [] => (frev acc, [])
        | e :: r' => scan_string r' (unescape e :: acc)
        end
      else scan_string r (c :: acc)
  end.

(** One token from a non-empty input: the token (or [None] for skipped whitespace) and the rest. *)
Definition next_token (c : N) (r : bytes) : option token * bytes :=
  if is_tws c then (None, r)
  else if c =? 123 then (Some TLBrace, r)
  else if c =? 125 then (Some TRBrace, r)
  else if c =? 59 then (Some TSemi, r)
  else if c =? 34 then let '(str, r') := scan_string r [] in (Some (TStr str), r')
  else if is_digit c || (c =? 45) then
    let '(a, r') := span is_numchar r in (Some (TNum (c :: a)), r')
  else if is_symchar c then (Some (TSym c), r)
  else if c =? 91 then (Some TLSq, r)
  else if c =? 93 then (Some TRSq, r)
  else if c =? 40 then (Some TLPar, r)
  else if c =? 41 then (Some TRPar, r)
  else if 128 <=? c then (Some TNonAscii, r)
  else if is_wordchar c then
    let '(a, r') := span is_wordchar r in (Some (TWord (c :: a)), r')
  else (Some TInvalid, r).

Fixpoint tokenize_fuel (fuel : nat) (s : bytes) : list token :=
  match fuel with
  | O => []
  | S f =>
      match s with
      | [] => []
      | c :: r =>
          let '(t, r') := next_token c r in
          match t with
          | Some t => t :: tokenize_fuel f r'
          | None => tokenize_fuel f r'
          end
      end
  end.

(** Every step consumes at least one byte, so [length s] steps suffice
    (proved: [TokenizerProofs.tokenize_fuel_enough]). *)
Definition tokenize (s : bytes) : list token := tokenize_fuel (length s) s.

Definition is_invalid (t : token) : bool := match t with TInvalid => true | _ => false end.
Definition is_nonascii (t : token) : bool := match t with TNonAscii => true | _ => false end.

(** [validate_tokens]: any [<INVALID>] word rejects the command. *)
Definition tokens_valid (ts : list token) : bool := negb (existsb is_invalid ts).
Definition tokens_in_domain (ts : list token) : bool := negb (existsb is_nonascii ts).

(** [str::eq_ignore_ascii_case]. *)
Definition ci_eqb (a b : bytes) : bool := bytes_eqb (map to_upper a) (map to_upper b).
