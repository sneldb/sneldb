(** C02 — the known classes of inputs on which the query path deviates from the specification.
    Executable (decidable) definitions only; extracted, so the check classifies a failing input
    with the same function the theorems are about.

    [known_class sch evs q = None] is the hypothesis of [C02_exact_outside_known]; every
    constructor other than [IllTyped] names one mechanism (see notes/C02.md).  The classes are about the
    conditions built and the two row filters; the pruning in front of the flushed rows enters the theorem
    only through the hypothesis [leaves_sound] on the structure answers (Model/Layout.v).  So a comparison
    with an integer literal below 2^53 on a float field is no class: both row filters compare a Float64 cell
    (the switches of p50_query.py in Gen/Params.v; sneldb 85f577c in memory, 6311f23 on a hydrated zone).
    That does not make QUERY exact on it after FLUSH: the SuRF answer for a range on a float field is not a
    superset (integral and other doubles lie in different lanes of the key), which is the class
    SurfFloatLanes of known/C02.json, recorded under C08 (surf_sound refuted) and not decided by
    [known_class].  Likewise no class: equality on bool fields after FLUSH (39dd6e5), [!=] on a field whose
    index does not serve that operator and unknown enum variants (f801704), negative instants (db7c428),
    candidate zones of mixed provenance (d4c8eed).

    NotComplement          the WHERE clause contains NOT: zone_group_collector.rs [handle_not] reads
                           the complement of the leaf's zones — a zone holding both a satisfying and a
                           non-satisfying row is dropped
    LiteralDropped         a decimal literal (or the bare-field atom): condition_evaluator_builder.rs
                           [add_where_clause] builds no condition, the pruning still uses the leaf
    FloatColumnIn          IN on a float field: [InNumericCondition::evaluate_event_direct] has no view
                           of a Float64 cell (only [NumericCondition] has one)
    FloatThresholdRounded  an integer literal of magnitude 2^53 or more on a float field: the comparison
                           is made against [threshold as f64], i.e. against the rounded literal
    U64NegativeThreshold   [>], [>=], [!=] a negative number on a u64 field: the "negative threshold ->
                           false" shortcut of condition.rs / condition_evaluator.rs
    U64AboveI64Max         a u64 value above i64::MAX is kept in memory as text
    NumericLookingString   a string/enum literal that parses as a time or an i64 becomes a numeric condition
    StringOrdering         [<,<=,>,>=] on a string field: [StringCondition] answers false
    NullSpelling           the literal "" or "null" on an optional string/enum field: in memory an
                           absent cell reads "" and a null cell reads "null"
    NeqOnOptionalText      [!=] on an optional string / enum / bool field: a null or absent cell reads
                           "null" / "" and therefore satisfies the inequality *)
From Coq Require Import ZArith NArith List Bool.
From Snel Require Import Base.Bytes Model.Time Model.Value Model.Expr Model.Sem Model.Cond.
Import ListNotations.

Inductive kclass :=
| NotComplement | LiteralDropped | FloatColumnIn | FloatThresholdRounded
| U64NegativeThreshold | U64AboveI64Max | NumericLookingString | StringOrdering | NullSpelling
| NeqOnOptionalText | IllTyped.

Definition is_plain_str (s : bytes) : bool :=
  match build_lit (LStr s) with BStr _ => true | _ => false end.
Definition null_like (s : bytes) : bool := bytes_eqb s [] || bytes_eqb s b_null.
Definition is_ne (op : cmp) : bool := match op with CNe => true | _ => false end.

Definition atom_class (d : fdecl) (op : cmp) (l : lit) : option kclass :=
  match l with
  | LFloat _ _ | LBool _ => if wt_atom (f_kind d) op l then Some LiteralDropped else Some IllTyped
  | LInt v =>
      match f_kind d with
      | KFloat => if (Z.abs v <? 2 ^ 53)%Z then None else Some FloatThresholdRounded
      | KInt | KTime => None
      | KU64 => match op with
                | CGt | CGe | CNe => if (v <? 0)%Z then Some U64NegativeThreshold else None
                | _ => None
                end
      | _ => Some IllTyped
      end
  | LStr s =>
      match f_kind d with
      | KTime =>
          match parse_str_to_epoch_seconds s with
          | None => Some IllTyped
          | Some _ => None
          end
      | KStr =>
          if negb (is_plain_str s) then Some NumericLookingString
          else if is_range op then Some StringOrdering
          else if f_opt d && null_like s then Some NullSpelling
          else if f_opt d && is_ne op then Some NeqOnOptionalText
          else None
      | KEnum vs =>
          if is_range op then Some IllTyped
          else if negb (is_plain_str s) then Some NumericLookingString
          else if f_opt d && null_like s then Some NullSpelling
          else if f_opt d && is_ne op then Some NeqOnOptionalText
          else None
      | KBool =>
          if wt_atom KBool op l
          then (if f_opt d && is_ne op then Some NeqOnOptionalText else None)
          else Some IllTyped
      | _ => Some IllTyped
      end
  end.

Fixpoint first_some {A} (l : list (option A)) : option A :=
  match l with
  | [] => None
  | Some x :: _ => Some x
  | None :: l' => first_some l'
  end.

Fixpoint expr_class (sch : schema) (e : expr) : option kclass :=
  match e with
  | ECmp f op l => match find_decl sch f with Some d => atom_class d op l | None => Some IllTyped end
  | EIn f ls =>
      match find_decl sch f, ls with
      | Some d, _ :: _ =>
          match f_kind d with
          | KFloat => Some FloatColumnIn
          | _ => first_some (map (atom_class d CEq) ls)
          end
      | _, _ => Some IllTyped
      end
  | EAnd a b | EOr a b =>
      match expr_class sch a with Some c => Some c | None => expr_class sch b end
  | ENot _ => Some NotComplement
  end.

(** the u64 fields a query mentions hold only values up to i64::MAX *)
Fixpoint fields_of (e : expr) : list bytes :=
  match e with
  | ECmp f _ _ | EIn f _ => [f]
  | EAnd a b | EOr a b => fields_of a ++ fields_of b
  | ENot a => fields_of a
  end.
Definition big_u64 (sch : schema) (ev : event) (f : bytes) : bool :=
  match lookup sch (ev_row ev) f with
  | Some (_, VU64 n) => (i64_max <? Z.of_N n)%Z
  | _ => false
  end.

Definition known_class (sch : schema) (evs : list event) (q : query) : option kclass :=
  match q_where q with
  | None => None
  | Some e =>
      match expr_class sch e with
      | Some c => Some c
      | None => if existsb (fun ev => existsb (big_u64 sch ev) (fields_of e)) evs
                then Some U64AboveI64Max else None
      end
  end.
