(** C07 — the value path of one payload cell through every storage tier — executable definitions only.

    JSON (as parsed by the STORE command)  --[ScalarValue::from]-->  scalar (memtable)
      --[WalEntry serde round trip, only after a restart]-->  scalar
      --[ColumnGroupBuilder: string form -> typed block chosen by the schema]-->  cell
      --[compaction: values_to_scalar -> string form -> typed block]-->  cell
      --[ConditionEvaluator / EventSink -> EventBuilder]-->  scalar
      --[ScalarValue::to_json, JSON renderer]-->  JSON.

    Sources: src/engine/types/mod.rs, src/engine/core/event/event_builder.rs,
    src/engine/core/write/{column_writer,column_group_builder}.rs,
    src/engine/core/column/column_block_snapshot.rs, src/engine/core/read/sink/event_sink.rs,
    src/engine/core/filter/condition_evaluator.rs, src/engine/core/read/flow/shard_pipeline.rs,
    src/command/handlers/store.rs (type_allows_value). *)
From Coq Require Import ZArith NArith List Bool.
From Snel Require Import Base.Bytes Model.Float64 Model.RustText Model.JsonV7 Gen.Params.
Import ListNotations.
Open Scope Z_scope.

(** ScalarValue as it occurs in a payload (Timestamp and Binary never do). *)
Inductive scalar : Type :=
| SNull
| SBool (b : bool)
| SInt (z : Z)          (* Int64 *)
| SFloat (bits : Z)     (* Float64 *)
| SUtf8 (s : bytes).

(** ---- rendering helpers ---- *)
(** the keywords of add_payload_field, read from the Rust text by tools/params/p50_value.py *)
Definition kw_true : bytes := value_kw_true.
Definition kw_false : bytes := value_kw_false.
Definition kw_null : bytes := value_kw_null.

Definition hex_digit (n : N) : N := if (n <? 10)%N then (48 + n)%N else (87 + n)%N.
(** serde_json's string escaping *)
Definition escape_byte (c : N) : bytes :=
  if (c =? 34)%N then [92; 34]%N
  else if (c =? 92)%N then [92; 92]%N
  else if (c =? 8)%N then [92; 98]%N
  else if (c =? 12)%N then [92; 102]%N
  else if (c =? 10)%N then [92; 110]%N
  else if (c =? 13)%N then [92; 114]%N
  else if (c =? 9)%N then [92; 116]%N
  else if (c <? 32)%N then [92; 117; 48; 48; hex_digit (c / 16); hex_digit (c mod 16)]%N
  else [c].
Definition quote (s : bytes) : bytes := (34%N :: flat_map escape_byte s) ++ [34%N].

Fixpoint zeros (n : nat) : bytes := match n with O => [] | S k => 48%N :: zeros k end.

(** Rust [Display] for f64: shortest round-trip digits, positional, never an exponent. *)
Definition display_f64 (b : Z) : bytes :=
  let m := f64_mag b in
  let sgn := if f64_neg b then [45%N] else [] in
  if f64_inf <? m then [78; 97; 78]%N
  else if m =? f64_inf then sgn ++ [105; 110; 102]%N
  else if m =? 0 then sgn ++ [48%N]
  else
    let '(c, e) := shortest_digits m in
    let ds := dec_of_Z c in
    if 0 <=? e then sgn ++ ds ++ zeros (Z.to_nat e)
    else
      let n := Z.of_nat (length ds) in
      if - e <? n then
        sgn ++ firstn (Z.to_nat (n + e)) ds ++ [46%N] ++ skipn (Z.to_nat (n + e)) ds
      else sgn ++ [48; 46]%N ++ zeros (Z.to_nat (- e - n)) ++ ds.

(** ryu's [format64] as serde_json's reader sees it: (significand, exponent) of the printed text.
    Only the "integral value below 10^16" layout differs from the shortest digits: it prints
    [digits ++ zeros ++ ".0"], which the reader accumulates as [c * 10^(k+1)] with exponent -1. *)
Definition ryu_parts (m : Z) : Z * Z :=
  let '(c, k) := shortest_digits m in
  let kk := ndigits c + k in
  if (0 <=? k) && (kk <=? 16) then (c * 10 ^ (k + 1), -1) else (c, k).

(** ryu's [format64] (what serde_json::to_string writes for a finite f64) *)
Definition ryu_text (b : Z) : bytes :=
  let m := f64_mag b in
  let sgn := if f64_neg b then [45%N] else [] in
  if m =? 0 then sgn ++ [48; 46; 48]%N
  else
    let '(c, k) := shortest_digits m in
    let ds := dec_of_Z c in
    let len := Z.of_nat (length ds) in
    let kk := len + k in
    if (0 <=? k) && (kk <=? 16) then sgn ++ ds ++ zeros (Z.to_nat k) ++ [46; 48]%N
    else if (0 <? kk) && (kk <=? 16) then
      sgn ++ firstn (Z.to_nat kk) ds ++ [46%N] ++ skipn (Z.to_nat kk) ds
    else if (-5 <? kk) && (kk <=? 0) then sgn ++ [48; 46]%N ++ zeros (Z.to_nat (- kk)) ++ ds
    else if len =? 1 then sgn ++ ds ++ [101%N] ++ dec_of_Z (kk - 1)
    else sgn ++ firstn 1 ds ++ [46%N] ++ skipn 1 ds ++ [101%N] ++ dec_of_Z (kk - 1).

(** compact JSON text of a value ([serde_json::to_string]) — only reached for array/object payload
    values, which no schema type accepts. *)
Fixpoint json_text (v : json) : bytes :=
  match v with
  | JNull => kw_null
  | JBool true => kw_true
  | JBool false => kw_false
  | JU64 n => dec_of_Z n
  | JI64 z => dec_of_Z z
  | JF64 b => ryu_text b
  | JStr s => quote s
  | JArr l =>
      (91%N :: (fix go (l : list json) (first : bool) : bytes :=
                  match l with
                  | [] => []
                  | x :: r => (if first then [] else [44%N]) ++ json_text x ++ go r false
                  end) l true) ++ [93%N]
  | JObj l =>
      (123%N :: (fix go (l : list (bytes * json)) (first : bool) : bytes :=
                   match l with
                   | [] => []
                   | (k, x) :: r => (if first then [] else [44%N]) ++ quote k ++ [58%N] ++ json_text x ++ go r false
                   end) l true) ++ [125%N]
  end.

(** ---- ScalarValue::from(JsonValue) / to_json ---- *)
Definition scalar_of_json (v : json) : scalar :=
  match v with
  | JNull => SNull
  | JBool b => SBool b
  | JU64 n => if n <=? i64_max then SInt n else SUtf8 (dec_of_Z n)
  | JI64 z => SInt z
  | JF64 b => SFloat b
  | JStr s => SUtf8 s
  | JArr _ | JObj _ => SUtf8 (json_text v)
  end.

(** The Utf8 re-parsing rule of [to_json]: a string that parses (serde_json::from_str) to an array,
    an object, or an unsigned integer above i64::MAX is returned PARSED. *)
Definition json_of_utf8 (t : bytes) : json :=
  match parse_json t with
  | Some (JObj l) => JObj l
  | Some (JArr l) => JArr l
  | Some (JU64 n) => if value_tojson_u64_threshold <? n then JU64 n else JStr t
  | _ => JStr t
  end.
Definition json_of_scalar (s : scalar) : json :=
  match s with
  | SNull => JNull
  | SBool b => JBool b
  | SInt z => if z <? 0 then JI64 z else JU64 z
  | SFloat b => if f64_is_finite b then JF64 b else JNull
  | SUtf8 t => json_of_utf8 t
  end.

(** ---- the STORE command's JSON reader (sonic-rs into serde_json::Value) for one scalar token:
    same classification as serde_json, but floats are CORRECTLY rounded and a negative zero
    (-0, -0.0) comes out as +0.0. ---- *)
Definition json_trim (s : bytes) : bytes :=
  rev (drop_while is_json_ws (rev (drop_while is_json_ws s))).
Definition store_parse (s : bytes) : option json :=
  match parse_json s with
  | Some (JF64 _) =>
      match parse_f64 (json_trim s) with
      | Some b => if f64_is_finite b then Some (JF64 (if f64_is_zero b then 0 else b)) else None
      | None => None
      end
  | other => other
  end.

(** ---- WAL: serde_json::to_string then serde_json::from_str ----
    [wal_float_legacy]: serde_json WITHOUT float_roundtrip re-reads ryu's digits with [f64_from_parts]
    (not correctly rounded).  With the feature (read from Cargo.toml into Gen/Params.v) the reader is
    correctly rounded and ryu's shortest digits read back as the same double (the defining property of
    shortest round-trip printing; assumed like Display/parse, tied by the value_wal probe). *)
Definition wal_float_legacy (b : Z) : scalar :=
  if negb (f64_is_finite b) then SNull
  else
    let m := f64_mag b in
    if m =? 0 then SFloat b                      (* "0.0" / "-0.0" *)
    else
      let '(sig, e) := ryu_parts m in
      match f64_from_parts (f64_neg b) sig e with
      | Some r => SFloat r
      | None => SNull                             (* unreachable for finite input *)
      end.
Definition wal_float (b : Z) : scalar :=
  if value_serde_float_roundtrip then (if f64_is_finite b then SFloat b else SNull)
  else wal_float_legacy b.
Definition wal_scalar (s : scalar) : scalar :=
  match s with
  | SFloat b => wal_float b
  | _ => s
  end.

(** ---- schema types ---- *)
Inductive ftype : Type :=
| TStr | TU64 | TI64 | TF64 | TBool | TTime | TDate
| TEnum (variants : list bytes)
| TOpt (inner : ftype).

Inductive phys : Type := PVar | PI64 | PU64 | PF64 | PBool.

(** column_writer.rs [write_all]: the physical type of a payload column; the arms are read from
    the Rust text (Gen/Params.v, codes 0 VarBytes, 1 I64, 2 U64, 3 F64, 4 Bool). *)
Definition phys_of_code (c : N) : phys :=
  match c with
  | 1%N => PI64 | 2%N => PU64 | 3%N => PF64 | 4%N => PBool | _ => PVar
  end.
Definition phys_base (t : ftype) : phys :=
  phys_of_code (match t with
                | TStr => value_phys_string | TU64 => value_phys_u64 | TI64 => value_phys_i64
                | TF64 => value_phys_f64 | TBool => value_phys_bool | TTime => value_phys_timestamp
                | TDate => value_phys_date | TEnum _ => value_phys_enum
                | TOpt _ => 0%N
                end).
Definition phys_opt (inner : ftype) : phys :=
  phys_of_code (match inner with
                | TStr => value_phys_opt_string | TU64 => value_phys_opt_u64 | TI64 => value_phys_opt_i64
                | TF64 => value_phys_opt_f64 | TBool => value_phys_opt_bool | TTime => value_phys_opt_timestamp
                | TDate => value_phys_opt_date | TEnum _ => value_phys_opt_enum
                | TOpt _ => value_phys_opt_optional
                end).
Definition phys_of (t : ftype) : phys :=
  match t with
  | TOpt inner => phys_opt inner
  | _ => phys_base t
  end.

Fixpoint mem_bytes (s : bytes) (l : list bytes) : bool :=
  match l with [] => false | x :: r => bytes_eqb s x || mem_bytes s r end.

(** store.rs [type_allows_value] on the payload AFTER time normalisation: logical times are
    epoch seconds (i64). *)
Fixpoint allows (t : ftype) (v : json) : bool :=
  match t with
  | TStr => match v with JStr _ => true | _ => false end
  | TU64 => match v with JU64 _ => true | _ => false end
  | TI64 | TTime | TDate => match v with JU64 n => n <=? i64_max | JI64 _ => true | _ => false end
  | TF64 => match v with JU64 _ | JI64 _ | JF64 _ => true | _ => false end
  | TBool => match v with JBool _ => true | _ => false end
  | TEnum vs => match v with JStr s => mem_bytes s vs | _ => false end
  | TOpt i => match v with JNull => true | _ => allows i v end
  end.

(** well-formed JSON numbers of the model (what a parser can produce) *)
Definition wf_json (v : json) : bool :=
  match v with
  | JU64 n => (0 <=? n) && (n <=? u64_max)
  | JI64 z => (i64_min <=? z) && (z <? 0)
  | JF64 b => (0 <=? b) && (b <? 2 ^ 64) && f64_is_finite b
  | _ => true
  end.

(** ---- column write: every cell goes through its STRING FORM ---- *)
Definition text_of_scalar (s : scalar) : bytes :=
  match s with
  | SUtf8 t => t
  | SInt z => dec_of_Z z
  | SFloat b => display_f64 b
  | SBool true => kw_true
  | SBool false => kw_false
  | SNull => []
  end.

(** one cell of a typed block; [None] = null-bitmap bit set. Var-bytes blocks have no bitmap. *)
Inductive cell : Type :=
| CVar (s : bytes)
| CI64 (o : option Z)
| CU64 (o : option Z)
| CF64 (o : option Z)
| CBool (o : option bool).

Definition parse_bool_ci (t : bytes) : option bool :=
  if eq_ignore_case t kw_true then Some true
  else if eq_ignore_case t kw_false then Some false
  else None.

(** ColumnGroupBuilder::finish. For an F64 block the text of a Float64 is Rust's [Display], and
    [Display] followed by [parse::<f64>] is the identity (std guarantee, assumed). *)
Definition write_cell (p : phys) (s : scalar) : cell :=
  match p with
  | PVar => CVar (text_of_scalar s)
  | PI64 => CI64 (parse_i64 (text_of_scalar s))
  | PU64 => CU64 (parse_u64 (text_of_scalar s))
  | PF64 => CF64 (match s with
                  | SFloat b => Some b
                  | _ => parse_f64 (text_of_scalar s)
                  end)
  | PBool => CBool (parse_bool_ci (text_of_scalar s))
  end.

(** ---- EventBuilder ---- *)
Definition u64_scalar (u : Z) : scalar :=
  if u <=? i64_max then SInt u else SUtf8 (dec_of_Z u).

(** [add_payload_field]: trim (Unicode), keywords, integers, finite floats, else the ORIGINAL text *)
Definition add_payload_field (v : bytes) : scalar :=
  let t := utrim v in
  if bytes_eqb t kw_true then SBool true
  else if bytes_eqb t kw_false then SBool false
  else if bytes_eqb t kw_null then SNull
  else
    let ints :=
      match t with
      | 45%N :: _ => match parse_i64 t with Some i => Some (SInt i) | None => None end
      | _ => match parse_u64 t with
             | Some u => Some (u64_scalar u)
             | None => match parse_i64 t with Some i => Some (SInt i) | None => None end
             end
      end in
    match ints with
    | Some r => r
    | None =>
        match parse_f64 t with
        | Some b => if f64_is_finite b then SFloat b else SUtf8 v
        | None => SUtf8 v
        end
    end.

(** the scalar the read path builds from a cell (condition_evaluator.rs / event_sink.rs) *)
Definition read_cell (c : cell) : scalar :=
  match c with
  | CI64 (Some z) => SInt z
  | CU64 (Some u) => u64_scalar u
  | CF64 (Some b) => if f64_is_finite b then SFloat b else SNull
  | CBool (Some b) => SBool b
  | CI64 None | CU64 None | CF64 None | CBool None => SNull
  | CVar s => add_payload_field s
  end.

(** EventSink's var-bytes order: [get_i64_at] (fast_parse_i64, untrimmed) first, then the string *)
Definition read_cell_sink (c : cell) : scalar :=
  match c with
  | CVar s => match parse_i64 s with Some z => SInt z | None => add_payload_field s end
  | _ => read_cell c
  end.

(** ---- compaction: ColumnBlockSnapshot::values_to_scalar, then the writer again ---- *)
Definition scan_cell (c : cell) : scalar :=
  match c with
  | CI64 (Some z) => SInt z
  | CU64 (Some u) => u64_scalar u
  | CF64 (Some b) => SFloat b
  | CBool (Some b) => SBool b
  | CI64 None | CU64 None | CF64 None | CBool None => SNull
  | CVar s => SUtf8 s
  end.
Definition compact_cell (p : phys) (c : cell) : cell := write_cell p (scan_cell c).

Fixpoint iter_compact (n : nat) (p : phys) (c : cell) : cell :=
  match n with O => c | S k => iter_compact k p (compact_cell p c) end.

(** ---- layouts ---- *)
Record layout : Type := {
  via_wal : bool;            (* the event was recovered from the WAL by a restart *)
  in_seg : option nat        (* Some n: flushed to a segment, then compacted n times *)
}.
Definition in_memory (l : layout) : bool := match in_seg l with None => true | Some _ => false end.

(** A stored payload entry: [None] = the key is absent from the payload (optional fields only). *)
Definition stored := option json.

Definition mem_scalar (v : stored) : scalar :=
  match v with Some j => scalar_of_json j | None => SNull end.

(** [col_present]: some row of the zone carries the key (WriteJob::build collects the union of the
    payload keys per zone; a column that no row of the zone carries is not written and reads as
    null). *)
Definition tier_scalar (t : ftype) (l : layout) (col_present : bool) (v : stored) : scalar :=
  let s0 := mem_scalar v in
  let s1 := if via_wal l then wal_scalar s0 else s0 in
  match in_seg l with
  | None => s1
  | Some n =>
      if col_present then read_cell (iter_compact n (phys_of t) (write_cell (phys_of t) s1))
      else SNull
  end.

(** what QUERY / REPLAY return for the cell *)
Definition returned (t : ftype) (l : layout) (col_present : bool) (v : stored) : json :=
  json_of_scalar (tier_scalar t l col_present v).

(** what the property demands: the stored value; an absent key reads as null *)
Definition expected (v : stored) : json := match v with Some j => j | None => JNull end.

(** ---- equality of returned and stored values: numbers numerically (a float equals an integer
    iff it has exactly that value), floats among themselves bit-wise, everything else structurally ---- *)
Definition float_is_int (b : Z) (z : Z) : bool :=
  let m := f64_mag b in
  if negb (f64_is_finite b) then false
  else
    let '(n, d) := mag_frac m in
    let v := if f64_neg b then - n else n in
    (v =? z * d).

Fixpoint json_eqb (a b : json) : bool :=
  match a, b with
  | JNull, JNull => true
  | JBool x, JBool y => Bool.eqb x y
  | JU64 x, JU64 y => x =? y
  | JI64 x, JI64 y => x =? y
  | JU64 x, JI64 y | JI64 x, JU64 y => x =? y
  | JF64 x, JF64 y => x =? y
  | JF64 x, JU64 y | JF64 x, JI64 y => float_is_int x y
  | JU64 y, JF64 x | JI64 y, JF64 x => float_is_int x y
  | JStr x, JStr y => bytes_eqb x y
  | JArr x, JArr y =>
      (fix go (x y : list json) : bool :=
         match x, y with
         | [], [] => true
         | p :: x', q :: y' => json_eqb p q && go x' y'
         | _, _ => false
         end) x y
  | JObj x, JObj y =>
      (fix go (x y : list (bytes * json)) : bool :=
         match x, y with
         | [], [] => true
         | (k, p) :: x', (k', q) :: y' => bytes_eqb k k' && json_eqb p q && go x' y'
         | _, _ => false
         end) x y
  | _, _ => false
  end.

(** ---- the known classes, one per mechanism (decidable) ---- *)

(** to_json re-parses a Utf8: arrays, objects and integers above i64::MAX come back parsed, in
    every tier. *)
Definition utf8_reparsed (s : bytes) : bool :=
  match parse_json s with
  | Some (JObj _) | Some (JArr _) => true
  | Some (JU64 n) => value_tojson_u64_threshold <? n
  | _ => false
  end.

(** add_payload_field re-types a var-bytes cell: after [str::trim] the text is one of the keywords
    or reads as an integer (u64 or i64) or a FINITE float under Rust's grammar. *)
Definition is_some {A : Type} (o : option A) : bool := match o with Some _ => true | None => false end.
Definition retype_candidate (s : bytes) : bool :=
  let t := utrim s in
  bytes_eqb t kw_true || bytes_eqb t kw_false || bytes_eqb t kw_null
  || is_some (parse_u64 t) || is_some (parse_i64 t)
  || match parse_f64 t with Some b => f64_is_finite b | None => false end.

(** the re-typing is visible: the cell does not come back as the same scalar *)
Definition scalar_eqb (a b : scalar) : bool :=
  match a, b with
  | SNull, SNull => true
  | SBool x, SBool y => Bool.eqb x y
  | SInt x, SInt y => x =? y
  | SFloat x, SFloat y => x =? y
  | SUtf8 x, SUtf8 y => bytes_eqb x y
  | _, _ => false
  end.
Definition string_retyped (s : bytes) : bool := negb (scalar_eqb (add_payload_field s) (SUtf8 s)).

(** an integer that a double cannot hold exactly *)
Definition int_inexact_as_f64 (z : Z) : bool := negb (float_is_int (f64_of_int z) z).

(** the floats that the WAL reader without float_roundtrip ([wal_float_legacy], sneldb before 32b7370) changes;
    no known class uses it *)
Definition float_wal_inexact_legacy (b : Z) : bool := negb (scalar_eqb (wal_float_legacy b) (SFloat b)).

Inductive known_class : Type :=
| Utf8ReparsedOnRender
| StringRetyped
| NullStringBecomesEmpty
| IntegerInFloatFieldRounded.

(** Does the input belong to the class?  (field type, layout, column present, stored value) *)
Definition in_class (k : known_class) (t : ftype) (l : layout) (col_present : bool) (v : stored) : bool :=
  match k with
  | Utf8ReparsedOnRender =>
      match v with Some (JStr s) => utf8_reparsed s | _ => false end
  | StringRetyped =>
      negb (in_memory l) && col_present &&
      match phys_of t, v with PVar, Some (JStr s) => string_retyped s | _, _ => false end
  | NullStringBecomesEmpty =>
      negb (in_memory l) && col_present &&
      match phys_of t, v with PVar, Some JNull | PVar, None => true | _, _ => false end
  | IntegerInFloatFieldRounded =>
      negb (in_memory l) && col_present &&
      match phys_of t, v with
      | PF64, Some (JU64 n) => int_inexact_as_f64 n
      | PF64, Some (JI64 z) => int_inexact_as_f64 z
      | _, _ => false
      end
  end.

Definition all_classes : list known_class :=
  [Utf8ReparsedOnRender; StringRetyped; NullStringBecomesEmpty; IntegerInFloatFieldRounded].
Definition known (t : ftype) (l : layout) (cp : bool) (v : stored) : bool :=
  existsb (fun k => in_class k t l cp v) all_classes.

(** a stored entry that the STORE handler accepts for a field of type [t] *)
Definition conforming (t : ftype) (v : stored) : bool :=
  match v with
  | Some j => allows t j && wf_json j
  | None => match t with TOpt _ => true | _ => false end
  end.

(** ---- zones: a column block is the list of its cells; the codec is the identity ---- *)
Definition zone_col_present (vs : list stored) : bool :=
  existsb (fun v => match v with Some _ => true | None => false end) vs.

Definition write_zone (p : phys) (vs : list scalar) : list cell := map (write_cell p) vs.
Definition read_zone (cs : list cell) : list scalar := map read_cell cs.
Definition compact_zone (p : phys) (cs : list cell) : list cell := map (compact_cell p) cs.

(** a whole zone column through a layout *)
Definition returned_zone (t : ftype) (l : layout) (vs : list stored) : list json :=
  let s1 := map (fun v => let s0 := mem_scalar v in if via_wal l then wal_scalar s0 else s0) vs in
  match in_seg l with
  | None => map json_of_scalar s1
  | Some n =>
      if zone_col_present vs then
        map json_of_scalar
          (read_zone (Nat.iter n (compact_zone (phys_of t)) (write_zone (phys_of t) s1)))
      else map (fun _ => JNull) vs
  end.

(** ---- projection: compute_return_projection (shard_pipeline.rs) ---- *)
Definition core_fields : list bytes :=
  [[99;111;110;116;101;120;116;95;105;100];       (* context_id *)
   [101;118;101;110;116;95;116;121;112;101];      (* event_type *)
   [116;105;109;101;115;116;97;109;112];          (* timestamp *)
   [101;118;101;110;116;95;105;100]]%N.           (* event_id *)

Fixpoint position_from (i : nat) (name : bytes) (cols : list bytes) : option nat :=
  match cols with
  | [] => None
  | c :: r => if bytes_eqb c name then Some i else position_from (S i) name r
  end.
Definition position (name : bytes) (cols : list bytes) : option nat := position_from 0 name cols.

Definition add_core (cols : list bytes) (acc : list nat) (f : bytes) : list nat :=
  match position f cols with Some i => acc ++ [i] | None => acc end.
Definition add_return (cols schema_fields : list bytes) (acc : list nat) (f : bytes) : list nat :=
  if mem_bytes f schema_fields then
    match position f cols with
    | Some i => if existsb (Nat.eqb i) acc then acc else acc ++ [i]
    | None => acc
    end
  else acc.

(** indices of the input columns that form the output, in output order *)
Definition projection (cols : list bytes) (ret : option (list bytes)) (schema_fields : list bytes) : list nat :=
  match ret with
  | None | Some [] => seq 0 (length cols)
  | Some fs =>
      fold_left (add_return cols schema_fields) fs (fold_left (add_core cols) core_fields [])
  end.

Definition project_row {A : Type} (d : A) (idx : list nat) (row : list A) : list A :=
  map (fun i => nth i row d) idx.
Definition project_cols (idx : list nat) (cols : list bytes) : list bytes := project_row [] idx cols.

(** ---- which columns a selection loads: SelectionProjection::compute (projection/strategies.rs)
    and ProjectionColumns (first occurrence wins) ---- *)
Fixpoint dedup_acc (seen : list bytes) (l : list bytes) : list bytes :=
  match l with
  | [] => []
  | x :: r => if mem_bytes x seen then dedup_acc seen r else x :: dedup_acc (x :: seen) r
  end.
Definition dedup (l : list bytes) : list bytes := dedup_acc [] l.
Definition event_id_name : bytes := nth 3 core_fields [].
Definition is_core (f : bytes) : bool := mem_bytes f core_fields.

(** the RETURN entries that are core or schema fields; the code collects them into a HashSet *)
Definition requested (ret fields : list bytes) : list bytes :=
  filter (fun f => is_core f || mem_bytes f fields) ret.

(** With a non-empty RETURN list: core fields, the filter columns (sorted), then the requested
    names in the ITERATION ORDER OF A HashSet — [hash_order], some arrangement of the distinct
    requested names, different on every call — then event_id. *)
Definition selection_columns (filter_cols hash_order : list bytes) : list bytes :=
  dedup (core_fields ++ filter_cols ++ hash_order ++ [event_id_name]).
(** without RETURN: all schema fields, sorted — deterministic *)
Definition selection_columns_all (filter_cols fields_sorted : list bytes) : list bytes :=
  dedup (core_fields ++ filter_cols ++ fields_sorted ++ [event_id_name]).

(** One output row of a flow.  The source fills the row in [cols_src] order; the batch schema that
    names the columns and feeds compute_return_projection is [cols_schema].  The segment flow
    computes the column list once ([cols_src = cols_schema]); the memtable flow computes it twice
    (build_memtable_flow, then MemTableSource::run). *)
Definition flow_row {A : Type} (d : A) (cols_schema cols_src : list bytes) (ret : option (list bytes))
           (fields : list bytes) (ev : bytes -> A) : list (bytes * A) :=
  let idx := projection cols_schema ret fields in
  combine (project_cols idx cols_schema) (project_row d idx (map ev cols_src)).

(** The order in which the requested names are appended: the RETURN order when the code collects them
    into a Vec ([value_return_order_stable], read from strategies.rs; fix f2ae870), otherwise the
    iteration order [hash_order] of a HashSet, different on every call. *)
Definition appended_order (ret fields hash_order : list bytes) : list bytes :=
  if value_return_order_stable then requested ret fields else hash_order.
Definition selection_columns_ret (filter_cols ret fields hash_order : list bytes) : list bytes :=
  selection_columns filter_cols (appended_order ret fields hash_order).

(** a row of the memtable flow under a RETURN list: the column list is computed twice, with whatever
    HashSet orders [o1], [o2] the two calls would see *)
Definition memtable_flow_row {A : Type} (d : A) (filter_cols ret fields o1 o2 : list bytes) (ev : bytes -> A)
  : list (bytes * A) :=
  flow_row d (selection_columns_ret filter_cols ret fields o1) (selection_columns_ret filter_cols ret fields o2)
           (Some ret) fields ev.

(** ---- the core string fields (context_id, event_type) are values too ----
    Event::get_field_scalar gives [Utf8 text] and the renderer applies [to_json] (so the re-parsing rule of
    [json_of_utf8] applies to them as well).  In a segment they are var-bytes columns; the flusher writes the
    text, the compactor reads it with [into_strings] and writes it back, and
    ConditionEvaluator::evaluate_zones_with_limit hands the TEXT to [EventBuilder::add_field], which stores it
    verbatim for these two names.  EventSink (not on the QUERY/REPLAY path) asks [get_i64_at] first and
    [add_field_i64] falls back to [add_field (n.to_string())]: an integer-looking text would come back in its
    canonical decimal spelling ("00123" -> "123", "+7" -> "7", "-0" -> "0"). *)
Definition core_write (s : bytes) : bytes := s.               (* ColumnGroupBuilder, var-bytes *)
Definition core_compact (s : bytes) : bytes := core_write s.   (* into_strings, then the writer *)
Definition core_read (s : bytes) : bytes := s.                 (* add_field "context_id" text *)
Definition core_read_sink (s : bytes) : bytes :=
  match parse_i64 s with Some z => dec_of_Z z | None => s end.

Fixpoint iter_core_compact (n : nat) (s : bytes) : bytes :=
  match n with O => s | S k => iter_core_compact k (core_compact s) end.

(** the text of a core string field as the layout holds it (the WAL line is a JSON string: identity) *)
Definition core_tier_text (l : layout) (s : bytes) : bytes :=
  match in_seg l with
  | None => s
  | Some n => core_read (iter_core_compact n (core_write s))
  end.
(** what QUERY / REPLAY return in the context_id / event_type column *)
Definition returned_core (l : layout) (s : bytes) : json := json_of_utf8 (core_tier_text l s).

(** FOR <ctx> is a string-equality condition on context_id (condition_evaluator_builder.rs) evaluated on the
    text of the layout: does the read FOR [q] return an event stored under [ctx]? *)
Definition for_selects (l : layout) (q ctx : bytes) : bool := bytes_eqb (core_tier_text l ctx) q.
