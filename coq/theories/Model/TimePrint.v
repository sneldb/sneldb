(** Printers for the ISO-8601 / RFC 3339 spellings of an instant (C16).
    These are the "spelling" side of the theorems in Proofs/TimeIsoProofs.v:
    [parse_rfc3339 (print_rfc3339 ...)] gives back the instant.  Executable
    definitions only. *)
From Coq Require Import ZArith NArith List Bool.
From Snel Require Import Base.Bytes Base.Civil.
Import ListNotations.
Open Scope Z_scope.

Definition pad2 (z : Z) : bytes := pad_digits 2 (Z.to_N z).
Definition pad4 (z : Z) : bytes := pad_digits 4 (Z.to_N z).

(** How the UTC offset is written. *)
Inductive tz_spelling :=
| TzZulu (lower : bool)        (* "Z" / "z"; only for offset 0 *)
| TzNumeric (unicode_minus : bool). (* "+HH:MM" / "-HH:MM" / U+2212 "HH:MM" *)

Definition print_sign (off_min : Z) (unicode_minus : bool) : bytes :=
  if off_min <? 0 then (if unicode_minus then [226%N; 136%N; 146%N] else [45%N]) else [43%N].

Definition print_offset_gen (off_min : Z) (tz : tz_spelling) : bytes :=
  match tz with
  | TzZulu lower => [if lower then 122%N else 90%N]
  | TzNumeric um =>
      let a := Z.abs off_min in
      print_sign off_min um ++ pad2 (a / 60) ++ 58%N :: pad2 (a mod 60)
  end.

(** fractional seconds: [] = absent, otherwise "." followed by the digit bytes *)
Definition print_frac (frac : bytes) : bytes :=
  match frac with [] => [] | _ => 46%N :: frac end.

(** [YYYY-MM-DD<sep>HH:MM:SS[.frac](Z|z|+HH:MM|-HH:MM)] *)
Definition print_rfc3339_gen (y m d h mi s : Z) (frac : bytes) (sep : N)
                             (off_min : Z) (tz : tz_spelling) : bytes :=
  pad4 y ++ 45%N :: pad2 m ++ 45%N :: pad2 d ++ sep :: pad2 h ++ 58%N :: pad2 mi ++ 58%N :: pad2 s
  ++ print_frac frac ++ print_offset_gen off_min tz.

Definition print_rfc3339 (y m d h mi s : Z) (frac : bytes) (sep : N)
                         (off_min : Z) (zulu : bool) : bytes :=
  print_rfc3339_gen y m d h mi s frac sep off_min
    (if zulu then TzZulu false else TzNumeric false).

(** The spelling of the instant [t] (whole seconds since the epoch, the
    sub-second part is [frac]) as local civil time at UTC offset [off_min] minutes. *)
Definition print_instant_gen (t : Z) (frac : bytes) (sep : N) (off_min : Z) (tz : tz_spelling) : bytes :=
  let l := t + off_min * 60 in
  let '(y, m, d) := civil_from_days (l / 86400) in
  let sod := l mod 86400 in
  print_rfc3339_gen y m d (sod / 3600) (sod mod 3600 / 60) (sod mod 60) frac sep off_min tz.

Definition print_instant (t : Z) (frac : bytes) (sep : N) (off_min : Z) (zulu : bool) : bytes :=
  print_instant_gen t frac sep off_min (if zulu then TzZulu false else TzNumeric false).

(** date-only spelling [YYYY-MM-DD] *)
Definition print_date (y m d : Z) : bytes := pad4 y ++ 45%N :: pad2 m ++ 45%N :: pad2 d.
