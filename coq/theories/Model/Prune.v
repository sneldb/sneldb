(** C02 — which zones of a segment a query reads.  Executable definitions only.

    Rust sources:
    * src/engine/core/filter/filter_group_builder.rs [FilterGroupBuilder::build] +
      filter/in_expansion.rs: the WHERE tree becomes a filter-group tree; [f IN (v1..vn)] is the OR
      of the leaves [f = vi] (one leaf for n = 1, no tree at all for n = 0); OR-of-equalities
      flattening only regroups an OR (same union of zones).  Literals are kept as they are
      ([ScalarValue::from]) — also the ones the row filter drops.
    * src/engine/core/read/index_planner.rs [IndexPlanner::choose]: one strategy per leaf, from the
      field's kind and the operator (the catalog kinds are the planned kinds of the field's
      category): datetime field -> TemporalEq for [=], TemporalRange for every other operator;
      enum field -> EnumBitmap; any other field -> ZoneSuRF for [<,<=,>,>=], ZoneXorIndex for
      [=,!=]; a field the schema does not know -> FullScan.
    * src/engine/core/zone/selector/field_selector.rs [select_for_segment] + selector/pruner/*:
      Temporal / EnumBitmap / ZoneXorIndex: the pruner's zones, or NO zones when the pruner
      answers None; ZoneSuRF: the pruner's zones, or ALL zones when it answers None.  The pruners
      answer None without looking at the structure when the operator is not the one they serve
      (temporal: [!=]; enum: not [=,!=], a non-string literal, a variant that is not declared;
      zone-xor: everything but [=]).
    * src/engine/core/zone/zone_group_collector.rs: AND = intersection, OR = union,
      NOT(leaf) = all zones of the segment minus the leaf's zones, De Morgan for NOT over AND/OR,
      NOT NOT x = x.

    What a pruning structure answers when it IS consulted is not modelled here: it is the
    parameter [ans] (segment index, leaf) -> option (list of zone ids) — in the correspondence runs
    the answer of the real pruner on the real segment directory, in the theorems a function about
    which only "a superset of the zones holding a satisfying row" is assumed (C08). *)
From Coq Require Import ZArith NArith List Bool.
From Snel Require Import Base.Bytes Gen.Params Model.Value Model.Expr Model.Sem.
Import ListNotations.

Record leaf := mk_leaf { l_field : bytes; l_op : cmp; l_lit : lit }.

Inductive fg :=
| FLeaf (l : leaf)
| FAnd (a b : fg)
| FOr (a b : fg)
| FNot (a : fg).

Fixpoint in_leaves (f : bytes) (l0 : lit) (ls : list lit) : fg :=
  match ls with
  | [] => FLeaf (mk_leaf f CEq l0)
  | l1 :: ls' => FOr (FLeaf (mk_leaf f CEq l0)) (in_leaves f l1 ls')
  end.

(** [None]: an empty IN list somewhere — the plan then has no filter tree. *)
Fixpoint build_fg (e : expr) : option fg :=
  match e with
  | ECmp f op l => Some (FLeaf (mk_leaf f op l))
  | EIn f [] => None
  | EIn f (l0 :: ls) => Some (in_leaves f l0 ls)
  | EAnd a b => match build_fg a, build_fg b with Some x, Some y => Some (FAnd x y) | _, _ => None end
  | EOr a b => match build_fg a, build_fg b with Some x, Some y => Some (FOr x y) | _, _ => None end
  | ENot a => option_map FNot (build_fg a)
  end.

Inductive strategy := SFullScan | STemporal | SEnum | SSurf | SZoneXor.

Definition choose (sch : schema) (l : leaf) : strategy :=
  match find_decl sch (l_field l) with
  | None => SFullScan
  | Some d =>
      match f_kind d with
      | KTime => STemporal
      | KEnum _ => SEnum
      | _ => if is_range (l_op l) then SSurf else SZoneXor
      end
  end.

(** does the pruner of the chosen strategy look at its structure for this leaf? *)
Definition serves (sch : schema) (l : leaf) : bool :=
  match choose sch l with
  | SFullScan => true
  | STemporal => match l_op l with CNe => false | _ => true end
  | SEnum =>
      negb (is_range (l_op l)) &&
      match l_lit l, find_decl sch (l_field l) with
      | LStr s, Some d => match f_kind d with KEnum vs => mem_bytes s vs | _ => false end
      | _, _ => false
      end
  | SSurf => true
  | SZoneXor => match l_op l with CEq => true | _ => false end
  end.

Definition zid := N.
(** A candidate zone: its id and whether the object carries the event type's uid
    ([CandidateZone::set_uid]) — the zones enumerated from the segment's zone metadata
    ([create_all_zones_for_segment_from_meta*]: full scan, SuRF fallback, the complement of NOT) do,
    the zones a pruner returns ([CandidateZone::new]) do not.  zone_hydrator.rs hydrates only the
    uid-carrying zones as soon as ONE candidate of the query carries a uid (see Layout.v). *)
Definition czone := (zid * bool)%type.
Fixpoint memN (z : N) (l : list N) : bool :=
  match l with [] => false | x :: l' => (z =? x)%N || memN z l' end.
Fixpoint cmem (z : zid) (l : list czone) : bool :=
  match l with [] => false | (x, _) :: l' => (z =? x)%N || cmem z l' end.
Fixpoint ctag (z : zid) (l : list czone) : option bool :=
  match l with [] => None | (x, t) :: l' => if (z =? x)%N then Some t else ctag z l' end.
(** zone_combiner.rs: AND keeps the objects of the first child, OR lets a later child overwrite *)
Definition inter (a b : list czone) : list czone := filter (fun z => cmem (fst z) b) a.
Definition union (a b : list czone) : list czone := filter (fun z => negb (cmem (fst z) b)) a ++ b.
Definition minus (a b : list czone) : list czone := filter (fun z => negb (cmem (fst z) b)) a.
Definition tagged (zs : list zid) : list czone := map (fun z => (z, true)) zs.
Definition untagged (zs : list zid) : list czone := map (fun z => (z, false)) zs.

Section Collect.
  Variable sch : schema.
  (** the structure's answer for this segment *)
  Variable ans : leaf -> option (list zid).
  (** all zone ids of the segment *)
  Variable all : list zid.

  (** an operator the pruner does not serve ([!=]; for the enum bitmap also an undeclared variant):
      no zones, or (sneldb f801704, [query_unserved_no_zones_* = false]) all zones of the type, read from the arms of
      [select_for_segment] (Gen/Params.v).  An index that is served but answers None (cannot be
      loaded) means "no zones". *)
  Definition unserved_zones (st : strategy) (l : leaf) : list czone :=
    match st with
    | STemporal => if query_unserved_no_zones_temporal then [] else tagged all
    | SEnum => match l_op l with
               | CNe => if query_unserved_no_zones_enum then [] else tagged all
               | _ => []
               end
    | SZoneXor => if query_unserved_no_zones_zonexor then [] else tagged all
    | _ => tagged all
    end.

  Definition leaf_zones (l : leaf) : list czone :=
    match choose sch l with
    | SFullScan => tagged all
    | SSurf => match ans l with Some zs => untagged zs | None => tagged all end
    | st => if serves sch l
            then match ans l with Some zs => untagged zs | None => [] end
            else unserved_zones st l
    end.

  (** [neg = true]: the zones of NOT g *)
  Fixpoint collect (neg : bool) (g : fg) : list czone :=
    match g with
    | FLeaf l => if neg
                 then (if query_not_leaf_complement then minus (tagged all) (leaf_zones l) else tagged all)
                 else leaf_zones l
    | FAnd a b => if neg then union (collect true a) (collect true b)
                  else inter (collect false a) (collect false b)
    | FOr a b => if neg then inter (collect true a) (collect true b)
                 else union (collect false a) (collect false b)
    | FNot a => collect (negb neg) a
    end.

  (** the zones the segment flow reads for a query ([None] tree: no WHERE, or an empty IN list —
      the flat filter list of [build_all] then selects every zone of the type) *)
  Definition candidates (w : option expr) : list czone :=
    match w with
    | None => untagged all
    | Some e => match build_fg e with Some g => collect false g | None => untagged all end
    end.
End Collect.
