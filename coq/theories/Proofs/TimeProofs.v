(** Proofs about Model/Time.v (C16): the digit bands of integer instants ([normalize_integer_epoch]) and
    JSON numbers in a time field ([normalize_json_number]). *)
From Coq Require Import ZArith List Bool Lia ZifyN.
From Snel Require Import Gen.Params Model.Time.
Open Scope Z_scope.

Lemma num_digits_fuel_ge : forall f x c, (c <= num_digits_fuel f x c)%N.
Proof.
  induction f as [|f IH]; intros x c; cbn [num_digits_fuel]; [lia|].
  destruct (x =? 0)%N; [lia|].
  specialize (IH (x / 10)%N (N.succ c)). lia.
Qed.

(** with fuel to spare the count is exact; short of fuel it is at least the fuel *)
Lemma num_digits_fuel_le : forall f x c k, (k < N.of_nat f)%N ->
  ((num_digits_fuel f x c <= c + k)%N <-> (x < 10 ^ k)%N).
Proof.
  induction f as [|f IH]; intros x c k Hk; [lia|].
  assert (P : (0 < 10 ^ k)%N) by (apply N.neq_0_lt_0, N.pow_nonzero; lia).
  cbn [num_digits_fuel]. destruct (N.eqb_spec x 0) as [->|Hnz]; [split; lia|].
  destruct (N.eqb_spec k 0) as [->|Hk0].
  - pose proof (num_digits_fuel_ge f (x / 10)%N (N.succ c)). change (10 ^ 0)%N with 1%N. split; lia.
  - specialize (IH (x / 10)%N (N.succ c) (k - 1)%N ltac:(lia)).
    replace (N.succ c + (k - 1))%N with (c + k)%N in IH by lia. rewrite IH.
    replace k with (N.succ (k - 1)) at 2 by lia. rewrite N.pow_succ_r'.
    generalize (10 ^ (k - 1))%N. intros Q. split; lia.
Qed.

Lemma band_test : forall n k,
  (1 <= k < 40)%N -> (num_digits (Z.abs_N n) <=? k)%N = (Z.abs n <? 10 ^ Z.of_N k).
Proof.
  intros n k Hk.
  assert (E : Z.of_N (10 ^ k)%N = 10 ^ Z.of_N k) by (rewrite N2Z.inj_pow; reflexivity).
  assert (P : (0 < 10 ^ k)%N) by (apply N.neq_0_lt_0, N.pow_nonzero; lia).
  pose proof (num_digits_fuel_le 40 (Z.abs_N n) 0 k ltac:(lia)) as H. rewrite N.add_0_l in H.
  unfold num_digits. destruct (N.eqb_spec (Z.abs_N n) 0) as [E0|_];
    destruct (Z.ltb_spec (Z.abs n) (10 ^ Z.of_N k)); [apply N.leb_le | apply N.leb_gt | apply N.leb_le | apply N.leb_gt]; lia.
Qed.

Lemma try_i64_ok : forall z, - 2 ^ 63 <= z <= 2 ^ 63 - 1 -> try_i64 z = Some z.
Proof.
  intros z Hz. unfold try_i64, i64_min, i64_max.
  destruct (Z.leb_spec (- 2 ^ 63) z); destruct (Z.leb_spec z (2 ^ 63 - 1)); cbn; try reflexivity; lia.
Qed.

(** The limits 11 / 14 / 16 / 19 digits and the divisors are those of Gen/Params.v, which also makes [time_div]
    floor division.  In each band the quotient is an i64, so [try_i64] refuses nothing. *)
Lemma normalize_cases : forall n,
  normalize_integer_epoch n =
  if Z.abs n <? 10 ^ 11 then Some n
  else if Z.abs n <? 10 ^ 14 then Some (n / 1000)
  else if Z.abs n <? 10 ^ 16 then Some (n / 1000000)
  else if Z.abs n <? 10 ^ 19 then Some (n / 1000000000)
  else None.
Proof.
  intros n. unfold normalize_integer_epoch, time_band_s_hi, time_band_ms_hi, time_band_us_hi, time_band_ns_hi,
    time_div_ms, time_div_us, time_div_ns, time_div.
  rewrite !band_test by lia. cbn [Z.of_N].
  destruct (Z.ltb_spec (Z.abs n) (10 ^ 11)); [apply try_i64_ok; lia|].
  destruct (Z.ltb_spec (Z.abs n) (10 ^ 14)); [apply try_i64_ok; lia|].
  destruct (Z.ltb_spec (Z.abs n) (10 ^ 16)); [apply try_i64_ok; lia|].
  destruct (Z.ltb_spec (Z.abs n) (10 ^ 19)); [apply try_i64_ok; lia | reflexivity].
Qed.

Lemma try_i64_some : forall z w, try_i64 z = Some w -> w = z /\ i64_min <= z <= i64_max.
Proof.
  intros z w H. unfold try_i64 in H. destruct ((i64_min <=? z) && (z <=? i64_max)) eqn:B; [|discriminate].
  injection H as <-. split; [reflexivity | lia].
Qed.

(** select the branch of [normalize_cases] that the bounds on [Z.abs n] in the context name *)
Ltac band :=
  rewrite normalize_cases, ?(proj2 (Z.ltb_ge _ _)) by lia; rewrite ?(proj2 (Z.ltb_lt _ _)) by lia.

Lemma normalize_seconds : forall t,
  Z.abs t < 10 ^ 11 -> normalize_integer_epoch t = Some t.
Proof. intros t Ht. band. reflexivity. Qed.

Lemma normalize_ms : forall n,
  10 ^ 11 <= Z.abs n < 10 ^ 14 -> normalize_integer_epoch n = Some (n / 1000).
Proof. intros n Hn. band. reflexivity. Qed.

Lemma normalize_us : forall n,
  10 ^ 14 <= Z.abs n < 10 ^ 16 -> normalize_integer_epoch n = Some (n / 1000000).
Proof. intros n Hn. band. reflexivity. Qed.

Lemma normalize_ns : forall n,
  10 ^ 16 <= Z.abs n < 10 ^ 19 -> normalize_integer_epoch n = Some (n / 1000000000).
Proof. intros n Hn. band. reflexivity. Qed.

Lemma normalize_none_iff : forall n, normalize_integer_epoch n = None <-> 10 ^ 19 <= Z.abs n.
Proof.
  intros n. rewrite normalize_cases.
  destruct (Z.ltb_spec (Z.abs n) (10 ^ 11)); [|destruct (Z.ltb_spec (Z.abs n) (10 ^ 14)); [|
  destruct (Z.ltb_spec (Z.abs n) (10 ^ 16)); [|destruct (Z.ltb_spec (Z.abs n) (10 ^ 19)); [|split; [lia | reflexivity]]]]];
    (split; [discriminate | lia]).
Qed.

Lemma normalize_reject : forall n,
  10 ^ 19 <= Z.abs n -> normalize_integer_epoch n = None.
Proof. intros n. apply normalize_none_iff. Qed.

(** An instant is [t] whole seconds plus a sub-second remainder. *)
Theorem unit_spellings_agree : forall t rms rus rns,
  0 <= rms < 1000 -> 0 <= rus < 1000000 -> 0 <= rns < 1000000000 ->
  (Z.abs t < 10 ^ 11 -> normalize_integer_epoch t = Some t) /\
  (10 ^ 11 <= Z.abs (t * 1000 + rms) < 10 ^ 14 ->
     normalize_integer_epoch (t * 1000 + rms) = Some t) /\
  (10 ^ 14 <= Z.abs (t * 1000000 + rus) < 10 ^ 16 ->
     normalize_integer_epoch (t * 1000000 + rus) = Some t) /\
  (10 ^ 16 <= Z.abs (t * 1000000000 + rns) < 10 ^ 19 ->
     normalize_integer_epoch (t * 1000000000 + rns) = Some t).
Proof.
  intros t rms rus rns Hms Hus Hns. repeat split; intros H.
  - apply normalize_seconds; exact H.
  - rewrite normalize_ms by exact H. f_equal. lia.
  - rewrite normalize_us by exact H. f_equal. lia.
  - rewrite normalize_ns by exact H. f_equal. lia.
Qed.

(** a negative instant with a sub-second part *)
Example unit_spellings_witness :
  normalize_integer_epoch (-100000001 * 1000 + 500) = Some (-100000001)
  /\ 10 ^ 11 <= Z.abs (-100000001 * 1000 + 500) < 10 ^ 14.
Proof. split; [vm_compute; reflexivity | lia]. Qed.

(** JSON numbers that serde_json keeps as f64 (decimals, exponents, integers outside
    [i64::MIN, u64::MAX]) are read as float SECONDS ([time_float_checks_i64_range], read from
    src/shared/time.rs). *)
Lemma normalize_json_dec : forall m e, normalize_json_number (JDec m e) = try_i64 (floor_dec m e).
Proof. reflexivity. Qed.

Theorem json_float_floor_or_rejected : forall m e z,
  normalize_json_number (JDec m e) = Some z -> z = floor_dec m e /\ i64_min <= z <= i64_max.
Proof.
  intros m e z H. rewrite normalize_json_dec in H.
  destruct (try_i64_some (floor_dec m e) z H) as [-> B]. now split.
Qed.

Theorem json_float_in_range_accepted : forall m e,
  i64_min <= floor_dec m e <= i64_max ->
  normalize_json_number (JDec m e) = Some (floor_dec m e).
Proof. intros m e H. rewrite normalize_json_dec. exact (try_i64_ok (floor_dec m e) H). Qed.

(** How serde_json holds an integer literal: i64 / u64 when it fits, f64 otherwise. *)
Definition jnum_of_integer (z : Z) : jnum :=
  if (i64_min <=? z) && (z <=? 2 ^ 64 - 1) then JInt z else JDec z 0.

Theorem json_integer_never_misread : forall z,
  normalize_json_number (jnum_of_integer z) = normalize_integer_epoch z
  \/ normalize_json_number (jnum_of_integer z) = None.
Proof.
  intros z. unfold jnum_of_integer.
  destruct ((i64_min <=? z) && (z <=? 2 ^ 64 - 1)) eqn:B; [left; reflexivity|].
  right. rewrite normalize_json_dec. unfold floor_dec.
  cbn [Z.leb Z.compare]. change (10 ^ 0) with 1. rewrite Z.mul_1_r.
  unfold try_i64, i64_min, i64_max in *.
  destruct ((- 2 ^ 63 <=? z) && (z <=? 2 ^ 63 - 1)) eqn:C; [lia | reflexivity].
Qed.

(** below i64::MIN: the nanosecond count of an instant in 1653 as a JSON number is rejected;
    the same digits as a string give the right second *)
Example json_integer_below_i64_rejected :
  normalize_json_number (jnum_of_integer (-9999999997000000001)) = None
  /\ normalize_integer_epoch (-9999999997000000001) = Some (-9999999998)
  /\ normalize_json_number (JDec 1 300) = None.
Proof. repeat apply conj; vm_compute; reflexivity. Qed.

Lemma json_integer_same_as_string : forall z,
  normalize_json_number (JInt z) = normalize_integer_epoch z.
Proof. reflexivity. Qed.
