(** Proofs about Model/Order.v (C10).  On the values of one column kind [scalar_compare] is that kind's typed order,
    a total preorder.  The stages of the ordered pipeline are windows of merges of sorts ([coord_ordered_spec]); such
    a merge is a sorted arrangement of all the rows (Proofs/SortMergeProofs.v), unique up to the order's
    equivalence: hence [ordered_window].  This carries over to rows of one kind because sorting and merging compare
    members of their input only ([ordered_query_window]).  The response writer is the window loop over the first
    occurrence of every event id. *)
From Coq Require Import ZArith List Bool Lia Permutation Sorting.Sorted.
From Coq Require Import ZifyN.
From Snel Require Import Base.Bytes Base.OrdF64 Gen.Params Model.Order Proofs.ListFacts Proofs.BytesFacts Proofs.SortMergeProofs Proofs.F64Proofs Proofs.WindowFacts Proofs.DecimalFacts.
Import ListNotations.

Lemma Zcompare_tp : total_preorder Z.compare.
Proof.
  split.
  - apply Z.compare_antisym.
  - intros a b c. unfold cle. rewrite !Z.compare_gt_iff. lia.
Qed.

Lemma bool_cmp_tp : total_preorder bool_cmp.
Proof.
  split.
  - intros [|] [|]; reflexivity.
  - intros [|] [|] [|]; unfold cle; cbn; congruence.
Qed.

Lemma bytes_cmp_tp : total_preorder bytes_cmp.
Proof. split; [intros a b; apply bytes_cmp_antisym | exact bytes_cmp_le_trans]. Qed.

Lemma proj_tp : forall {A B} (f : A -> B) (c : B -> B -> comparison),
  total_preorder c -> total_preorder (fun a b => c (f a) (f b)).
Proof.
  intros A B f c [S T]. split.
  - intros a b. apply S.
  - intros a b d. apply T.
Qed.

Lemma opt_cmp_tp : forall {A} (c : A -> A -> comparison),
  total_preorder c -> total_preorder (opt_cmp c).
Proof.
  intros A c [S T]. split.
  - intros [a|] [b|]; cbn; auto.
  - intros [a|] [b|] [d|]; unfold cle; cbn; try congruence. apply T.
Qed.

Lemma typed_compare_tp : forall k, total_preorder (typed_compare k).
Proof.
  intros []; unfold typed_compare.
  - apply (proj_tp as_i64), opt_cmp_tp, Zcompare_tp.
  - apply (proj_tp as_u64), opt_cmp_tp, Zcompare_tp.
  - apply (proj_tp (fun a => match a with VFloat x _ => Some (f64_key x) | _ => None end)),
      opt_cmp_tp, Zcompare_tp.
  - apply (proj_tp num_key), opt_cmp_tp, Zcompare_tp.
  - apply (proj_tp (fun a => match a with VBool x => Some x | _ => None end)), opt_cmp_tp, bool_cmp_tp.
  - apply (proj_tp (fun a => match a with VStr s => s | _ => [] end)), bytes_cmp_tp.
Qed.

Lemma bytes_cmp_nil_l : forall s, s <> [] -> bytes_cmp [] s = Lt.
Proof. intros [|c s] H; [congruence|reflexivity]. Qed.

Lemma parse_int_nonempty : forall s z, parse_int s = Some z -> s <> [].
Proof. intros [|c s] z H; [discriminate|discriminate]. Qed.

Lemma parse_i64_nonempty : forall s z, parse_i64 s = Some z -> s <> [].
Proof.
  intros s z H. unfold parse_i64 in H. destruct (parse_int s) eqn:E; [|discriminate].
  eapply parse_int_nonempty; eassumption.
Qed.

Lemma parse_u64_int : forall s z, parse_u64 s = Some z -> parse_int s = Some z.
Proof.
  intros s z H. unfold parse_u64 in H. destruct (starts_with_minus s); [discriminate|].
  destruct (parse_int s) as [y|]; [|discriminate].
  destruct ((0 <=? y) && (y <=? u64_hi)); congruence.
Qed.

Lemma parse_u64_nonempty : forall s z, parse_u64 s = Some z -> s <> [].
Proof. intros s z H. eapply parse_int_nonempty, parse_u64_int, H. Qed.

Lemma parse_u64_i64_agree : forall s x y, parse_u64 s = Some x -> parse_i64 s = Some y -> x = y.
Proof.
  intros s x y Hu Hi. apply parse_u64_int in Hu. unfold parse_i64 in Hi. rewrite Hu in Hi.
  destruct ((i64_lo <=? x) && (x <=? i64_hi)); congruence.
Qed.

(** [VNull] answers no accessor, so against it only the renderings are compared *)
Lemma scalar_compare_null_l : forall b, to_string_repr b <> [] -> scalar_compare VNull b = Lt.
Proof. intros b H. now apply bytes_cmp_nil_l. Qed.

Lemma scalar_compare_null_r : forall a, to_string_repr a <> [] -> scalar_compare a VNull = Gt.
Proof.
  intros a H. unfold scalar_compare.
  destruct (as_u64 a), (as_i64 a), (as_f64 a), (as_bool a), (as_str a); cbn;
    destruct (to_string_repr a); solve [congruence | reflexivity].
Qed.

Lemma scalar_compare_u64 : forall a b x y,
  as_u64 a = Some x -> as_u64 b = Some y -> scalar_compare a b = (x ?= y).
Proof. intros a b x y Ha Hb. unfold scalar_compare. now rewrite Ha, Hb. Qed.

(** Int64 and Timestamp cells: [as_u64] gives the number that [as_i64] gives, or nothing *)
Lemma scalar_compare_i64 : forall a b x y,
  as_i64 a = Some x -> as_u64 a = (if 0 <=? x then Some x else None) ->
  as_i64 b = Some y -> as_u64 b = (if 0 <=? y then Some y else None) ->
  scalar_compare a b = (x ?= y).
Proof.
  intros a b x y Ia Ua Ib Ub. unfold scalar_compare. rewrite Ia, Ua, Ib, Ub.
  destruct (0 <=? x), (0 <=? y); reflexivity.
Qed.

(** a Float64 cell answers neither integer accessor, so doubles are compared *)
Lemma scalar_compare_f64 : forall a b x y,
  as_f64 a = Some x -> f64_is_nan x = false -> as_f64 b = Some y -> f64_is_nan y = false ->
  (exists r, a = VFloat x r) \/ (exists r, b = VFloat y r) ->
  scalar_compare a b = (f64_key x ?= f64_key y).
Proof.
  intros a b x y Fa Nx Fb Ny H. unfold scalar_compare, f64_partial_cmp. rewrite Fa, Fb, Nx, Ny.
  destruct H as [[r ->]|[r ->]]; [reflexivity|]. destruct (as_u64 a), (as_i64 a); reflexivity.
Qed.

Lemma scalar_compare_numlike : forall a b, is_numlike a = true -> is_numlike b = true ->
  scalar_compare a b = typed_compare KNum a b.
Proof.
  intros a b Ha Hb. cbn [typed_compare].
  assert (R : forall z, (- num_int_bound <=? z) && (z <=? num_int_bound) = true -> - two53 <= z <= two53)
    by (unfold num_int_bound, two53; lia).
  assert (C : forall v, is_numlike v = true -> v = VNull \/ to_string_repr v <> [] /\
            exists x, as_f64 v = Some x /\ f64_is_nan x = false /\ num_key v = Some (f64_key x)).
  { intros [] H; try discriminate; auto; right; cbn in *.
    1, 3: split; [apply dec_of_Z_nonempty|]; eexists; repeat split; apply int_not_nan, R, H.
    apply andb_prop in H. split; [now destruct repr|].
    exists bits. now destruct (f64_is_nan bits). }
  destruct (C a Ha) as [->|(Ra & x & Fa & Nx & Ka)], (C b Hb) as [->|(Rb & y & Fb & Ny & Kb)];
    rewrite ?Ka, ?Kb; cbn [num_key opt_cmp].
  - reflexivity.
  - now apply scalar_compare_null_l.
  - now apply scalar_compare_null_r.
  - (* with a Float64 cell on either side the doubles are compared; two integer cells are
       compared as integers, and conversion to double keeps their order *)
    destruct a as [| |za|? ra|za| |], b as [| |zb|? rb|zb| |]; try discriminate;
      injection Fa as <-; injection Fb as <-;
      try solve [apply scalar_compare_f64; eauto];
      rewrite (scalar_compare_i64 _ _ za zb) by reflexivity; symmetry; apply int_key_compare; auto.
Qed.

Theorem cmp_total_on_kind : forall k a b,
  in_kind k a = true -> in_kind k b = true ->
  scalar_compare a b = typed_compare k a b.
Proof.
  intros k a b Ha Hb.
  destruct k; cbn [in_kind] in Ha, Hb.
  - destruct a as [| |xa| |xa| |], b as [| |xb| |xb| |]; try discriminate; cbn [typed_compare as_i64 opt_cmp];
      try reflexivity;
      try (apply scalar_compare_null_l, dec_of_Z_nonempty);
      try (apply scalar_compare_null_r, dec_of_Z_nonempty);
      apply scalar_compare_i64; reflexivity.
  - (* KU64: every cell but the null answers [as_u64] *)
    assert (C : forall v, is_u64like v = true ->
              v = VNull \/ to_string_repr v <> [] /\ exists z, as_u64 v = Some z).
    { intros [] H; try discriminate; auto; right; cbn in *; rewrite ?H.
      1, 2: split; [apply dec_of_Z_nonempty|eauto].
      destruct (parse_u64 s) eqn:E; [|discriminate]. split; [eapply parse_u64_nonempty, E|eauto]. }
    destruct (C a Ha) as [->|(Ra & x & Xa)], (C b Hb) as [->|(Rb & y & Yb)];
      cbn [typed_compare]; rewrite ?Xa, ?Yb.
    + reflexivity.
    + now apply scalar_compare_null_l.
    + now apply scalar_compare_null_r.
    + now apply scalar_compare_u64.
  - (* KFloat: a float column is a numeric column *)
    transitivity (typed_compare KNum a b).
    + apply scalar_compare_numlike; [destruct a|destruct b]; try discriminate; assumption.
    + destruct a, b; try discriminate; reflexivity.
  - apply scalar_compare_numlike; assumption.
  - destruct a as [|xa| | | | |], b as [|xb| | | | |]; try discriminate; try reflexivity.
    + destruct xb; reflexivity.
    + destruct xa; reflexivity.
  - (* KStr: a plain string answers [as_str] only *)
    assert (C : forall s b, plain_string s = true ->
              scalar_compare (VStr s) b = bytes_cmp s (to_string_repr b)).
    { intros s v H. unfold scalar_compare, plain_string in *. cbn [as_u64 as_i64 as_f64 as_str].
      destruct (parse_u64 s), (parse_i64 s), (parse_f64 s), (as_bool (VStr s)); try discriminate.
      destruct v; reflexivity. }
    destruct a as [| | | | |sa|], b as [| | | | |sb|]; try discriminate; try reflexivity; now apply C.
Qed.

Definition s9 : value := VStr [57%N].
Definition s10 : value := VStr [49%N; 48%N].
Definition s1a : value := VStr [49%N; 97%N].

(** "9" < "10" (as numbers), "10" < "1a" (as strings), but "1a" < "9" (as strings) *)
Lemma cmp_cycle_strings :
  scalar_compare s9 s10 = Lt /\ scalar_compare s10 s1a = Lt /\ scalar_compare s9 s1a = Gt.
Proof. vm_compute. auto. Qed.

Theorem cmp_total_refuted : ~ total_preorder scalar_compare.
Proof.
  intros [_ T]. destruct cmp_cycle_strings as (H1 & H2 & H3).
  apply (T s9 s10 s1a); unfold cle; congruence.
Qed.

(** 2^53 < 2^53+1 as integers, but both equal the double 2^53 *)
Definition i2p53 : value := VInt 9007199254740992.
Definition i2p53s : value := VInt 9007199254740993.
Definition f2p53 : value :=
  VFloat 4845873199050653696%N [57;48;48;55;49;57;57;50;53;52;55;52;48;57;57;50]%N.

Lemma cmp_cycle_int_float :
  scalar_compare i2p53 i2p53s = Lt /\ scalar_compare i2p53s f2p53 = Eq /\ scalar_compare f2p53 i2p53 = Eq.
Proof. vm_compute. auto. Qed.

Lemma coherent_kind : forall vs, coherent vs = true ->
  exists k, forall v, In v vs -> in_kind k v = true.
Proof.
  intros vs H. unfold coherent in H. apply existsb_exists in H. destruct H as (k & _ & Hk).
  exists k. rewrite forallb_forall in Hk. exact Hk.
Qed.

Lemma classify_none_coherent : forall vs, classify_column vs = None -> coherent vs = true.
Proof.
  intros vs H. unfold classify_column in H. destruct (coherent vs); [reflexivity|].
  destruct (forallb is_strnull vs); [discriminate|]. destruct (forallb is_numnull vs); discriminate.
Qed.

Theorem cmp_total_outside_known : forall a b c,
  classify_column [a; b; c] = None ->
  scalar_compare b a = CompOpp (scalar_compare a b)
  /\ (cle scalar_compare a b -> cle scalar_compare b c -> cle scalar_compare a c).
Proof.
  intros a b c H. apply classify_none_coherent, coherent_kind in H. destruct H as (k & Hk).
  assert (Ha : in_kind k a = true) by (apply Hk; cbn; auto).
  assert (Hb : in_kind k b = true) by (apply Hk; cbn; auto).
  assert (Hc : in_kind k c = true) by (apply Hk; cbn; auto).
  unfold cle. rewrite !(cmp_total_on_kind k) by assumption.
  destruct (typed_compare_tp k) as [S T]. split; [apply S|apply T].
Qed.

Example cmp_total_outside_known_nonvacuous :
  classify_column [VInt 3; VNull; VTs 20] = None
  /\ classify_column [s9; s10; s1a] = Some NumericLookingStrings
  /\ classify_column [i2p53; i2p53s; f2p53] = Some NumericMixed.
Proof. vm_compute. auto. Qed.

Section Stages.
  Context {A : Type}.
  Variable cmp : A -> A -> comparison.
  Variable asc : bool.

  Lemma merger_run_spec : forall off lim ss,
    merger_run_g cmp asc off lim ss = take_opt lim (dropN off (kmerge (heap_before cmp asc) ss)).
  Proof.
    intros off lim ss. unfold merger_run_g. rewrite merger_loop_spec.
    destruct lim as [l|]; cbn [take_opt]; unfold kmerge; [|reflexivity].
    now rewrite N.sub_0_r.
  Qed.

  Definition shard_full (flows : list (list A)) : list A :=
    kmerge (heap_before cmp asc) (map (sort_by (dir_cmp cmp asc)) flows).

  Lemma shard_ordered_spec : forall lim off flows,
    shard_ordered_g cmp asc lim off flows = take_opt (effective_limit lim off) (shard_full flows).
  Proof. intros. unfold shard_ordered_g. rewrite merger_run_spec, dropN_0. reflexivity. Qed.

  Lemma coord_ordered_spec : forall lim om shards,
    coord_ordered_g cmp asc lim om shards =
    take_opt lim (dropN (match om with Some o => o | None => 0%N end)
      (kmerge (heap_before cmp asc) (map (take_opt (effective_limit lim om)) (map shard_full shards)))).
  Proof.
    intros. unfold coord_ordered_g. now rewrite merger_run_spec, (map_ext _ _ (shard_ordered_spec lim om)), map_map.
  Qed.
End Stages.

Section Ext.
  Context {A : Type}.
  Variable P : A -> Prop.

  Lemma insert_by_ext : forall c1 c2 x l,
    (forall a b, P a -> P b -> c1 a b = c2 a b) -> P x -> Forall P l ->
    insert_by c1 x l = insert_by c2 x l.
  Proof.
    intros c1 c2 x l H Hx. induction l as [|y r IH]; intros F; cbn; [reflexivity|].
    inversion F; subst. rewrite H by assumption. now rewrite IH.
  Qed.

  Lemma sort_by_Forall : forall c l, Forall P l -> Forall P (sort_by c l).
  Proof. intros c l. apply Permutation_Forall, Permutation_sym, sort_by_perm. Qed.

  Lemma sort_by_ext : forall c1 c2 l,
    (forall a b, P a -> P b -> c1 a b = c2 a b) -> Forall P l -> sort_by c1 l = sort_by c2 l.
  Proof.
    intros c1 c2 l H. induction l as [|x r IH]; intros F; cbn; [reflexivity|].
    inversion F; subst. rewrite IH by assumption. apply insert_by_ext; auto using sort_by_Forall.
  Qed.

  Lemma pick_ext : forall b1 b2 ss i best,
    (forall x y, P (snd x) -> P (snd y) -> b1 x y = b2 x y) ->
    Forall (Forall P) ss -> (forall r, best = Some r -> P (snd r)) ->
    pick b1 i ss best = pick b2 i ss best.
  Proof.
    intros b1 b2 ss i best H. revert i best.
    induction ss as [|s ss IH]; intros i best F Hb; cbn [pick]; [reflexivity|].
    inversion F as [|? ? Fs Fss]; subst. destruct s as [|x s'].
    - apply IH; assumption.
    - inversion Fs; subst. destruct best as [b|].
      + rewrite H by (cbn; auto). destruct (b2 (i, x) b); apply IH; auto.
        intros r [= <-]. assumption.
      + apply IH; auto. intros r [= <-]. assumption.
  Qed.

  Lemma kmerge_fuel_ext : forall b1 b2 f ss,
    (forall x y, P (snd x) -> P (snd y) -> b1 x y = b2 x y) ->
    Forall (Forall P) ss -> kmerge_fuel b1 f ss = kmerge_fuel b2 f ss.
  Proof.
    intros b1 b2 f. induction f as [|f IH]; intros ss H F; cbn; [reflexivity|].
    rewrite (pick_ext b1 b2 ss O None H F) by discriminate.
    destruct (pick b2 O ss None) as [[i x]|]; [|reflexivity]. f_equal.
    apply IH; [exact H|]. apply drop_head_Forall; [|exact F]. intros [|y s] Fs; [constructor|now inversion Fs].
  Qed.
End Ext.

Section Pipeline.
  Context {A : Type}.
  Variable cmp : A -> A -> comparison.
  Hypothesis TP : total_preorder cmp.
  Variable asc : bool.

  Let before := heap_before cmp asc.
  Let dcmp := dir_cmp cmp asc.

  Lemma sorts_arr : forall (parts : list (list A)), Forall2 (arr dcmp) (map (sort_by dcmp) parts) parts.
  Proof. intros parts. apply Forall2_map_l. intros p _. apply arr_sort, dir_cmp_tp, TP. Qed.

  Lemma merge_window : forall (fulls parts : list (list A)) (m n : N),
    Forall2 (arr dcmp) fulls parts ->
    Forall2 (ceq dcmp) (slice m n (kmerge before (map (takeN (m + n)) fulls)))
                       (slice m n (sort_by dcmp (concat parts))).
  Proof.
    intros fulls parts m n H. rewrite !slice_firstn_skipn, kmerge_takeN_prefix by lia.
    apply Forall2_skipn, Forall2_firstn, (arr_unique dcmp (dir_cmp_tp cmp TP asc) _ _ (concat parts)).
    - apply (arr_kmerge cmp TP asc), H.
    - apply arr_sort, dir_cmp_tp, TP.
  Qed.

  Theorem topk_of_parts : forall (parts : list (list A)) (m n : N),
    Forall2 (ceq dcmp)
      (slice m n (kmerge before (map (fun p => takeN (m + n) (sort_by dcmp p)) parts)))
      (slice m n (sort_by dcmp (concat parts))).
  Proof. intros parts m n. rewrite <- (map_map (sort_by dcmp) (takeN (m + n))). apply merge_window, sorts_arr. Qed.

  Lemma shard_fulls_arr : forall (shards : list (list (list A))),
    Forall2 (arr dcmp) (map (shard_full cmp asc) shards) (map (@concat A) shards).
  Proof.
    induction shards as [|fl sh IH]; cbn [map]; constructor; [apply (arr_kmerge cmp TP asc), sorts_arr|exact IH].
  Qed.

  (** for rows compared by a key this relates keys, position by position; that the rows returned are rows of the
      selection, each at most once, is not stated *)
  Theorem ordered_window : forall (lim om : option N) (shards : list (list (list A))),
    let m := match om with Some o => o | None => 0%N end in
    Forall2 (ceq dcmp)
      (coord_ordered_g cmp asc lim om shards)
      (take_opt lim (dropN m (sort_by dcmp (concat (map (@concat A) shards))))).
  Proof.
    intros lim om shards m. rewrite coord_ordered_spec. fold m. fold before dcmp.
    destruct lim as [n|]; cbn [effective_limit take_opt].
    - (* every shard's stream is cut at [n + m], which covers the window *)
      fold m. rewrite (N.add_comm n m). apply merge_window, shard_fulls_arr.
    - rewrite map_id, !dropN_skipn. apply Forall2_skipn, (arr_unique dcmp (dir_cmp_tp cmp TP asc) _ _ (concat (map (@concat A) shards))).
      + apply (arr_kmerge cmp TP asc), shard_fulls_arr.
      + apply arr_sort, dir_cmp_tp, TP.
  Qed.
End Pipeline.

Section PipelineExt.
  Context {A : Type}.
  Variable P : A -> Prop.
  Variables c1 c2 : A -> A -> comparison.
  Hypothesis AG : forall a b, P a -> P b -> c1 a b = c2 a b.

  Lemma heap_before_agree : forall asc x y, P (snd x) -> P (snd y) ->
    heap_before c1 asc x y = heap_before c2 asc x y.
  Proof. intros asc x y Hx Hy. unfold heap_before, heap_item_cmp. now rewrite AG. Qed.

  Lemma dir_cmp_agree : forall asc a b, P a -> P b -> dir_cmp c1 asc a b = dir_cmp c2 asc a b.
  Proof. intros asc a b Ha Hb. unfold dir_cmp. now rewrite AG. Qed.

  Lemma take_opt_Forall : forall n (l : list A), Forall P l -> Forall P (take_opt n l).
  Proof. intros [n|] l; [|auto]. apply incl_Forall. intros x. apply In_takeN. Qed.

  (** both levels merge the images of a list, all of whose rows are in [P] *)
  Lemma kmerge_map_ext : forall {B} asc (g1 g2 : B -> list A) (xs : list B),
    Forall (fun x => g1 x = g2 x /\ Forall P (g2 x)) xs ->
    kmerge (heap_before c1 asc) (map g1 xs) = kmerge (heap_before c2 asc) (map g2 xs).
  Proof.
    intros B asc g1 g2 xs H.
    rewrite (map_ext_Forall g1 g2) by (eapply Forall_impl; [|exact H]; now intros x [Hx _]).
    unfold kmerge. apply (kmerge_fuel_ext P); [intros x y; apply heap_before_agree|].
    apply Forall_map. eapply Forall_impl; [|exact H]. now intros x [_ Hx].
  Qed.

  Lemma coord_ordered_ext : forall asc lim off (shards : list (list (list A))),
    Forall (Forall (Forall P)) shards ->
    coord_ordered_g c1 asc lim off shards = coord_ordered_g c2 asc lim off shards.
  Proof.
    intros asc lim off shards F. rewrite !coord_ordered_spec, !map_map. do 2 f_equal.
    apply kmerge_map_ext. eapply Forall_impl; [|exact F]. intros fl Hf. unfold shard_full.
    (* the stream of one shard is the same under both comparators, and a merge of rows in [P] is in [P] *)
    split.
    - f_equal. apply kmerge_map_ext. eapply Forall_impl; [|exact Hf]. intros f Ff.
      split; [|apply sort_by_Forall, Ff]. apply (sort_by_ext P); [|exact Ff]. apply dir_cmp_agree.
    - apply take_opt_Forall, kmerge_Forall, Forall_map. eapply Forall_impl; [|exact Hf]. apply sort_by_Forall.
  Qed.
End PipelineExt.

Definition trow_cmp (k : kind) (a b : row) : comparison := typed_compare k (fst a) (fst b).
Definition row_in (k : kind) (r : row) : Prop := in_kind k (fst r) = true.

Lemma trow_cmp_tp : forall k, total_preorder (trow_cmp k).
Proof. intros k. apply (proj_tp fst), typed_compare_tp. Qed.

Lemma row_cmp_agree : forall k a b, row_in k a -> row_in k b -> row_cmp a b = trow_cmp k a b.
Proof. intros k a b Ha Hb. apply cmp_total_on_kind; assumption. Qed.

(** [ceq (trow_cmp k)] written out, as the statements of C10 have it *)
Definition key_equiv (k : kind) (a b : row) : Prop := typed_compare k (fst a) (fst b) = Eq.

Lemma ceq_dir_key_equiv : forall k asc a b, ceq (dir_cmp (trow_cmp k) asc) a b <-> key_equiv k a b.
Proof.
  intros k asc a b. unfold ceq, dir_cmp, key_equiv, trow_cmp.
  destruct asc; [tauto|]. destruct (typed_compare k (fst a) (fst b)); cbn; split; congruence.
Qed.

Theorem ordered_query_window : forall k asc lim om (shards : list (list (list row))),
  Forall (Forall (Forall (row_in k))) shards ->
  let m := match om with Some o => o | None => 0%N end in
  Forall2 (key_equiv k)
    (coord_ordered asc lim om shards)
    (take_opt lim (dropN m (sort_by (dir_cmp row_cmp asc) (concat (map (@concat row) shards))))).
Proof.
  intros k asc lim om shards F m. unfold coord_ordered.
  rewrite (coord_ordered_ext (row_in k) row_cmp (trow_cmp k) (row_cmp_agree k)) by exact F.
  rewrite (sort_by_ext (row_in k) (dir_cmp row_cmp asc) (dir_cmp (trow_cmp k) asc)).
  - eapply Forall2_imp; [|exact (ordered_window (trow_cmp k) (trow_cmp_tp k) asc lim om shards)].
    apply ceq_dir_key_equiv.
  - apply dir_cmp_agree. apply row_cmp_agree.
  - apply Forall_concat, Forall_map. eapply Forall_impl; [|exact F]. apply Forall_concat.
Qed.

Theorem ordered_query_slice : forall k asc n om (shards : list (list (list row))),
  Forall (Forall (Forall (row_in k))) shards ->
  let m := match om with Some o => o | None => 0%N end in
  Forall2 (key_equiv k)
    (coord_ordered asc (Some n) om shards)
    (slice m n (sort_by (dir_cmp row_cmp asc) (concat (map (@concat row) shards)))).
Proof. intros k asc n om shards F. exact (ordered_query_window k asc (Some n) om shards F). Qed.

Theorem ordered_query_full : forall k asc (shards : list (list (list row))),
  Forall (Forall (Forall (row_in k))) shards ->
  Forall2 (key_equiv k)
    (coord_ordered asc None None shards)
    (sort_by (dir_cmp row_cmp asc) (concat (map (@concat row) shards))).
Proof.
  intros k asc shards F. pose proof (ordered_query_window k asc None None shards F) as H.
  cbn [take_opt] in H. now rewrite dropN_0 in H.
Qed.

Example ordered_query_slice_nonvacuous :
  let shards := [[[(VInt 5, 0%N); (VNull, 1%N)]; [(VInt 3, 2%N)]]; [[(VInt 4, 3%N); (VInt 3, 4%N)]]] in
  Forall (Forall (Forall (row_in KInt))) shards
  /\ map snd (coord_ordered true (Some 2%N) (Some 1%N) shards) = [4%N; 2%N].
Proof. cbn. split; [repeat constructor|reflexivity]. Qed.

Section Writer.
  Context {A : Type}.

  Fixpoint dedup_go (seen : list N) (rows : list (option N * A)) : list (option N * A) :=
    match rows with
    | [] => []
    | (Some id, x) :: r => if mem_N id seen then dedup_go seen r
                           else (Some id, x) :: dedup_go (id :: seen) r
    | (None, x) :: r => (None, x) :: dedup_go seen r
    end.
  Definition dedup_rows := dedup_go [].

  Lemma writer_go_window : forall rows lim off seen sk em,
    writer_go lim off seen sk em rows = map snd (window lim off sk em (dedup_go seen rows)).
  Proof.
    induction rows as [|[oid x] r IH]; intros lim off seen sk em; [reflexivity|].
    assert (Hkeep : forall seen',
      (if match off with Some o => (sk <? o)%N | None => false end then writer_go lim off seen' (N.succ sk) em r
       else if match lim with Some l => (l <=? em)%N | None => false end then []
       else x :: writer_go lim off seen' sk (N.succ em) r)
      = map snd (window lim off sk em ((oid, x) :: dedup_go seen' r))).
    { intros seen'. cbn [window]. destruct (match off with Some o => (sk <? o)%N | None => false end); [apply IH|].
      destruct (match lim with Some l => (l <=? em)%N | None => false end); [reflexivity|].
      cbn [map snd]. f_equal. apply IH. }
    cbn [writer_go dedup_go]. destruct oid as [id|]; [|apply Hkeep].
    destruct (mem_N id seen); [apply IH|apply Hkeep].
  Qed.

  Theorem writer_run_spec : forall lim off rows,
    writer_run lim off rows =
    map snd (take_opt lim (dropN (match off with Some o => o | None => 0%N end) (dedup_rows rows))).
  Proof.
    intros lim off rows. unfold writer_run. rewrite writer_go_window, window_spec.
    destruct lim, off; cbn [take_to skip_to take_opt];
      rewrite ?N.sub_0_r, ?takeN_firstn, ?dropN_skipn; reflexivity.
  Qed.

  Fixpoint ids_of (l : list (option N * A)) : list N :=
    match l with
    | [] => []
    | (Some id, _) :: r => id :: ids_of r
    | (None, _) :: r => ids_of r
    end.

  Lemma mem_N_In : forall x l, mem_N x l = true <-> In x l.
  Proof. apply (mem_In N.eqb mem_N N.eqb_eq); reflexivity. Qed.

  Lemma dedup_go_spec : forall rows seen,
    NoDup (ids_of (dedup_go seen rows))
    /\ (forall id, In id (ids_of (dedup_go seen rows)) <-> In id (ids_of rows) /\ ~ In id seen)
    /\ incl (dedup_go seen rows) rows.
  Proof.
    induction rows as [|[[i|] x] r IH]; intros seen; cbn [dedup_go ids_of].
    - split; [constructor|]. split; [cbn; tauto|apply incl_refl].
    - destruct (mem_N i seen) eqn:Em.
      + apply mem_N_In in Em. destruct (IH seen) as (ND & M & S). split; [exact ND|]. split; [|apply incl_tl, S].
        intros id. rewrite M. cbn [In]. split; [tauto|]. intros [[<-|H] N]; tauto.
      + assert (Ni : ~ In i seen) by (rewrite <- mem_N_In; congruence).
        destruct (IH (i :: seen)) as (ND & M & S). cbn [ids_of]. split; [|split].
        * constructor; [|exact ND]. rewrite M. cbn [In]. tauto.
        * intros id. cbn [In]. rewrite M. cbn [In]. destruct (N.eq_dec i id) as [->|]; tauto.
        * apply incl_cons; [now left|apply incl_tl, S].
    - destruct (IH seen) as (ND & M & S). split; [exact ND|]. split; [exact M|].
      apply incl_cons; [now left|apply incl_tl, S].
  Qed.

  Theorem unordered_limit : forall n om (rows : list (option N * A)),
    let m := match om with Some o => o | None => 0%N end in
    let d := dedup_rows rows in
    writer_run (Some n) om rows = map snd (slice m n d)
    /\ N.of_nat (length (writer_run (Some n) om rows)) = N.min n (N.of_nat (length d) - m)
    /\ NoDup (ids_of d)
    /\ (forall id, In id (ids_of rows) <-> In id (ids_of d))
    /\ (forall r, In r d -> In r rows).
  Proof.
    intros n om rows m d.
    assert (E : writer_run (Some n) om rows = map snd (slice m n d)) by apply writer_run_spec.
    split; [exact E|]. split; [rewrite E, map_length; apply slice_length|].
    subst d. unfold dedup_rows. destruct (dedup_go_spec rows []) as (ND & M & S).
    split; [exact ND|]. split; [|exact S]. intros id. rewrite M. cbn [In]. tauto.
  Qed.
End Writer.

Example unordered_limit_nonvacuous :
  writer_run (Some 2%N) (Some 1%N)
    [(Some 7%N, 0%N); (Some 7%N, 1%N); (Some 8%N, 2%N); (None, 3%N); (Some 9%N, 4%N)] = [2%N; 3%N].
Proof. reflexivity. Qed.

Lemma offset_requires_limit_flag : query_offset_requires_limit = true.
Proof. reflexivity. Qed.

Theorem offset_requires_limit : forall lim off,
  handler_precheck lim off = PreBadRequest <-> (off <> None /\ lim = None).
Proof.
  intros lim off. unfold handler_precheck.
  rewrite offset_requires_limit_flag.
  destruct off as [o|], lim as [l|]; split; intros H; try discriminate;
    try (destruct H; congruence).
  split; [discriminate|reflexivity].
Qed.
