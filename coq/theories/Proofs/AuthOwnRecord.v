(** Model/Auth.v (C13): the permission cache answers for a user id from that user's own record only. *)
From Snel Require Import Model.Auth Proofs.AuthProofs.

Theorem can_read_own_record : forall s s' uid t, reachable s -> reachable s' ->
  alookup uid (st_users s) = alookup uid (st_users s') ->
  can_read (st_cache s) uid t = can_read (st_cache s') uid t.
Proof. intros s s' uid t Hs Hs' E. rewrite !can_read_record, E by (apply reachable_wf; assumption). reflexivity. Qed.

Theorem can_write_own_record : forall s s' uid t, reachable s -> reachable s' ->
  alookup uid (st_users s) = alookup uid (st_users s') ->
  can_write (st_cache s) uid t = can_write (st_cache s') uid t.
Proof. intros s s' uid t Hs Hs' E. rewrite !can_write_record, E by (apply reachable_wf; assumption). reflexivity. Qed.

Theorem unknown_id_denied : forall s uid t, reachable s ->
  alookup uid (st_users s) = None ->
  can_read (st_cache s) uid t = false /\ can_write (st_cache s) uid t = false.
Proof.
  intros s uid t Hs E. rewrite can_read_record, can_write_record, E by (apply reachable_wf, Hs). split; reflexivity.
Qed.
