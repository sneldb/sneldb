(** The tokenizer model consumes at least one byte per step, so [length s] steps of fuel are
    enough: more fuel gives the same token list.  Its linear-time reverse [frev] is [rev]. *)
From Coq Require Import NArith List Lia.
From Snel Require Import Model.Tokenizer.
Import ListNotations.
Open Scope N_scope.

Lemma frev_rev : forall A (l : list A), frev l = rev l.
Proof. intros. unfold frev. rewrite rev_append_rev, app_nil_r. reflexivity. Qed.

Lemma span_length : forall p s a r, span p s = (a, r) -> length s = (length a + length r)%nat.
Proof.
  induction s as [|c s IH]; intros a r H; cbn in H.
  - inversion H; subst. auto.
  - destruct (p c).
    + destruct (span p s) as [a' r'] eqn:S. inversion H; subst. specialize (IH _ _ eq_refl). cbn. lia.
    + inversion H; subst. auto.
Qed.

Lemma scan_string_len : forall s acc str r, scan_string s acc = (str, r) -> (length r <= length s)%nat.
Proof.
  fix IH 1. intros [|c s] acc str r H; cbn in H.
  - inversion H; subst. auto.
  - destruct (c =? 34); [inversion H; subst; cbn; lia|].
    destruct (c =? 92).
    + destruct s as [|e s']; [inversion H; subst; cbn; lia|]. apply IH in H. cbn. lia.
    + apply IH in H. cbn. lia.
Qed.

Lemma next_token_len : forall c r t r', next_token c r = (t, r') -> (length r' <= length r)%nat.
Proof.
  intros c r t r' H. unfold next_token in H.
  repeat match type of H with
         | (if ?b then _ else _) = _ => destruct b
         | (let '(_, _) := scan_string ?s ?a in _) = _ =>
             let E := fresh "E" in destruct (scan_string s a) eqn:E; apply scan_string_len in E
         | (let '(_, _) := span ?p ?s in _) = _ =>
             let E := fresh "E" in destruct (span p s) eqn:E; apply span_length in E
         end; inversion H; subst; auto; lia.
Qed.

Lemma tokenize_fuel_nil : forall f, tokenize_fuel f [] = [].
Proof. intros [|f]; reflexivity. Qed.

Lemma tokenize_fuel_indep : forall f1 f2 s, (length s <= f1)%nat -> (length s <= f2)%nat ->
  tokenize_fuel f1 s = tokenize_fuel f2 s.
Proof.
  induction f1 as [|f1 IH]; intros f2 s H1 H2.
  - destruct s; [|cbn in H1; lia]. rewrite !tokenize_fuel_nil. reflexivity.
  - destruct s as [|c r]; [rewrite !tokenize_fuel_nil; reflexivity|].
    destruct f2 as [|f2]; [cbn in H2; lia|]. cbn [tokenize_fuel].
    destruct (next_token c r) as [t r'] eqn:E. apply next_token_len in E. cbn [length] in *.
    rewrite (IH f2 r') by lia. reflexivity.
Qed.

Theorem tokenize_fuel_enough : forall f s, (length s <= f)%nat -> tokenize_fuel f s = tokenize s.
Proof. intros f s H. unfold tokenize. apply tokenize_fuel_indep; auto. Qed.
