(** Proofs about Model/SurfEnc.v (C08): the three 8-byte lanes of [encode_value] are
    order preserving; the sign-magnitude order of double bit patterns is the order of the
    real values they denote; routing of values to lanes is exact outside saturation. *)
From Coq Require Import ZArith NArith List Bool Lia.
From Coq Require Import ZifyBool ZifyN.
From Snel Require Import Base.Bytes Gen.Params Model.SurfEnc.
Import ListNotations.
Open Scope N_scope.

Fixpoint be (k : nat) (n : N) : bytes :=
  match k with
  | O => []
  | S k' => (n / 256 ^ N.of_nat k') mod 256 :: be k' n
  end.

Lemma N_compare_by : forall x y c, CompareSpec (x = y) (x < y) (y < x) c -> N.compare x y = c.
Proof. intros x y c [->|H|H]; [apply N.compare_refl | now apply N.compare_lt_iff | now apply N.compare_gt_iff]. Qed.

Lemma cmp_lex_digits : forall P da ra db rb, ra < P -> rb < P ->
  N.compare (ra + P * da) (rb + P * db) =
  match N.compare da db with Eq => N.compare ra rb | c => c end.
Proof.
  intros P da ra db rb Ha Hb. apply N_compare_by.
  destruct (N.compare_spec da db) as [->|H1|H1].
  - destruct (N.compare_spec ra rb); constructor; lia.
  - constructor. assert (P * (da + 1) <= P * db) by (apply N.mul_le_mono_l; lia). lia.
  - constructor. assert (P * (db + 1) <= P * da) by (apply N.mul_le_mono_l; lia). lia.
Qed.

Lemma be_length : forall k n, length (be k n) = k.
Proof. induction k as [|k IH]; intros n; cbn [be length]; [reflexivity|]. now rewrite IH. Qed.

Lemma be_lex : forall k a b,
  bytes_cmp (be k a) (be k b) = N.compare (a mod 256 ^ N.of_nat k) (b mod 256 ^ N.of_nat k).
Proof.
  induction k as [|k IH]; intros a b.
  - cbn [be bytes_cmp]. change (256 ^ N.of_nat 0) with 1. now rewrite !N.mod_1_r.
  - cbn [be bytes_cmp]. rewrite IH.
    rewrite Nat2N.inj_succ, N.pow_succ_r', (N.mul_comm 256).
    assert (HP : 256 ^ N.of_nat k <> 0) by (apply N.pow_nonzero; lia).
    rewrite !(N.mod_mul_r _ (256 ^ N.of_nat k) 256) by (assumption || lia).
    rewrite cmp_lex_digits by (apply N.mod_lt; assumption).
    reflexivity.
Qed.

Lemma be8_be : forall n, be8 n = be 8 n.
Proof.
  intros n. unfold be8. rewrite !N.shiftr_div_pow2. cbn [be].
  change (256 ^ N.of_nat 0) with 1. rewrite N.div_1_r. reflexivity.
Qed.

Lemma be8_length : forall n, length (be8 n) = 8%nat.
Proof. reflexivity. Qed.

Lemma be8_lex : forall a b, a < 2 ^ 64 -> b < 2 ^ 64 ->
  bytes_cmp (be8 a) (be8 b) = N.compare a b.
Proof.
  intros a b Ha Hb. rewrite !be8_be, be_lex.
  change (256 ^ N.of_nat 8) with (2 ^ 64). now rewrite !N.mod_small.
Qed.

(** serves the i64 lane, and the f64 lane through [f_rank] *)
Lemma be8_offset : forall x y, (- 2 ^ 63 <= x < 2 ^ 63)%Z -> (- 2 ^ 63 <= y < 2 ^ 63)%Z ->
  bytes_cmp (be8 (Z.to_N (x + 2 ^ 63))) (be8 (Z.to_N (y + 2 ^ 63))) = Z.compare x y.
Proof.
  intros x y Hx Hy. rewrite be8_lex by lia.
  rewrite Z2N.inj_compare, !(Z.add_comm _ (2 ^ 63)) by lia. apply Z.add_compare_mono_l.
Qed.

Lemma land_pow2_small : forall x k, x < 2 ^ k -> N.land x (2 ^ k) = 0.
Proof.
  intros x k H. apply N.bits_inj. intros i.
  rewrite N.land_spec, N.pow2_bits_eqb, N.bits_0.
  destruct (N.eqb_spec k i) as [<-|Hne]; [|apply andb_false_r].
  rewrite <- (N.mod_small x (2 ^ k)) by assumption.
  rewrite N.mod_pow2_bits_high by lia. reflexivity.
Qed.

Lemma lxor_flip_low : forall x k, x < 2 ^ k -> N.lxor x (2 ^ k) = x + 2 ^ k.
Proof. intros x k H. symmetry. apply N.add_nocarry_lxor. now apply land_pow2_small. Qed.

Lemma lxor_flip_high : forall x k, 2 ^ k <= x -> x < 2 ^ (k + 1) -> N.lxor x (2 ^ k) = x - 2 ^ k.
Proof.
  intros x k H1 H2. rewrite N.add_1_r, N.pow_succ_r' in H2.
  assert (Hy : x - 2 ^ k < 2 ^ k) by lia.
  replace x with ((x - 2 ^ k) + 2 ^ k) at 1 by lia.
  rewrite <- (lxor_flip_low _ _ Hy), N.lxor_assoc, N.lxor_nilpotent, N.lxor_0_r. reflexivity.
Qed.

(** holds for [surf_i64_flip] = 2^63 of Gen/Params.v *)
Lemma i64_key : forall z, (- 2 ^ 63 <= z < 2 ^ 63)%Z ->
  N.lxor (i64_as_u64 z) surf_i64_flip = Z.to_N (z + 2 ^ 63).
Proof.
  intros z Hz. unfold i64_as_u64. change surf_i64_flip with (2 ^ 63).
  destruct (Z.ltb_spec z 0) as [Hn|Hp].
  - rewrite lxor_flip_high; lia.
  - rewrite lxor_flip_low; lia.
Qed.

Theorem enc_i64_mono : forall x y,
  (- 2 ^ 63 <= x < 2 ^ 63)%Z -> (- 2 ^ 63 <= y < 2 ^ 63)%Z ->
  bytes_cmp (enc_i64 x) (enc_i64 y) = Z.compare x y.
Proof. intros x y Hx Hy. unfold enc_i64. rewrite !i64_key by assumption. now apply be8_offset. Qed.

Theorem enc_u64_mono : forall a b, a < 2 ^ 64 -> b < 2 ^ 64 ->
  bytes_cmp (enc_u64 a) (enc_u64 b) = N.compare a b.
Proof. intros. unfold enc_u64. now apply be8_lex. Qed.

(** the pattern without its sign bit *)
Definition f_low (b : N) : N := f_exp b * two52 + f_man b.

Lemma f_fields : forall b, b < 2 ^ 64 ->
  f_man b < two52 /\ f_exp b < 2048 /\
  b = (if f_sign b then 2 ^ 63 else 0) + f_low b.
Proof.
  intros b Hb. unfold f_low, f_man, f_exp, f_sign, two52.
  rewrite N.shiftr_div_pow2, N.testbit_eqb.
  (* quotients and remainders are named before [lia], which would otherwise expand each of them *)
  pose proof (N.div_mod b (2 ^ 52) ltac:(discriminate)) as E1.
  pose proof (N.div_mod (b / 2 ^ 52) 2048 ltac:(discriminate)) as E2.
  pose proof (N.mod_lt b (2 ^ 52) ltac:(discriminate)) as Hm.
  pose proof (N.mod_lt (b / 2 ^ 52) 2048 ltac:(discriminate)) as He.
  rewrite N.div_div in E2 by discriminate. change (2 ^ 52 * 2048) with (2 ^ 63) in E2.
  assert (Hs : b / 2 ^ 63 < 2) by (apply N.div_lt_upper_bound; [discriminate | exact Hb]).
  rewrite (N.mod_small _ 2 Hs).
  revert E1 E2 Hm He Hs. generalize (b mod 2 ^ 52) ((b / 2 ^ 52) mod 2048) (b / 2 ^ 52) (b / 2 ^ 63).
  intros m e q s E1 E2 Hm He Hs. destruct (N.eqb_spec s 1); lia.
Qed.

Lemma f_low_lt : forall b, b < 2 ^ 64 -> f_low b < 2 ^ 63.
Proof.
  intros b Hb. destruct (f_fields b Hb) as (Hm & He & _). unfold f_low, two52 in *.
  lia.
Qed.

Lemma f_low_inj : forall a b, a < 2 ^ 64 -> b < 2 ^ 64 ->
  f_sign a = f_sign b -> f_low a = f_low b -> a = b.
Proof.
  intros a b Ha Hb Hs Hl.
  destruct (f_fields a Ha) as (_ & _ & Da). destruct (f_fields b Hb) as (_ & _ & Db).
  rewrite Da, Db, Hs, Hl. reflexivity.
Qed.

Definition magf (e m : N) : N := if e =? 0 then m else (two52 + m) * 2 ^ (e - 1).

Lemma f_mag_scaled_magf : forall b, f_mag_scaled b = magf (f_exp b) (f_man b).
Proof. intros. unfold f_mag_scaled, magf. now rewrite N.shiftl_mul_pow2. Qed.

(** every magnitude of exponent field [e] lies below the first one of [e + 1] *)
Lemma magf_below : forall e m, m < two52 -> magf e m < two52 * 2 ^ e.
Proof.
  intros e m Hm. unfold magf. destruct (N.eqb_spec e 0) as [->|He]; [now rewrite N.mul_1_r|].
  replace e with (N.succ (e - 1)) at 2 by lia. rewrite N.pow_succ_r', N.mul_assoc.
  apply N.mul_lt_mono_pos_r; [apply N.neq_0_lt_0, N.pow_nonzero; discriminate | unfold two52 in *; lia].
Qed.

Lemma magf_mono : forall e1 m1 e2 m2, m1 < two52 -> m2 < two52 ->
  e1 * two52 + m1 < e2 * two52 + m2 -> magf e1 m1 < magf e2 m2.
Proof.
  intros e1 m1 e2 m2 H1 H2 H. destruct (N.lt_trichotomy e1 e2) as [L|[->|L]].
  - apply (N.lt_le_trans _ _ _ (magf_below e1 m1 H1)). unfold magf. destruct (N.eqb_spec e2 0); [lia|].
    apply (N.le_trans _ (two52 * 2 ^ (e2 - 1))); [apply N.mul_le_mono_l, N.pow_le_mono_r; lia | apply N.mul_le_mono_r; lia].
  - unfold magf. destruct (N.eqb_spec e2 0); [lia|].
    apply N.mul_lt_mono_pos_r; [apply N.neq_0_lt_0, N.pow_nonzero; discriminate | lia].
  - unfold two52 in *. lia.
Qed.

Lemma f_mag_mono : forall a b, a < 2 ^ 64 -> b < 2 ^ 64 ->
  f_low a < f_low b -> f_mag_scaled a < f_mag_scaled b.
Proof.
  intros a b Ha Hb H. rewrite !f_mag_scaled_magf.
  destruct (f_fields a Ha) as (Hma & _ & _). destruct (f_fields b Hb) as (Hmb & _ & _).
  now apply magf_mono.
Qed.

(** The place of a double in the total order, as a signed number: the positive patterns count up
    from 0 and the negative ones down from -1.  The key is the rank moved up by 2^63, and the
    value denoted grows with the rank (strictly, but for the two zeros). *)
Definition f_rank (b : N) : Z := if f_sign b then (- 1 - Z.of_N (f_low b))%Z else Z.of_N (f_low b).

Lemma f_rank_inj : forall a b, a < 2 ^ 64 -> b < 2 ^ 64 -> f_rank a = f_rank b -> a = b.
Proof.
  intros a b Ha Hb E. unfold f_rank in E.
  apply f_low_inj; try assumption; destruct (f_sign a), (f_sign b); try reflexivity; lia.
Qed.

(** holds for [surf_f64_sign_shift] = 63 of Gen/Params.v: the bit tested and flipped is the sign bit *)
Lemma f64_key_rank : forall b, b < 2 ^ 64 ->
  f64_key b = Z.to_N (f_rank b + 2 ^ 63) /\ (- 2 ^ 63 <= f_rank b < 2 ^ 63)%Z.
Proof.
  intros b Hb. destruct (f_fields b Hb) as (_ & _ & Hd). pose proof (f_low_lt b Hb) as Hl.
  unfold f64_key, f_rank. change surf_f64_sign_shift with 63. fold (f_sign b).
  change (N.shiftl 1 63) with (2 ^ 63). unfold two64.
  destruct (f_sign b); [|rewrite lxor_flip_low by lia]; lia.
Qed.

(** sign-magnitude order of bit patterns (IEEE totalOrder) *)
Definition f64_total_cmp (a b : N) : comparison :=
  match f_sign a, f_sign b with
  | false, false => N.compare (f_low a) (f_low b)
  | true, true => N.compare (f_low b) (f_low a)
  | true, false => Lt
  | false, true => Gt
  end.

Lemma f64_total_rank : forall a b, f64_total_cmp a b = Z.compare (f_rank a) (f_rank b).
Proof.
  intros a b. unfold f64_total_cmp, f_rank. symmetry.
  destruct (f_sign a), (f_sign b);
    [destruct (N.compare_spec (f_low b) (f_low a)) | | | destruct (N.compare_spec (f_low a) (f_low b))];
    (apply Z.compare_eq_iff || apply Z.compare_lt_iff || apply Z.compare_gt_iff); lia.
Qed.

Theorem enc_f64_mono : forall a b, a < 2 ^ 64 -> b < 2 ^ 64 ->
  bytes_cmp (enc_f64 a) (enc_f64 b) = f64_total_cmp a b.
Proof.
  intros a b Ha Hb. unfold enc_f64.
  destruct (f64_key_rank a Ha) as [-> Ra]. destruct (f64_key_rank b Hb) as [-> Rb].
  rewrite f64_total_rank. now apply be8_offset.
Qed.

Lemma f_val_rank : forall a b, a < 2 ^ 64 -> b < 2 ^ 64 -> (f_rank a < f_rank b)%Z ->
  (f_val a <= f_val b)%Z /\ (f_val a = f_val b -> f_mag_scaled a = 0 /\ f_mag_scaled b = 0).
Proof.
  intros a b Ha Hb. unfold f_rank, f_val.
  pose proof (f_mag_mono a b Ha Hb). pose proof (f_mag_mono b a Hb Ha).
  destruct (f_sign a), (f_sign b); lia.
Qed.

(** A smaller real value ([f_val], the value scaled by 2^1074) has the smaller bit pattern.  The converse fails
    at -0 / +0, two patterns of one value; away from the zeros the two orders are one ([f_rank_val_compare],
    [enc_f64_value_order]). *)
Theorem f_val_lt_total : forall a b, a < 2 ^ 64 -> b < 2 ^ 64 ->
  (f_val a < f_val b)%Z -> f64_total_cmp a b = Lt.
Proof.
  intros a b Ha Hb H. rewrite f64_total_rank. apply Z.compare_lt_iff.
  destruct (Z.lt_trichotomy (f_rank a) (f_rank b)) as [L|[E|G]]; [exact L | |].
  - apply f_rank_inj in E; try assumption. subst b. lia.
  - apply f_val_rank in G; try assumption. lia.
Qed.

Lemma f_rank_val_compare : forall a b, a < 2 ^ 64 -> b < 2 ^ 64 ->
  f_mag_scaled a <> 0 -> f_mag_scaled b <> 0 ->
  Z.compare (f_rank a) (f_rank b) = Z.compare (f_val a) (f_val b).
Proof.
  intros a b Ha Hb Hza Hzb. symmetry. destruct (Z.compare_spec (f_rank a) (f_rank b)) as [E|L|G].
  - apply f_rank_inj in E; try assumption. subst b. apply Z.compare_refl.
  - apply Z.compare_lt_iff. apply f_val_rank in L; try assumption. lia.
  - apply Z.compare_gt_iff. apply f_val_rank in G; try assumption. lia.
Qed.

Theorem enc_f64_value_order : forall a b, a < 2 ^ 64 -> b < 2 ^ 64 ->
  f_mag_scaled a <> 0 -> f_mag_scaled b <> 0 ->
  bytes_cmp (enc_f64 a) (enc_f64 b) = Z.compare (f_val a) (f_val b).
Proof.
  intros a b Ha Hb Hza Hzb. rewrite enc_f64_mono, f64_total_rank by assumption. now apply f_rank_val_compare.
Qed.

(** Hypotheses [Some x = Some y] and [sval_wf _ = true] are taken apart with this lemma and
    [wf_float_lt] / [wf_str_lt] rather than with [injection] / [cbn in]: the kernel's
    conversion heuristics are poor on [N.ltb _ (2^64)] against a folded constant. *)
Lemma some_inj : forall (A : Type) (x y : A), Some x = Some y -> x = y.
Proof. intros A x y H. congruence. Qed.

Lemma f_int_mag_div : forall b, f_is_finite b = true ->
  f_int_mag b = if f_mag_scaled b mod 2 ^ 1074 =? 0 then Some (f_mag_scaled b / 2 ^ 1074) else None.
Proof.
  intros b Hfin. unfold f_is_finite in Hfin. unfold f_int_mag, f_mag_scaled.
  assert (Hm : f_man b < 2 ^ 1074).
  { apply (N.lt_trans _ two52); [apply N.mod_lt; discriminate | apply N.pow_lt_mono_r; lia]. }
  assert (P : forall n, 2 ^ n <> 0) by (intros n; apply N.pow_nonzero; discriminate).
  revert Hm Hfin. generalize (two52 + f_man b) as sig. generalize (f_exp b) as e, (f_man b) as m. intros e m sig Hm Hfin.
  destruct (N.eqb_spec e 2047) as [|_]; [discriminate Hfin|].
  destruct (N.eqb_spec e 0) as [E0|E0].
  - rewrite (N.mod_small _ _ Hm), (N.div_small _ _ Hm). destruct (m =? 0); reflexivity.
  - rewrite !N.shiftl_mul_pow2. destruct (N.leb_spec 1075 e) as [Hge|Hlt].
    + replace (e - 1) with (e - 1075 + 1074) by lia.
      now rewrite N.pow_add_r, N.mul_assoc, N.mod_mul, N.div_mul by apply P.
    + replace 1074 with (1075 - e + (e - 1)) by lia.
      rewrite N.land_ones, N.shiftr_div_pow2, N.pow_add_r, N.mul_mod_distr_r, N.div_mul_cancel_r by apply P.
      destruct (N.eqb_spec (sig mod 2 ^ (1075 - e)) 0) as [->|Hnz]; [reflexivity|].
      destruct (N.eqb_spec (sig mod 2 ^ (1075 - e) * 2 ^ (e - 1)) 0) as [Hz|]; [|reflexivity].
      apply N.eq_mul_0 in Hz as [Hz|Hz]; [contradiction | destruct (P _ Hz)].
Qed.

Lemma f_int_mag_scaled : forall b mag,
  f_int_mag b = Some mag -> f_mag_scaled b = mag * 2 ^ 1074.
Proof.
  intros b mag H. assert (Hfin : f_is_finite b = true).
  { unfold f_is_finite. unfold f_int_mag in H. destruct (f_exp b =? 2047); [discriminate H | reflexivity]. }
  rewrite (f_int_mag_div b Hfin) in H.
  destruct (N.eqb_spec (f_mag_scaled b mod 2 ^ 1074) 0) as [Hz|]; [|discriminate H].
  apply some_inj in H. subst mag. rewrite N.mul_comm. apply N.div_exact; [apply N.pow_nonzero; discriminate | exact Hz].
Qed.

(** the bound on [b] plays no part *)
Lemma f_int_mag_complete : forall b mag, b < 2 ^ 64 -> f_is_finite b = true ->
  f_mag_scaled b = mag * 2 ^ 1074 -> f_int_mag b = Some mag.
Proof.
  intros b mag _ Hfin H.
  now rewrite (f_int_mag_div b Hfin), H, N.mod_mul, N.div_mul by (apply N.pow_nonzero; discriminate).
Qed.

Lemma num_scale_eq : num_scale = Z.of_N (2 ^ 1074).
Proof. unfold num_scale. rewrite N2Z.inj_pow. reflexivity. Qed.

Lemma num_scale_pos : (0 < num_scale)%Z.
Proof. unfold num_scale. apply Z.pow_pos_nonneg; lia. Qed.

Lemma f_int_val : forall b mag, f_int_mag b = Some mag ->
  f_val b = if f_sign b then (- (Z.of_N mag * num_scale))%Z else (Z.of_N mag * num_scale)%Z.
Proof.
  intros b mag H. unfold f_val. rewrite (f_int_mag_scaled b mag H), N2Z.inj_mul, <- num_scale_eq.
  reflexivity.
Qed.

Local Opaque num_scale.

Lemma scale_compare : forall x y, Z.compare (x * num_scale) (y * num_scale) = Z.compare x y.
Proof.
  intros x y. pose proof num_scale_pos as HS.
  destruct (Z.compare_spec x y) as [->|H|H];
    [apply Z.compare_refl | apply Z.compare_lt_iff | apply Z.compare_gt_iff]; now apply Z.mul_lt_mono_pos_r.
Qed.

Lemma f_mag_zero : forall b, f_mag_scaled b = 0 -> f_is_finite b = true /\ f_int_mag b = Some 0.
Proof.
  intros b Hz. unfold f_mag_scaled in Hz. unfold f_is_finite, f_int_mag.
  destruct (N.eqb_spec (f_exp b) 0) as [E0|E0].
  - rewrite E0, Hz. split; reflexivity.
  - exfalso. rewrite N.shiftl_mul_pow2 in Hz. apply N.eq_mul_0 in Hz as [Hz|Hz].
    + unfold two52 in Hz. lia.
    + revert Hz. apply N.pow_nonzero. lia.
Qed.

Lemma float_lane : forall b, match float_route b with RI _ | RU _ | RF _ => True | _ => False end.
Proof.
  intros b. unfold float_route.
  destruct (f_is_finite b); [|exact I]. destruct (f_int_mag b); [|exact I].
  destruct (_ <=? _); [exact I|]. destruct (negb _); exact I.
Qed.

Lemma parse_i64_range : forall s z, parse_i64 s = Some z -> (- 2 ^ 63 <= z < 2 ^ 63)%Z.
Proof.
  intros s z. unfold parse_i64, two63. 
  destruct s as [|c r]; [discriminate|].
  destruct (c =? 43).
  - destruct (digits_nonempty r) as [n|]; [|discriminate].
    destruct (N.ltb_spec n (2 ^ 63)); [|discriminate]. intros [= <-]. lia.
  - destruct (c =? 45).
    + destruct (digits_nonempty r) as [n|]; [|discriminate].
      destruct (N.leb_spec n (2 ^ 63)); [|discriminate]. intros [= <-]. lia.
    + destruct (digits_val (c :: r) 0) as [n|]; [|discriminate].
      destruct (N.ltb_spec n (2 ^ 63)); [|discriminate]. intros [= <-]. lia.
Qed.

Lemma parse_u64_range : forall s n, parse_u64 s = Some n -> n < 2 ^ 64.
Proof.
  intros s n. unfold parse_u64, two64.
  destruct s as [|c r]; [discriminate|].
  destruct (c =? 43).
  - destruct (digits_nonempty r) as [m|]; [|discriminate].
    destruct (N.ltb_spec m (2 ^ 64)); [|discriminate]. now intros [= <-].
  - destruct (digits_val (c :: r) 0) as [m|]; [|discriminate].
    destruct (N.ltb_spec m (2 ^ 64)); [|discriminate]. now intros [= <-].
Qed.

Lemma f_num_some : forall b x, f_num b = Some x -> f_is_nan b = false /\ x = f_val b.
Proof. intros b x. unfold f_num. destruct (f_is_nan b); [discriminate|]. now intros [= <-]. Qed.

(** [x] (scaled by 2^1074) is the number that the lane coordinate of [r] stands for *)
Definition denotes (r : route) (x : Z) : Prop :=
  match r with
  | RI z => x = (z * num_scale)%Z /\ (- 2 ^ 63 <= z < 2 ^ 63)%Z
  | RU n => x = (Z.of_N n * num_scale)%Z /\ n < 2 ^ 64
  | RF b => x = f_val b /\ f_mag_scaled b <> 0 /\ b < 2 ^ 64
  | _ => False
  end.

Lemma float_lane_exact : forall b x, b < 2 ^ 64 -> f_num b = Some x -> f_saturates b = false ->
  denotes (float_route b) x.
Proof.
  intros b x Hb Hn Hsat. apply f_num_some in Hn as [_ ->]. unfold float_route, f_saturates in *.
  (* the f64 lane holds no zero: a zero is finite and an integer *)
  assert (RFb : (f_is_finite b = true -> f_int_mag b = Some 0 -> False) -> denotes (RF b) (f_val b)).
  { intros H. repeat split; [|exact Hb]. intros Hz. destruct (f_mag_zero b Hz) as [F I]. exact (H F I). }
  destruct (f_is_finite b) eqn:Hfin; [|apply RFb; discriminate].
  destruct (f_int_mag b) as [mag|] eqn:Hm; [|apply RFb; discriminate].
  pose proof (f_int_val b mag Hm) as Hv. unfold two63, two64 in *.
  destruct (N.leb_spec mag (2 ^ 63)) as [Hle|Hgt].
  - cbn [denotes]. rewrite Hv. destruct (f_sign b); cbn [negb andb] in Hsat.
    + split; [now rewrite Z.mul_opp_l | lia].
    + rewrite Z.min_l by lia. split; [reflexivity | lia].
  - destruct (f_sign b); cbn [negb andb] in Hsat |- *.
    + apply RFb. intros _ E. apply some_inj in E. lia.
    + rewrite Hv, N.min_l by lia. split; [reflexivity | lia].
Qed.

Lemma wf_float_lt : forall b, sval_wf (VFloat b) = true -> b < 2 ^ 64.
Proof. intros b H. apply N.ltb_lt in H. exact H. Qed.
Lemma wf_str_lt : forall s f, sval_wf (VStr s (Some f)) = true -> f < 2 ^ 64.
Proof. intros s f H. apply N.ltb_lt in H. exact H. Qed.
Lemma wf_int_range : forall z, i64_ok z = true -> (- 2 ^ 63 <= z < 2 ^ 63)%Z.
Proof.
  intros z H. apply andb_prop in H as [H1 H2]. apply Z.leb_le in H1. apply Z.ltb_lt in H2. split; assumption.
Qed.
Lemma sat_float : forall b, saturates (VFloat b) = f_saturates b.
Proof. reflexivity. Qed.

Lemma lane_exact : forall v x, sval_wf v = true -> num_of v = Some x -> saturates v = false ->
  denotes (route_of v) x.
Proof.
  intros v x Hwf Hn Hsat. destruct v as [|bb|z|z|b|s h|]; try discriminate Hn.
  - apply some_inj in Hn. subst x. split; [reflexivity|]. now apply wf_int_range.
  - apply some_inj in Hn. subst x. split; [reflexivity|]. now apply wf_int_range.
  - exact (float_lane_exact b x (wf_float_lt b Hwf) Hn Hsat).
  - unfold saturates, float_of in Hsat. unfold num_of in Hn. unfold route_of.
    destruct (parse_i64 s) as [i|] eqn:Hi.
    + apply some_inj in Hn. subst x. split; [reflexivity|]. now apply parse_i64_range in Hi.
    + destruct (parse_u64 s) as [u|] eqn:Hu.
      * apply some_inj in Hn. subst x. split; [reflexivity|]. now apply parse_u64_range in Hu.
      * destruct h as [f|]; [|discriminate Hn].
        exact (float_lane_exact f x (wf_str_lt s f Hwf) Hn Hsat).
Qed.

Theorem same_lane_key_order : forall v p l,
  sval_wf v = true -> sval_wf p = true ->
  saturates v = false -> saturates p = false ->
  lane_of v = Some l -> lane_of p = Some l ->
  exists kv kp a b,
    encode_value v = Some kv /\ encode_value p = Some kp /\
    num_of v = Some a /\ num_of p = Some b /\
    length kv = 8%nat /\ length kp = 8%nat /\
    bytes_cmp kv kp = Z.compare a b.
Proof.
  intros v p l Wv Wp Sv Sp Lv Lp. unfold lane_of in Lv, Lp.
  destruct (num_of v) as [a|] eqn:Na; [|discriminate].
  destruct (num_of p) as [b|] eqn:Nb; [|discriminate].
  pose proof (lane_exact v a Wv Na Sv) as Ev. pose proof (lane_exact p b Wp Nb Sp) as Ep.
  unfold encode_value.
  destruct (route_of v) as [zv|nv|bv| |]; try discriminate;
    destruct (route_of p) as [zp|np|bp| |]; try discriminate;
    injection Lv as <-; try discriminate; clear Lp; cbn [enc_route].
  - destruct Ev as (-> & Rv). destruct Ep as (-> & Rp).
    exists (enc_i64 zv), (enc_i64 zp), (zv * num_scale)%Z, (zp * num_scale)%Z.
    repeat split. rewrite scale_compare. now apply enc_i64_mono.
  - destruct Ev as (-> & Rv). destruct Ep as (-> & Rp).
    exists (enc_u64 nv), (enc_u64 np), (Z.of_N nv * num_scale)%Z, (Z.of_N np * num_scale)%Z.
    repeat split. rewrite scale_compare, enc_u64_mono by assumption.
    now rewrite N2Z.inj_compare.
  - destruct Ev as (-> & Zv & Bv). destruct Ep as (-> & Zp & Bp).
    exists (enc_f64 bv), (enc_f64 bp), (f_val bv), (f_val bp).
    repeat split. now apply enc_f64_value_order.
Qed.

Lemma enc_route_len8 : forall r k, enc_route r = Some k ->
  match r with RI _ | RU _ | RF _ => length k = 8%nat | _ => True end.
Proof. intros [z|n|b|raw|] k H; cbn [enc_route] in H; try exact I; now injection H as <-. Qed.

Theorem f64_bits_order_is_value_order : forall a b, a < 2 ^ 64 -> b < 2 ^ 64 ->
  ((f_val a < f_val b)%Z -> f64_total_cmp a b = Lt) /\
  (f_mag_scaled a <> 0 -> f_mag_scaled b <> 0 ->
   bytes_cmp (enc_f64 a) (enc_f64 b) = Z.compare (f_val a) (f_val b)).
Proof.
  intros a b Ha Hb. split; [now apply f_val_lt_total|now apply enc_f64_value_order].
Qed.

(** 1.5 < 2.5, -2.5 < 1.5 *)
Example f64_order_inhabited :
  (f_val 4609434218613702656 < f_val 4612811918334230528)%Z /\
  (f_val 13836183955189006336 < f_val 4609434218613702656)%Z /\
  f_mag_scaled 4609434218613702656 <> 0.
Proof. repeat apply conj; vm_compute; congruence. Qed.

(** the integer 7 and the integral double 9.0 *)
Example same_lane_inhabited :
  sval_wf (VInt 7) = true /\ sval_wf (VFloat 4621256167635550208) = true /\
  saturates (VInt 7) = false /\ saturates (VFloat 4621256167635550208) = false /\
  lane_of (VInt 7) = Some LI /\ lane_of (VFloat 4621256167635550208) = Some LI.
Proof. repeat apply conj; vm_compute; reflexivity. Qed.
