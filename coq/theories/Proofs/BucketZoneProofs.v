(** Proofs about Model/BucketZone.v (C16).  Two general facts: a zone without transitions is the fixed-offset
    model, and a sequence of rows is bucketed row by row.  What [bucket_zone_with] answers next to a transition
    (skipped or repeated wall-clock time) has no general lemma; it is shown on the closed example at the end. *)
From Coq Require Import ZArith Lia List.
From Snel Require Import Gen.Params Model.Bucket Model.BucketTz Model.BucketZone.
Import ListNotations.
Open Scope Z_scope.

Lemma bucket_zone_fixed : forall strict ws off secs g,
  bucket_zone_with strict ws (off, []) secs g = Some (calendar_bucket_secs_off ws off secs g).
Proof.
  intros strict ws off secs g. unfold bucket_zone_with, calendar_bucket_secs_off.
  change (offset_at (off, []) secs) with off.
  generalize (calendar_bucket_secs ws (secs + off) g).
  intro b. unfold resolve_local, zone_offsets, offset_at. cbn [fst snd map offset_from filter].
  replace (b - (b - off)) with off by lia. rewrite Z.eqb_refl. cbn [nodup In].
  destruct (in_dec Z.eq_dec (b - off) []) as [H | _]; [destruct H |]. reflexivity.
Qed.

Lemma sink_bucket_is_pure_flag : sink_bucket_is_pure = true.
Proof. reflexivity. Qed.

Lemma bucket_zone_seq_pointwise : forall ws zn g pre secs post,
  nth_error (bucket_zone_seq ws zn g (pre ++ secs :: post)) (length pre) = Some (bucket_zone ws zn secs g).
Proof.
  intros. unfold bucket_zone_seq. rewrite sink_bucket_is_pure_flag, map_app. cbn [map].
  rewrite nth_error_app2; rewrite map_length; [| lia]. rewrite Nat.sub_diag. reflexivity.
Qed.

(** Two zones in 2024.  US/Eastern (EST -18000, EDT from 1710054000, EST from 1730613600), all conjuncts but
    the last: Monday 2024-03-11 00:30 EDT lies in Monday's day bucket although it is less than 86400 s after the
    start of Sunday's (the spring-forward day has 23 hours); in the repeated hour of the fall-back
    [unwrap] panics, the resolved form answers the hour of the occurrence.  America/Havana, the last conjunct:
    2024-03-10 has no 00:00 (CST -18000 -> CDT -14400 at 1710046800), the day starts at 01:00 CDT. *)
Example us_eastern_2024 :
  let zn := (-18000, [(1710054000, -14400); (1730613600, -18000)]) in
  (forall strict, bucket_zone_with strict 0 zn 1710086400 GDay = Some 1710046800) /\
  (forall strict, bucket_zone_with strict 0 zn 1710131400 GDay = Some 1710129600) /\
  1710131400 - 1710046800 < 86400 /\
  bucket_zone_with true 0 zn 1730611800 GHour = None /\
  bucket_zone_with false 0 zn 1730611800 GHour = Some 1730610000 /\
  bucket_zone_with false 0 zn 1730615400 GHour = Some 1730613600 /\
  bucket_zone_with false 0 (-18000, [(1710046800, -14400)]) 1710072000 GDay = Some 1710046800.
Proof. repeat apply conj; try (intros []); vm_compute; reflexivity. Qed.
