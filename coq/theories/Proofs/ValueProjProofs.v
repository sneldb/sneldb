(** C07: RETURN projection (compute_return_projection) and the column order of the
    memtable flow. *)
From Coq Require Import ZArith List Bool Lia.
From Snel Require Import Base.Bytes Model.ValueTiers Gen.Params.
From Snel Require Import Proofs.BytesFacts Proofs.ListFacts.
Import ListNotations.

Lemma mem_bytes_In : forall s l, mem_bytes s l = true <-> In s l.
Proof. apply (mem_In bytes_eqb mem_bytes bytes_eqb_eq); reflexivity. Qed.

Lemma position_from_spec : forall cols i name k,
  position_from i name cols = Some k ->
  exists j, k = (i + j)%nat /\ (j < length cols)%nat /\ nth j cols [] = name.
Proof.
  induction cols as [|c r IH]; intros i name k H; cbn [position_from] in H; [discriminate|].
  destruct (bytes_eqb c name) eqn:E.
  - injection H as <-. apply bytes_eqb_eq in E. subst c. exists 0%nat. cbn [length nth]. repeat split; lia.
  - destruct (IH (S i) name k H) as (j & -> & H2 & H3). exists (S j). cbn [length nth]. repeat split; [lia|lia|exact H3].
Qed.

Lemma position_spec : forall cols name k,
  position name cols = Some k -> (k < length cols)%nat /\ nth k cols [] = name.
Proof. intros cols name k H. destruct (position_from_spec cols 0 name k H) as (j & -> & H2 & H3). split; assumption. Qed.

Lemma position_from_some : forall cols i name, In name cols -> exists k, position_from i name cols = Some k.
Proof.
  induction cols as [|c r IH]; intros i name Hin; [destruct Hin|].
  cbn [position_from]. destruct (bytes_eqb c name) eqn:E; [eexists; reflexivity|].
  destruct Hin as [->|Hin]; [rewrite bytes_eqb_refl in E; discriminate|]. apply IH, Hin.
Qed.
Lemma position_some : forall cols name, In name cols -> exists k, position name cols = Some k.
Proof. intros. apply position_from_some. assumption. Qed.

Lemma fold_left_In : forall (step : list nat -> bytes -> list nat) (Q : bytes -> nat -> Prop),
  (forall acc f i, In i (step acc f) <-> In i acc \/ Q f i) ->
  forall fs acc i, In i (fold_left step fs acc) <-> In i acc \/ exists f, In f fs /\ Q f i.
Proof.
  intros step Q Hstep. induction fs as [|f fs IH]; intros acc i; cbn [fold_left].
  - split; [auto|intros [H|(f & [] & _)]; exact H].
  - rewrite IH, Hstep. split.
    + intros [[H|H]|(g & Hg & H)]; [left; exact H|right; exists f; split; [left; reflexivity|exact H]|].
      right. exists g. split; [right; exact Hg|exact H].
    + intros [H|(g & [<-|Hg] & H)]; [left; left; exact H|left; right; exact H|right; exists g; auto].
Qed.

Section Proj.
  Variable cols fields : list bytes.

  Lemma add_core_In : forall acc f i, In i (add_core cols acc f) <-> In i acc \/ position f cols = Some i.
  Proof.
    intros acc f i. unfold add_core. destruct (position f cols) as [k|].
    - rewrite in_app_iff. cbn [In]. split; [intros [H|[<-|[]]]; auto|intros [H|[= ->]]; auto].
    - split; [auto|intros [H|H]; [exact H|discriminate H]].
  Qed.

  (** the duplicate test only skips an index that is already there *)
  Lemma add_return_In : forall acc f i,
    In i (add_return cols fields acc f) <-> In i acc \/ (mem_bytes f fields = true /\ position f cols = Some i).
  Proof.
    intros acc f i. unfold add_return. destruct (mem_bytes f fields); [|split; [auto|intros [H|[H _]]; [exact H|discriminate H]]].
    destruct (position f cols) as [k|]; [|split; [auto|intros [H|[_ H]]; [exact H|discriminate H]]].
    destruct (existsb (Nat.eqb k) acc) eqn:E.
    - split; [auto|intros [H|[_ [= ->]]]; [exact H|]]. apply (existsb_eqb_In Nat.eqb Nat.eqb_eq), E.
    - rewrite in_app_iff. cbn [In]. split; [intros [H|[<-|[]]]; auto|intros [H|[_ [= ->]]]; auto].
  Qed.

  Lemma is_core_In : forall f, In f core_fields -> is_core f = true.
  Proof. intros f H. unfold is_core. apply mem_bytes_In, H. Qed.

  Definition selected (ret : option (list bytes)) (name : bytes) : Prop :=
    match ret with
    | Some ((_ :: _) as fs) => is_core name = true \/ (In name fs /\ mem_bytes name fields = true)
    | _ => True
    end.

  Lemma selected_core : forall ret c, In c core_fields -> selected ret c.
  Proof. intros [[|f0 fs]|] c Hc; cbn [selected]; auto using is_core_In. Qed.

  Lemma selected_return : forall fs f, In f fs -> mem_bytes f fields = true -> selected (Some fs) f.
  Proof. intros [|f0 fs] f Hf Hm; [destruct Hf|right; auto]. Qed.

  Lemma selected_inv : forall fs name, fs <> [] -> selected (Some fs) name ->
    is_core name = true \/ (In name fs /\ mem_bytes name fields = true).
  Proof. intros [|f0 fs] name Hne H; [contradiction|exact H]. Qed.

  Lemma projection_In : forall f0 fs i,
    In i (projection cols (Some (f0 :: fs)) fields) <->
    exists name, selected (Some (f0 :: fs)) name /\ position name cols = Some i.
  Proof.
    intros f0 fs i. unfold projection.
    rewrite (fold_left_In _ _ add_return_In), (fold_left_In _ _ add_core_In). cbn [In]. split.
    - intros [[[]|(c & Hc & Hp)]|(f & Hf & Hm & Hp)]; [exists c|exists f]; auto using selected_core, selected_return.
    - intros (name & [Hc|[Hf Hm]] & Hp); [apply mem_bytes_In in Hc; left|]; right; exists name; auto.
  Qed.

  Lemma projection_sound : forall ret i, In i (projection cols ret fields) ->
    (i < length cols)%nat /\ selected ret (nth i cols []).
  Proof.
    intros ret i Hi.
    assert (Hid : In i (seq 0 (length cols)) -> (i < length cols)%nat) by (intro H; apply in_seq in H; lia).
    (* no RETURN list, or an empty one: every index, and [selected] is [True] *)
    destruct ret as [[|f0 fs]|]; [exact (conj (Hid Hi) I)| |exact (conj (Hid Hi) I)].
    apply projection_In in Hi. destruct Hi as (name & Hs & Hp).
    destruct (position_spec _ _ _ Hp) as [Hlt <-]. split; assumption.
  Qed.

  Lemma projection_complete : forall ret name, In name cols -> selected ret name ->
    exists i, In i (projection cols ret fields) /\ (i < length cols)%nat /\ nth i cols [] = name.
  Proof.
    intros ret name Hin Hs. destruct (position_some cols name Hin) as [k Hk].
    destruct (position_spec _ _ _ Hk) as [Hlt Hn]. exists k. split; [|auto].
    assert (Hid : In k (seq 0 (length cols))) by (apply in_seq; lia).
    destruct ret as [[|f0 fs]|]; [exact Hid| |exact Hid].
    apply projection_In. exists name. auto.
  Qed.

End Proj.

Lemma nth_map_lt : forall (A B : Type) (f : A -> B) l i d d', (i < length l)%nat -> nth i (map f l) d = f (nth i l d').
Proof.
  intros A B f l. induction l as [|x l IH]; intros i d d' H; cbn [length] in H; [lia|].
  destruct i as [|i]; cbn [map nth]; [reflexivity|]. apply IH. lia.
Qed.

(** [cols] twice: the source fills the row in the order of the batch schema *)
Theorem flow_row_exact : forall (A : Type) (d : A) cols ret fields (ev : bytes -> A) name val,
  In (name, val) (flow_row d cols cols ret fields ev) <->
  In name cols /\ selected fields ret name /\ val = ev name.
Proof.
  intros A d cols ret fields ev name val. unfold flow_row, project_cols, project_row.
  rewrite combine_map_map, in_map_iff. split.
  - intros (i & [= <- <-] & Hi). destruct (projection_sound cols fields ret i Hi) as [Hlt Hs].
    split; [apply nth_In, Hlt|]. split; [exact Hs|]. apply nth_map_lt, Hlt.
  - intros (Hin & Hs & ->). destruct (projection_complete cols fields ret name Hin Hs) as (i & Hi & Hlt & <-).
    exists i. split; [|exact Hi]. f_equal. apply nth_map_lt, Hlt.
Qed.

Theorem projection_exact : forall (A : Type) (d : A) cols ret fields (ev : bytes -> A),
  (forall name val, In (name, val) (flow_row d cols cols ret fields ev) -> val = ev name /\ In name cols) /\
  (forall fs name val, ret = Some fs -> fs <> [] -> In (name, val) (flow_row d cols cols ret fields ev) ->
     is_core name = true \/ (In name fs /\ mem_bytes name fields = true)) /\
  (forall c, In c core_fields -> In c cols -> In (c, ev c) (flow_row d cols cols ret fields ev)) /\
  (forall fs f, ret = Some fs -> In f fs -> mem_bytes f fields = true -> In f cols ->
     In (f, ev f) (flow_row d cols cols ret fields ev)) /\
  (forall f, (ret = None \/ ret = Some []) -> In f cols -> In (f, ev f) (flow_row d cols cols ret fields ev)).
Proof.
  intros A d cols ret fields ev. repeat split.
  - apply flow_row_exact in H. apply H.
  - apply flow_row_exact in H. apply H.
  - intros fs name val -> Hne H. apply flow_row_exact in H. apply (selected_inv fields fs name Hne), H.
  - intros c Hc Hin. apply flow_row_exact. auto using selected_core.
  - intros fs f -> Hin Hm Hc. apply flow_row_exact. auto using selected_return.
  - intros f [-> | ->] Hc; apply flow_row_exact; repeat split; exact Hc.
Qed.

Definition nm (l : list N) : bytes := l.
Definition f_a : bytes := [97]%N.
Definition f_b : bytes := [98]%N.
Definition ev_ab (name : bytes) : Z :=
  if bytes_eqb name f_a then 1%Z else if bytes_eqb name f_b then 2%Z else 0%Z.

(** The memtable flow computes the column list twice.  The requested names are appended in RETURN order
    ([value_return_order_stable], sneldb f2ae870), so the two lists coincide whatever the HashSet orders [o1], [o2]
    would be. *)
Lemma return_order_param : value_return_order_stable = true.
Proof. reflexivity. Qed.

Theorem memtable_flow_order_independent : forall (A : Type) (d : A) fc ret fields o1 o2 (ev : bytes -> A),
  memtable_flow_row d fc ret fields o1 o2 ev =
  let cols := selection_columns fc (requested ret fields) in flow_row d cols cols (Some ret) fields ev.
Proof.
  intros. unfold memtable_flow_row, selection_columns_ret, appended_order. rewrite return_order_param. reflexivity.
Qed.

Lemma In_dedup_acc : forall l seen x, In x l -> mem_bytes x seen = false -> In x (dedup_acc seen l).
Proof.
  induction l as [|y l IH]; intros seen x Hin Hs; [destruct Hin|]. cbn [dedup_acc].
  destruct (bytes_eqb x y) eqn:E.
  - apply bytes_eqb_eq in E. subst y. rewrite Hs. left. reflexivity.
  - destruct Hin as [->|Hin]; [rewrite bytes_eqb_refl in E; discriminate|].
    destruct (mem_bytes y seen); [apply IH; assumption|].
    right. apply IH; [exact Hin|]. cbn [mem_bytes]. rewrite E, Hs. reflexivity.
Qed.

Lemma In_selection_columns : forall fc o x, In x core_fields \/ In x fc \/ In x o -> In x (selection_columns fc o).
Proof. intros fc o x H. apply In_dedup_acc; [|reflexivity]. rewrite !in_app_iff. tauto. Qed.

Lemma In_requested : forall ret fields f, In f ret -> mem_bytes f fields = true -> In f (requested ret fields).
Proof. intros ret fields f Hf Hm. apply filter_In. split; [exact Hf|]. rewrite Hm. apply orb_true_r. Qed.

(** under a non-empty RETURN list the first conjunct follows from the second ([In_selection_columns], [In_requested]) *)
Theorem memtable_flow_row_exact : forall (A : Type) (d : A) fc ret fields o1 o2 (ev : bytes -> A) name val,
  In (name, val) (memtable_flow_row d fc ret fields o1 o2 ev) <->
  In name (selection_columns fc (requested ret fields)) /\ selected fields (Some ret) name /\ val = ev name.
Proof. intros. rewrite memtable_flow_order_independent. apply flow_row_exact. Qed.

Theorem memtable_flow_exact : forall (A : Type) (d : A) fc ret fields o1 o2 (ev : bytes -> A),
  (forall name val, In (name, val) (memtable_flow_row d fc ret fields o1 o2 ev) -> val = ev name) /\
  (forall name val, ret <> [] -> In (name, val) (memtable_flow_row d fc ret fields o1 o2 ev) ->
     is_core name = true \/ (In name ret /\ mem_bytes name fields = true)) /\
  (forall c, In c core_fields -> In (c, ev c) (memtable_flow_row d fc ret fields o1 o2 ev)) /\
  (forall f, In f ret -> mem_bytes f fields = true -> In (f, ev f) (memtable_flow_row d fc ret fields o1 o2 ev)).
Proof.
  intros A d fc ret fields o1 o2 ev. repeat split.
  - intros name val H. apply memtable_flow_row_exact in H. apply H.
  - intros name val Hne H. apply memtable_flow_row_exact in H. apply (selected_inv fields ret name Hne), H.
  - intros c Hc. apply memtable_flow_row_exact. split; [apply In_selection_columns; left; exact Hc|].
    split; [apply selected_core, Hc|reflexivity].
  - intros f Hf Hm. apply memtable_flow_row_exact.
    split; [apply In_selection_columns; right; right; apply In_requested; assumption|].
    split; [apply selected_return; assumption|reflexivity].
Qed.

(** two set orders that differ on a and b *)
Example memtable_flow_former_witness :
  memtable_flow_row 0%Z [] [f_a; f_b] [f_a; f_b] [f_a; f_b] [f_b; f_a] ev_ab
  = [(nth 0 core_fields [], 0%Z); (nth 1 core_fields [], 0%Z); (nth 2 core_fields [], 0%Z); (nth 3 core_fields [], 0%Z);
     (f_a, 1%Z); (f_b, 2%Z)].
Proof. vm_compute. reflexivity. Qed.

Example projection_example :
  flow_row 0%Z (selection_columns [] [f_b; f_a]) (selection_columns [] [f_b; f_a]) (Some [f_a; f_b]) [f_a; f_b] ev_ab
  = [(nth 0 core_fields [], 0%Z); (nth 1 core_fields [], 0%Z); (nth 2 core_fields [], 0%Z); (nth 3 core_fields [], 0%Z);
     (f_a, 1%Z); (f_b, 2%Z)].
Proof. vm_compute. reflexivity. Qed.

(** With [value_return_order_stable] off the requested names would be appended in a HashSet's order; even then the
    column list is the same whenever at most one requested name is neither core nor a WHERE column
    ([selection_columns_stable]).  With the flag on, as regenerated, [appended_order] does not read the order, and
    no theorem above uses what follows. *)
Lemma mem_bytes_app : forall x a b, mem_bytes x (a ++ b) = mem_bytes x a || mem_bytes x b.
Proof. intros x a b. induction a as [|y a IH]; cbn [app mem_bytes]; [reflexivity|]. rewrite IH, orb_assoc. reflexivity. Qed.

Lemma dedup_acc_ext : forall l s1 s2,
  (forall x, In x l -> mem_bytes x s1 = mem_bytes x s2) -> dedup_acc s1 l = dedup_acc s2 l.
Proof.
  induction l as [|x l IH]; intros s1 s2 H; cbn [dedup_acc]; [reflexivity|].
  rewrite <- (H x (or_introl eq_refl)). destruct (mem_bytes x s1).
  - apply IH. intros y Hy. apply H. right. exact Hy.
  - f_equal. apply IH. intros y Hy. cbn [mem_bytes]. rewrite (H y (or_intror Hy)). reflexivity.
Qed.

Lemma dedup_acc_app : forall a b seen,
  dedup_acc seen (a ++ b) = dedup_acc seen a ++ dedup_acc (a ++ seen) b.
Proof.
  induction a as [|x a IH]; intros b seen; cbn [app dedup_acc]; [reflexivity|].
  destruct (mem_bytes x seen) eqn:E.
  - rewrite IH. f_equal. apply dedup_acc_ext. intros y _. cbn [mem_bytes]. rewrite !mem_bytes_app.
    destruct (bytes_eqb y x) eqn:Eq; [|reflexivity]. apply bytes_eqb_eq in Eq. subst y. rewrite E.
    rewrite orb_true_r. reflexivity.
  - cbn [app]. f_equal. rewrite IH. f_equal. apply dedup_acc_ext. intros y _. cbn [mem_bytes]. rewrite !mem_bytes_app.
    cbn [mem_bytes]. destruct (bytes_eqb y x), (mem_bytes y a), (mem_bytes y seen); reflexivity.
Qed.

Lemma mem_bytes_false_notin : forall x l, ~ In x l -> mem_bytes x l = false.
Proof. intros x l H. destruct (mem_bytes x l) eqn:E; [|reflexivity]. apply mem_bytes_In in E. contradiction. Qed.

Lemma dedup_acc_nodup : forall o seen, NoDup o ->
  dedup_acc seen o = filter (fun x => negb (mem_bytes x seen)) o.
Proof.
  induction o as [|x o IH]; intros seen Hnd; cbn [dedup_acc filter]; [reflexivity|].
  inversion Hnd as [|? ? Hx Hnd'].
  destruct (mem_bytes x seen); cbn [negb].
  - apply IH, Hnd'.
  - f_equal. rewrite <- IH by exact Hnd'. apply dedup_acc_ext. intros y Hy. cbn [mem_bytes].
    destruct (bytes_eqb y x) eqn:Eq; [|reflexivity]. apply bytes_eqb_eq in Eq. subst y. contradiction.
Qed.

Lemma short_lists_equal : forall (l1 l2 : list bytes),
  NoDup l1 -> NoDup l2 -> (forall x, In x l1 <-> In x l2) -> (length l1 <= 1)%nat -> l1 = l2.
Proof.
  intros l1 l2 N1 N2 H Hlen.
  assert (Hl2 : (length l2 <= length l1)%nat).
  { apply NoDup_incl_length; [exact N2|]. intros x Hx. apply H, Hx. }
  destruct l1 as [|a [|a' l1]]; cbn [length] in *; try lia.
  - destruct l2 as [|b l2]; [reflexivity|]. cbn [length] in Hl2. lia.
  - destruct l2 as [|b [|b' l2]]; cbn [length] in Hl2; try lia.
    + exfalso. apply (proj1 (H a)). left. reflexivity.
    + f_equal. destruct (proj2 (H b) (or_introl eq_refl)) as [E|[]]. exact E.
Qed.

Lemma selection_columns_nodup : forall fc o, NoDup o ->
  selection_columns fc o =
  dedup (core_fields ++ fc) ++ filter (fun f => negb (is_core f) && negb (mem_bytes f fc)) o.
Proof.
  intros fc o N. unfold selection_columns, dedup. rewrite app_assoc. set (pre := core_fields ++ fc).
  rewrite (dedup_acc_app pre), app_nil_r, (dedup_acc_app o), (dedup_acc_nodup o) by exact N. f_equal.
  (* event_id is a core field, hence in [pre] *)
  replace (dedup_acc (o ++ pre) [event_id_name]) with (@nil bytes).
  - rewrite app_nil_r. apply filter_ext. intros x. unfold pre, is_core. rewrite mem_bytes_app, negb_orb. reflexivity.
  - cbn [dedup_acc]. unfold pre. rewrite !mem_bytes_app.
    replace (mem_bytes event_id_name core_fields) with true by reflexivity. rewrite orb_true_r. reflexivity.
Qed.

Theorem selection_columns_stable : forall fc o1 o2,
  NoDup o1 -> NoDup o2 -> (forall x, In x o1 <-> In x o2) ->
  (length (filter (fun f => negb (is_core f) && negb (mem_bytes f fc)) o1) <= 1)%nat ->
  selection_columns fc o1 = selection_columns fc o2.
Proof.
  intros fc o1 o2 N1 N2 Hsame Hlen. rewrite !selection_columns_nodup by assumption. f_equal.
  apply short_lists_equal; [apply NoDup_filter, N1|apply NoDup_filter, N2| |exact Hlen].
  intros x. rewrite !filter_In, Hsame. reflexivity.
Qed.

(** a WHERE column listed in RETURN after another field sits at another position in the input than in the output *)
Theorem where_return_exact : forall (A : Type) (d : A) fc ret fields o1 o2 (ev : bytes -> A),
  (forall name val,
     In (name, val) (flow_row d (selection_columns_ret fc ret fields o1) (selection_columns_ret fc ret fields o1)
                              (Some ret) fields ev) -> val = ev name) /\
  (forall name val, In (name, val) (memtable_flow_row d fc ret fields o1 o2 ev) -> val = ev name).
Proof.
  intros A d fc ret fields o1 o2 ev. split; intros name val H.
  - apply flow_row_exact in H. apply H.
  - apply memtable_flow_row_exact in H. apply H.
Qed.

(** QUERY t WHERE b = 2 RETURN [a, b]: b is loaded before a, returned after it *)
Example where_return_example :
  selection_columns_ret [f_b] [f_a; f_b] [f_a; f_b] [] =
    [nth 0 core_fields []; nth 1 core_fields []; nth 2 core_fields []; nth 3 core_fields []; f_b; f_a] /\
  memtable_flow_row 0%Z [f_b] [f_a; f_b] [f_a; f_b] [] [] ev_ab
  = [(nth 0 core_fields [], 0%Z); (nth 1 core_fields [], 0%Z); (nth 2 core_fields [], 0%Z); (nth 3 core_fields [], 0%Z);
     (f_a, 1%Z); (f_b, 2%Z)].
Proof. split; vm_compute; reflexivity. Qed.
