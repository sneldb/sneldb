(** Proofs about Model/Materialize.v (C14). *)
From Coq Require Import NArith Compare_dec List Bool Lia Permutation.
From Coq Require Import ZifyBool ZifyNat ZifyN.
From Snel Require Import Gen.Params Model.Materialize Proofs.ListFacts Proofs.AssocFacts.
Import ListNotations.
Open Scope N_scope.

Lemma mlt_spec : forall a b, mlt a b = true <-> (fst a < fst b \/ (fst a = fst b /\ snd a < snd b)).
Proof.
  intros [a1 a2] [b1 b2]; unfold mlt; cbn [fst snd].
  rewrite orb_true_iff, andb_true_iff, !N.ltb_lt, N.eqb_eq. tauto.
Qed.

Lemma mle_true : forall a b, mle a b = true <-> mlt b a = false.
Proof. intros a b. apply negb_true_iff. Qed.

Lemma mle_false : forall a b, mle a b = false <-> mlt b a = true.
Proof. intros a b. apply negb_false_iff. Qed.

Lemma mle_spec : forall a b, mle a b = true <-> (fst a < fst b \/ (fst a = fst b /\ snd a <= snd b)).
Proof. intros a b. rewrite mle_true, <- not_true_iff_false, mlt_spec. lia. Qed.

Lemma mle_refl : forall a, mle a a = true.
Proof. intros a. apply mle_spec. lia. Qed.

Lemma mle_trans : forall a b c, mle a b = true -> mle b c = true -> mle a c = true.
Proof. intros a b c H1 H2. apply mle_spec in H1, H2. apply mle_spec. lia. Qed.

Lemma mlt_mle_trans : forall a b c, mlt a b = true -> mle b c = true -> mlt a c = true.
Proof. intros a b c H1 H2. apply mlt_spec in H1. apply mle_spec in H2. apply mlt_spec. lia. Qed.

Lemma mle_mlt_trans : forall a b c, mle a b = true -> mlt b c = true -> mlt a c = true.
Proof. intros a b c H1 H2. apply mle_spec in H1. apply mlt_spec in H2. apply mlt_spec. lia. Qed.

Lemma mlt_irrefl : forall a, mlt a a = false.
Proof. intro a. apply not_true_iff_false. rewrite mlt_spec. lia. Qed.

Lemma mlt_mle : forall a b, mlt a b = true -> mle a b = true.
Proof. intros a b H. apply mlt_spec in H. apply mle_spec. lia. Qed.

Lemma mle_negb_mlt : forall a b, mle a b = negb (mlt b a).
Proof. reflexivity. Qed.

Lemma mark_zero_spec : forall m, mark_zero m = true <-> m = (0, 0).
Proof.
  intros [a b]. unfold mark_zero; cbn [fst snd]. rewrite andb_true_iff, !N.eqb_eq.
  split; [intros [-> ->]; reflexivity | intros H; inversion H; auto].
Qed.

Lemma max_of_ge : forall f l e, In e l -> f e <= max_of f l.
Proof.
  intros f l e. induction l as [|x l IH]; cbn [max_of fold_right In]; [tauto|].
  intros [->|H]; [lia|]. specialize (IH H). unfold max_of in IH. lia.
Qed.

Lemma max_of_lt : forall f l h, max_of f l < h -> forall e, In e l -> f e < h.
Proof. intros f l h H e Hin. pose proof (max_of_ge f l e Hin). lia. Qed.

Lemma frame_mark_ge : forall f e, In e f -> mle (ekey e) (frame_mark f) = true.
Proof.
  intros f e H. apply mle_spec. unfold ekey, frame_mark; cbn [fst snd].
  pose proof (max_of_ge e_ts f e H). pose proof (max_of_ge e_id f e H). lia.
Qed.

Lemma in_content : forall l e, In e (content l) <->
  exists s, In s l /\ (In e (s_mem s) \/ exists g, In g (s_segs s) /\ In e (seg_events g)).
Proof.
  intros l e. unfold content. rewrite in_flat_map. split.
  - intros [s [Hs He]]. exists s. split; [exact Hs|]. unfold shard_events in He.
    apply in_app_or in He. destruct He as [He|He]; [left; exact He|right].
    apply in_flat_map in He. exact He.
  - intros [s [Hs [He|[g [Hg He]]]]]; exists s; split; try exact Hs; unfold shard_events; apply in_or_app.
    + left. exact He.
    + right. apply in_flat_map. exists g. split; assumption.
Qed.

Lemma matches_at_core : forall d q e, q_tf q = TCore -> matches_at d q e = matches q e.
Proof.
  intros d q e H. unfold matches, matches_at, since_blind. rewrite H. rewrite !andb_false_r. reflexivity.
Qed.

Lemma filter_matches_at_core : forall d q l, q_tf q = TCore -> filter (matches_at d q) l = filter (matches q) l.
Proof. intros d q l H. apply filter_ext. intros e. apply matches_at_core. exact H. Qed.

Lemma concat_sources_none : forall q l, q_tf q = TCore ->
  concat (sources None q l) = filter (matches q) (content l).
Proof.
  intros q l Hc. unfold sources, content. rewrite concat_flat_map, filter_flat_map.
  apply flat_map_ext_in. intros s _. unfold shard_sources, shard_events. cbn [concat].
  rewrite app_nil_r, filter_app. f_equal.
  rewrite filter_flat_map. apply flat_map_ext_in. intros g _.
  unfold seg_rows, seg_stale, seg_events. rewrite filter_concat, <- flat_map_concat_map.
  apply flat_map_ext_in. intros z _. cbn [zone_kept]. apply filter_matches_at_core. exact Hc.
Qed.

(** Flags and constants regenerated from the Rust text (tools/params/p50_materialize.py), each consumed below by
    rewriting with its lemma: the proofs stop compiling if one changes. *)
Lemma wm_strict_flag : mat_wm_strict = true.
Proof. reflexivity. Qed.
Lemma delta_mark_flag : mat_delta_mark_from_store = true.
Proof. reflexivity. Qed.
Lemma delta_since_flag : mat_delta_since_from_catalog = true.
Proof. reflexivity. Qed.
Lemma sink_mark_flag : mat_sink_mark_last = false.
Proof. reflexivity. Qed.
Lemma catalog_after_flag : mat_catalog_after_response = true.
Proof. reflexivity. Qed.
Lemma stale_slack_flag : mat_stale_slack = 1.
Proof. reflexivity. Qed.
Lemma stale_cmp_flag : forall mtime bound, mat_stale_cmp mtime bound = (mtime <? bound).
Proof. reflexivity. Qed.
Lemma zone_drop_flag : forall tsmax hw, mat_zone_drop tsmax hw = (tsmax <? hw).
Proof. reflexivity. Qed.

(** the materialisation guard prunes nothing that [p] lets through, if [p] accepts only rows whose CORE timestamp
    reaches the guard's (the watermark filter does) and no segment file is over a second older than an event it holds *)
Lemma filter_sources_guard : forall (p : event -> bool) h q l,
  q_tf q = TCore ->
  mtime_bad l = false ->
  (forall e, p e = true -> h <= e_ts e) ->
  filter p (concat (sources (Some h) q l)) = filter p (filter (matches q) (content l)).
Proof.
  intros p h q l Hc Hm Hp. unfold sources, content. rewrite concat_flat_map, !filter_flat_map.
  apply flat_map_ext_in. intros s Hs. unfold shard_sources, shard_events. cbn [concat].
  rewrite app_nil_r, !filter_app. f_equal.
  rewrite !filter_flat_map. apply flat_map_ext_in. intros g Hg.
  assert (Hgood : forall e, In e (seg_events g) -> e_ts e <= g_mtime g + 1).
  { intros e He. unfold mtime_bad in Hm. apply existsb_false with (x := s) in Hm; [|exact Hs].
    apply existsb_false with (x := g) in Hm; [|exact Hg]. unfold seg_time_bad in Hm.
    apply existsb_false with (x := e) in Hm; [|exact He]. rewrite stale_slack_flag in Hm. lia. }
  unfold seg_rows, seg_stale. rewrite stale_cmp_flag, stale_slack_flag.
  destruct (g_mtime g <? h - 1) eqn:Est.
  - cbn [filter]. symmetry. rewrite filter_filter. apply filter_none. intros e He. specialize (Hgood e He).
    destruct (p e) eqn:P; [|apply andb_false_r]. specialize (Hp e P). lia.
  - unfold seg_events. rewrite filter_flat_map.
    rewrite (filter_concat (matches q)), (filter_concat p), map_map, <- flat_map_concat_map.
    apply flat_map_ext_in. intros z Hz. unfold zone_kept, zone_tsmax. rewrite zone_drop_flag.
    destruct (max_of e_ts z <? h) eqn:Ez; cbn [negb].
    + cbn [filter]. symmetry. rewrite filter_filter. apply filter_none. intros e He.
      destruct (p e) eqn:P; [|apply andb_false_r]. specialize (Hp e P).
      pose proof (max_of_ge e_ts z e He). lia.
    + rewrite filter_matches_at_core by exact Hc. reflexivity.
Qed.

Lemma memN_In : forall k ks, memN k ks = true <-> In k ks.
Proof. exact (existsb_eqb_In N.eqb N.eqb_eq). Qed.

Lemma nodupN_NoDup : forall l, nodupN l = true <-> NoDup l.
Proof.
  induction l as [|x l IH]; cbn [nodupN].
  - split; [constructor|reflexivity].
  - rewrite andb_true_iff, negb_true_iff, IH. split.
    + intros [H1 H2]. constructor; [|exact H2]. intro Hin. apply memN_In in Hin. congruence.
    + intros H. inversion H as [|? ? Hn Hd]; subst. split; [|exact Hd].
      destruct (memN x l) eqn:E; [|reflexivity]. apply memN_In in E. contradiction.
Qed.

Lemma seqN_In : forall n j, In j (seqN n) <-> j < N.of_nat n.
Proof. intros n j. apply in_map_of_nat_seq. Qed.

Lemma seqN_NoDup : forall n, NoDup (seqN n).
Proof. intros n. apply nodup_map_of_nat_seq. Qed.

Lemma concat_nthN_seqN : forall (bs : list (list event)),
  concat bs = concat (map (fun j => nthN bs j []) (seqN (length bs))).
Proof.
  intros bs. unfold seqN, nthN. rewrite map_map.
  transitivity (concat (map (fun i => nth i bs ([] : list event)) (seq 0 (length bs)))).
  - rewrite map_nth_seq. reflexivity.
  - apply (f_equal (@concat event)). apply map_ext. intros i. rewrite Nnat.Nat2N.id. reflexivity.
Qed.

Lemma concat_rest_of : forall (fbs : list (list event)) ord js,
  concat (flat_map (fun j => if memN j ord then [] else let b := nthN fbs j [] in if nonempty b then [b] else []) js)
  = concat (map (fun j => nthN fbs j []) (filter (fun j => negb (memN j ord)) js)).
Proof.
  intros fbs ord js.
  remember (fun j => if memN j ord then [] else let b := nthN fbs j [] in if nonempty b then [b] else []) as F eqn:EF.
  induction js as [|j js IH]; [reflexivity|].
  cbn [flat_map filter]. rewrite concat_app, IH. subst F.
  destruct (memN j ord); cbn [negb map concat app]; [reflexivity|].
  f_equal. destruct (nthN fbs j []); cbn [nonempty concat]; [reflexivity|apply app_nil_r].
Qed.

Lemma valid_prefix_spec : forall fbs ord, valid_prefix fbs ord = true <->
  NoDup ord /\ forall j, In j ord -> j < lenN fbs /\ nonempty (nthN fbs j []) = true.
Proof.
  intros fbs ord. unfold valid_prefix. rewrite andb_true_iff, nodupN_NoDup, forallb_forall.
  split; intros [H1 H2]; (split; [exact H1|]); intros j Hj; specialize (H2 j Hj).
  - apply andb_true_iff in H2 as [H2 H3]. apply N.ltb_lt in H2. auto.
  - apply andb_true_iff. rewrite N.ltb_lt. exact H2.
Qed.

Lemma valid_prefix_split : forall fbs ord, valid_prefix fbs ord = true ->
  Permutation (concat (frames_of fbs ord) ++ concat (rest_of fbs ord)) (concat fbs).
Proof.
  intros fbs ord H. apply valid_prefix_spec in H as [H1 H2].
  unfold rest_of. rewrite concat_rest_of, (concat_nthN_seqN fbs) at 1.
  set (g := fun j : N => nthN fbs j ([] : list event)).
  set (js := seqN (length fbs)).
  apply Permutation_sym.
  eapply perm_trans; [apply Permutation_concat; apply Permutation_map; apply (filter_split_perm (fun j => memN j ord))|].
  rewrite map_app, concat_app. apply Permutation_app; [|apply Permutation_refl].
  unfold frames_of. fold g. apply Permutation_concat. apply Permutation_map.
  apply NoDup_Permutation; [apply NoDup_filter; apply seqN_NoDup|exact H1|].
  intros j. rewrite filter_In, memN_In. unfold js. rewrite seqN_In. split; [tauto|].
  intros Hj. split; [|exact Hj]. destruct (H2 j Hj) as [H3 _]. unfold lenN in H3. lia.
Qed.

Lemma valid_prefix_nonempty : forall fbs ord f, valid_prefix fbs ord = true -> In f (frames_of fbs ord) -> f <> [].
Proof.
  intros fbs ord f H Hin. apply valid_prefix_spec in H as [_ H2].
  unfold frames_of in Hin. apply in_map_iff in Hin. destruct Hin as [j [<- Hj]].
  destruct (H2 j Hj) as [_ H3]. destruct (nthN fbs j []); discriminate.
Qed.

Lemma valid_order_prefix : forall bs ord, valid_order bs ord = true ->
  valid_prefix bs ord = true /\ rest_of bs ord = [].
Proof.
  intros bs ord H. unfold valid_order in H. apply andb_true_iff in H. destruct H as [H H3].
  apply andb_true_iff in H. destruct H as [H1 H2]. rewrite forallb_forall in H2, H3.
  assert (Hne : forall j, In j (seqN (length bs)) -> nonempty (nthN bs j []) = memN j ord).
  { intros j Hj. apply eqb_prop. apply H3. exact Hj. }
  split.
  - apply valid_prefix_spec. split; [apply nodupN_NoDup, H1|]. intros j Hj. specialize (H2 j Hj).
    apply N.ltb_lt in H2. split; [exact H2|].
    rewrite Hne by (apply seqN_In; unfold lenN in H2; lia). apply memN_In. exact Hj.
  - unfold rest_of. clear H2 H3. revert Hne. generalize (seqN (length bs)). intros js Hne.
    induction js as [|j js IH]; [reflexivity|]. cbn [flat_map]. rewrite <- (Hne j (or_introl eq_refl)).
    rewrite IH by (intros i Hi; apply Hne; right; exact Hi).
    destruct (nonempty (nthN bs j [])); reflexivity.
Qed.

Lemma valid_order_perm : forall bs ord,
  valid_order bs ord = true -> Permutation (concat (frames_of bs ord)) (concat bs).
Proof.
  intros bs ord H. destruct (valid_order_prefix _ _ H) as [P E].
  pose proof (valid_prefix_split _ _ P) as S. rewrite E, app_nil_r in S. exact S.
Qed.

Lemma frames_of_in : forall bs ord f e, In f (frames_of bs ord) -> In e f -> In e (concat bs).
Proof.
  intros bs ord f e Hf He. unfold frames_of in Hf. apply in_map_iff in Hf. destruct Hf as [j [<- _]].
  unfold nthN in He. apply in_concat. exists (nth (N.to_nat j) bs []). split; [|exact He].
  destruct (le_lt_dec (length bs) (N.to_nat j)) as [Hl|Hl].
  - rewrite nth_overflow in He by exact Hl. contradiction.
  - apply nth_In. exact Hl.
Qed.

Lemma event_eqb_eq : forall a b, event_eqb a b = true <-> a = b.
Proof.
  intros [k1 t1 p1 i1 c1 v1 y1] [k2 t2 p2 i2 c2 v2 y2]. unfold event_eqb; cbn [e_k e_ts e_pt e_id e_ctx e_v e_type].
  rewrite !andb_true_iff, !N.eqb_eq. split.
  - intros [[[[[[-> ->] ->] ->] ->] ->] ->]. reflexivity.
  - intros H. inversion H. tauto.
Qed.

Lemma in_events_In : forall e l, in_events e l = true <-> In e l.
Proof.
  intros e l. unfold in_events. rewrite existsb_exists. split.
  - intros [x [Hx E]]. apply event_eqb_eq in E. subst. exact Hx.
  - intros H. exists e. split; [exact H|apply event_eqb_eq; reflexivity].
Qed.

Definition layout_ok (l : layout) : Prop :=
  dup_content l = false /\ mtime_bad l = false /\ zero_id l = false.

Lemma dup_content_false : forall l,
  dup_content l = false <-> NoDup (map e_k (content l)) /\ NoDup (map e_id (content l)).
Proof. intros l. unfold dup_content. rewrite orb_false_iff, !negb_false_iff, !nodupN_NoDup. reflexivity. Qed.

Lemma layout_ok_nodup_keys : forall l, layout_ok l -> NoDup (map e_k (content l)).
Proof. intros l [H _]. apply dup_content_false, H. Qed.

Lemma layout_ok_nodup : forall l, layout_ok l -> NoDup (content l).
Proof. intros l H. eapply NoDup_map_inv, layout_ok_nodup_keys, H. Qed.

Lemma layout_ok_pos : forall l e, layout_ok l -> In e (content l) -> mlt (0, 0) (ekey e) = true.
Proof.
  intros l e [_ [_ H]] Hin. unfold zero_id in H. apply existsb_false with (x := e) in H; [|exact Hin].
  apply mlt_spec. unfold ekey; cbn [fst snd]. lia.
Qed.

Definition core_q (q : query) : Prop := q_tf q = TCore /\ q_limit q = None.

Definition below (q : query) (m : mark) (e : event) : bool := matches q e && mle (ekey e) m.
Definition above (q : query) (m : mark) (e : event) : bool := matches q e && mlt m (ekey e).

(** stored rows = the matching events at or below the mark *)
Definition entry_inv (l : layout) (en : entry) : Prop :=
  core_q (n_q en) /\
  Permutation (concat (n_frames en)) (filter (below (n_q en) (frames_mark (n_frames en))) (content l)) /\
  mle (n_cat en) (frames_mark (n_frames en)) = true.

Definition Inv (st : state) : Prop :=
  layout_ok (st_layout st) /\
  forall name en, In (name, en) (st_entries st) -> entry_inv (st_layout st) en.

Lemma sel_split : forall q m l,
  Permutation (sel q l) (filter (below q m) (content l) ++ filter (above q m) (content l)).
Proof.
  intros q m l. unfold sel.
  eapply perm_trans; [apply (filter_split_perm (fun e => mle (ekey e) m))|].
  rewrite !filter_filter. apply Permutation_app; apply Permutation_refl'; apply filter_ext; intros e;
    unfold below, above, mle; [reflexivity|rewrite negb_involutive; reflexivity].
Qed.

(** the delta query on the core timestamp: SINCE raised to the catalog mark [c] (at most the store's mark [m])
    and the watermark filter against [m] together select the matching events above [m] *)
Lemma delta_core : forall q c m e, q_tf q = TCore -> mle c m = true ->
  matches (delta_query q c) e && wm_pass q m e = above q m e.
Proof.
  intros q c m e Hc Hcm. unfold above, wm_pass, delta_query, tfval. rewrite wm_strict_flag, Hc.
  destruct (mark_zero c) eqn:Z; [reflexivity|].
  unfold matches, matches_at, since_blind, tfval; cbn [q_ctx q_where q_since q_tf andb]. rewrite Hc. fold (ekey e).
  destruct (mlt m (ekey e)) eqn:L; [|rewrite !andb_false_r; reflexivity].
  rewrite !andb_true_r. f_equal.
  apply mlt_spec in L. apply mle_spec in Hcm. unfold ekey in L; cbn [fst snd] in L.
  destruct (q_since q) as [s|].
  - destruct (s <? fst c) eqn:E; [|reflexivity]. lia.
  - lia.
Qed.

Lemma wm_pass_ge : forall q m e, q_tf q = TCore -> wm_pass q m e = true -> fst m <= e_ts e.
Proof.
  intros q m e Hc. unfold wm_pass, tfval. rewrite wm_strict_flag, Hc. intros H. apply mlt_spec in H.
  cbn [fst snd] in H. lia.
Qed.

Lemma delta_rows : forall q fs c l, q_tf q = TCore -> mtime_bad l = false ->
  mle c (frames_mark fs) = true ->
  let m := frames_mark fs in
  concat (map (show_filter q m) (delta_batches q fs c l))
  = filter (above q m) (content l).
Proof.
  intros q fs c l Hc Hm Hcm m. unfold show_filter, wm_enabled, delta_batches, filter_mark, since_mark.
  rewrite delta_mark_flag, delta_since_flag, Hc.
  assert (Hc' : q_tf (delta_query q c) = TCore).
  { unfold delta_query. destruct (mark_zero c); [exact Hc|exact Hc]. }
  rewrite <- filter_concat. fold m.
  rewrite filter_sources_guard; [|exact Hc'|exact Hm|intros e; apply wm_pass_ge; exact Hc].
  rewrite filter_filter. apply filter_ext. intros e. apply delta_core; assumption.
Qed.

(** ** The mark of a store: the maximum over its frames ([sink_mark_flag]) *)

Definition fold_mark (z : mark) (fs : list (list event)) : mark :=
  fold_left (fun m f => mark_max m (frame_mark f)) fs z.

Lemma frames_mark_fold : forall fs, frames_mark fs = fold_mark (0, 0) fs.
Proof. intros fs. unfold frames_mark. rewrite sink_mark_flag. reflexivity. Qed.

(** the mark is the least upper bound of the start value and the marks of the frames *)
Lemma fold_mark_lt_iff : forall fs z k,
  mlt (fold_mark z fs) k = true <-> mlt z k = true /\ forall f, In f fs -> mlt (frame_mark f) k = true.
Proof.
  induction fs as [|g fs IH]; intros z k; cbn [fold_mark fold_left In]; [tauto|].
  fold (fold_mark (mark_max z (frame_mark g)) fs). rewrite IH. unfold mark_max. destruct (mlt z (frame_mark g)) eqn:E.
  - split; [intros [H1 H2]|intros [H1 H2]; auto]. split; [eapply mle_mlt_trans; [apply mlt_mle, E|exact H1]|].
    intros f [<-|Hf]; auto.
  - split; [intros [H1 H2]|intros [H1 H2]; auto]. split; [exact H1|]. intros f [<-|Hf]; [|auto].
    eapply mle_mlt_trans; [apply mle_true, E|exact H1].
Qed.

Lemma frames_mark_app : forall fs ap, frames_mark (fs ++ ap) = fold_mark (frames_mark fs) ap.
Proof. intros fs ap. rewrite !frames_mark_fold. apply fold_left_app. Qed.

Lemma frames_mark_ge_frame : forall fs f, In f fs -> mle (frame_mark f) (frames_mark fs) = true.
Proof.
  intros fs f Hf. rewrite frames_mark_fold. apply mle_true, not_true_iff_false. rewrite fold_mark_lt_iff.
  intros [_ H]. specialize (H f Hf). rewrite mlt_irrefl in H. discriminate.
Qed.

Lemma frames_mark_ge_row : forall fs f e, In f fs -> In e f -> mle (ekey e) (frames_mark fs) = true.
Proof.
  intros fs f e Hf He. eapply mle_trans; [apply frame_mark_ge; exact He|apply frames_mark_ge_frame; exact Hf].
Qed.

Lemma frames_mark_ge_concat : forall fs e, In e (concat fs) -> mle (ekey e) (frames_mark fs) = true.
Proof. intros fs e H. apply in_concat in H. destruct H as [f [Hf He]]. exact (frames_mark_ge_row fs f e Hf He). Qed.

(** so the class [MarkOfLastFrame] never occurs, whatever the arrival order of the batches *)
Lemma last_dominates_true : forall fs, last_dominates fs = true.
Proof. intros fs. unfold last_dominates. apply forallb_forall. apply frames_mark_ge_concat. Qed.

Lemma frames_mark_mono : forall fs ap, mle (frames_mark fs) (frames_mark (fs ++ ap)) = true.
Proof.
  intros fs ap. rewrite frames_mark_app. apply mle_true, not_true_iff_false. rewrite fold_mark_lt_iff.
  intros [H _]. rewrite mlt_irrefl in H. discriminate.
Qed.

(** when a store satisfies the equation of the invariant: the selection is its rows [X], all at or below [m], and
    rows [R] above [m] (REMEMBER: nothing above; SHOW: nothing left out; failed SHOW: [R] is what it left out) *)
Lemma stored_parts : forall q l m X R,
  Permutation (X ++ R) (sel q l) ->
  (forall e, In e X -> mle (ekey e) m = true) ->
  (forall e, In e R -> mle (ekey e) m = false) ->
  Permutation X (filter (below q m) (content l)).
Proof.
  intros q l m X R Hs HX HR.
  replace (filter (below q m) (content l)) with (filter (fun e => mle (ekey e) m) (sel q l)) by apply filter_filter.
  eapply perm_trans; [|apply Permutation_filter; exact Hs].
  rewrite filter_app, (filter_all _ X HX), (filter_none _ R HR), app_nil_r. apply Permutation_refl.
Qed.

Definition good_op (st : state) (o : op) : Prop :=
  classes_of st o = [] /\
  match o with OSetLayout l => keeps_events st l = true /\ zero_id l = false | _ => True end.

(** States reached from [init] through good operations only: no known class on the way, events only added,
    no zero id. *)
Inductive reach : state -> Prop :=
| reach_init : reach init
| reach_step : forall st o, reach st -> good_op st o -> reach (fst (step st o)).

Lemma if_app_nil : forall {A} (b : bool) (x : A) r, (if b then [x] else []) ++ r = [] -> b = false /\ r = [].
Proof. intros A [] x r H; [discriminate|split; [reflexivity|exact H]]. Qed.

Lemma below_filter_grow : forall q m l l',
  NoDup (content l) -> NoDup (content l') ->
  (forall e, In e (content l) -> In e (content l')) ->
  (forall e, In e (content l') -> ~ In e (content l) -> below q m e = false) ->
  Permutation (filter (below q m) (content l)) (filter (below q m) (content l')).
Proof.
  intros q m l l' N1 N2 Hsub Hnew. apply NoDup_Permutation; try (apply NoDup_filter; assumption).
  intros e. rewrite !filter_In. split.
  - intros [H1 H2]. split; [apply Hsub; exact H1|exact H2].
  - intros [H1 H2]. split; [|exact H2].
    destruct (in_events e (content l)) eqn:E; [apply in_events_In; exact E|].
    exfalso. assert (X : ~ In e (content l)) by (intro Y; apply in_events_In in Y; congruence).
    rewrite (Hnew e H1 X) in H2. discriminate.
Qed.

Lemma lookup_In : forall name es en, lookup name es = Some en -> In (name, en) es.
Proof. intros name es en. apply (assoc_In (fun a b => b =? a) lookup (flip_eqb_eq _ N.eqb_eq)); reflexivity. Qed.

Lemma update_In : forall name en es n e, In (n, e) (update name en es) -> In (n, e) es \/ (n = name /\ e = en).
Proof.
  intros name en es n e. induction es as [|[a b] r IH]; cbn [update]; [intros []|].
  destruct (a =? name) eqn:E.
  - apply N.eqb_eq in E. subst a. intros [H|H]; [inversion H; subst; right; auto|left; right; exact H].
  - intros [H|H]; [left; left; exact H|]. destruct (IH H) as [H'|H']; [left; right; exact H'|right; exact H'].
Qed.

Definition op_view (o : op) : option N :=
  match o with
  | OSetLayout _ => None
  | ORemember n _ _ => Some n
  | OShow n _ => Some n
  | OShowFail n _ => Some n
  end.

(** What an operation on a view answers and the catalog entry it leaves ([None]: the catalog is not written),
    as a function of the layout and of what the catalog holds under the view's own name. *)
Definition view_step (l : layout) (o : op) (cur : option entry) : option entry * obs :=
  match o, cur with
  | OSetLayout _, _ => (None, ObsLayout)
  | ORemember _ _ _, Some _ => (None, ObsRejected)
  | ORemember _ q ch, None =>
      match remember_frames q l ch with
      | Some fs => (Some (mkEntry q fs (frames_mark fs)), ObsRemembered fs (frames_mark fs))
      | None => (None, ObsBadChoice)
      end
  | _, None => (None, ObsUnknown)
  | OShow _ ch, Some en =>
      match show_frames (n_q en) (n_frames en) (n_cat en) l ch with
      | Some nf =>
          let m' := frames_mark (n_frames en ++ nf) in
          let cat' := cat_after (n_cat en) (frames_mark (n_frames en)) m' in
          (Some (mkEntry (n_q en) (n_frames en ++ nf) cat'), ObsShow (show_output (n_q en) (n_frames en) nf) nf m' cat')
      | None => (None, ObsBadChoice)
      end
  | OShowFail _ ch, Some en =>
      match show_fail_frames (n_q en) (n_frames en) (n_cat en) l ch with
      | Some (ap, _) =>
          (Some (mkEntry (n_q en) (n_frames en ++ ap) (n_cat en)),
           ObsShowFailed ap (frames_mark (n_frames en ++ ap)) (n_cat en))
      | None => (None, ObsBadChoice)
      end
  end.

(** obeys the two equations of the [upd] of AssocFacts ([lookup] tests the stored name against the one asked for) *)
Definition install (a : N) (e : entry) (es : list (N * entry)) : list (N * entry) :=
  match lookup a es with Some _ => update a e es | None => es ++ [(a, e)] end.

Lemma install_cons : forall a e n e0 r,
  install a e ((n, e0) :: r) = if n =? a then (n, e) :: r else (n, e0) :: install a e r.
Proof.
  intros a e n e0 r. unfold install. cbn [lookup update app]. destruct (n =? a); [reflexivity|].
  destruct (lookup a r); reflexivity.
Qed.

Lemma lookup_install : forall a e es b, lookup b (install a e es) = if b =? a then Some e else lookup b es.
Proof.
  intros a e es b. rewrite (N.eqb_sym b a).
  set (upd := fun k (f : option entry -> entry) m => install k (f (lookup k m)) m).
  change (install a e es) with (upd a (fun _ => e) es).
  apply (assoc_upd_get (fun a b => b =? a) lookup (flip_eqb_eq _ N.eqb_eq)) with (upd := upd); try reflexivity.
  intros k f k' v r. unfold upd. cbn [lookup]. rewrite install_cons. destruct (k' =? k); reflexivity.
Qed.

Lemma install_In : forall a e es n e', In (n, e') (install a e es) -> In (n, e') es \/ (n = a /\ e' = e).
Proof.
  intros a e es n e' H. unfold install in H. destruct (lookup a es); [exact (update_In _ _ _ _ _ H)|].
  apply in_app_or in H as [H|[[= <- <-]|[]]]; auto.
Qed.

Lemma step_view : forall st o a, op_view o = Some a ->
  step st o = let (r, ob) := view_step (st_layout st) o (lookup a (st_entries st)) in
              (match r with Some e => mkState (st_layout st) (install a e (st_entries st)) | None => st end, ob).
Proof.
  intros st o a H. destruct o as [l|n q ch|n ch|n ch]; inversion H; subst n; cbn [step view_step]; unfold install;
    destruct (lookup a (st_entries st)) as [en|]; try reflexivity.
  - destruct (remember_frames q (st_layout st) ch); reflexivity.
  - destruct (show_frames _ _ _ _ ch); reflexivity.
  - rewrite catalog_after_flag. destruct (show_fail_frames _ _ _ _ ch) as [[ap rest]|]; reflexivity.
Qed.

Lemma inv_view : forall st o a, Inv st -> op_view o = Some a ->
  (forall e, fst (view_step (st_layout st) o (lookup a (st_entries st))) = Some e -> entry_inv (st_layout st) e) ->
  Inv (fst (step st o)).
Proof.
  intros st o a [Hl Hen] V He. rewrite (step_view st o a V). destruct (view_step _ o _) as [[e|] ob]; [|split; assumption].
  split; [exact Hl|]. intros n e' Hin. cbn [fst st_entries st_layout] in *.
  apply install_In in Hin as [Hin|[_ ->]]; [exact (Hen n e' Hin)|exact (He e eq_refl)].
Qed.

Lemma inv_setlayout : forall st l, Inv st -> good_op st (OSetLayout l) -> Inv (fst (step st (OSetLayout l))).
Proof.
  intros st l [Hl Hen] [Hc [Hk Hz]]. cbn [classes_of] in Hc.
  apply if_app_nil in Hc. destruct Hc as [Hd Hc]. apply if_app_nil in Hc. destruct Hc as [Hm Hc].
  assert (Hlate : some_late st l = false) by (destruct (some_late st l); [discriminate|reflexivity]).
  assert (Hl' : layout_ok l) by (split; [exact Hd|split; [exact Hm|exact Hz]]).
  cbn [step fst st_layout st_entries]. split; [exact Hl'|].
  intros name en Hlk. specialize (Hen name en Hlk). destruct Hen as [Hq [Hp Hcat]]. split; [exact Hq|].
  split; [|exact Hcat].
  eapply perm_trans; [exact Hp|]. apply below_filter_grow.
  - apply layout_ok_nodup. exact Hl.
  - apply layout_ok_nodup. exact Hl'.
  - intros e He. unfold keeps_events in Hk. rewrite forallb_forall in Hk. apply in_events_In. apply Hk. exact He.
  - intros e He Hn. unfold some_late in Hlate.
    apply existsb_false with (x := (name, en)) in Hlate; [|exact Hlk]. cbn [snd] in Hlate. unfold late_for in Hlate.
    apply existsb_false with (x := e) in Hlate; [|exact He].
    destruct (in_events e (content (st_layout st))) eqn:E; [apply in_events_In in E; contradiction|].
    cbn [negb andb] in Hlate. exact Hlate.
Qed.

Lemma inv_remember : forall st name q ch, Inv st -> good_op st (ORemember name q ch) ->
  Inv (fst (step st (ORemember name q ch))).
Proof.
  intros st name q ch Hi [Hc _]. apply (inv_view st (ORemember name q ch) name Hi eq_refl). cbn [view_step classes_of] in *.
  destruct (lookup name (st_entries st)); [discriminate|].
  destruct (q_tf q) eqn:Htf; [|discriminate]. destruct (q_limit q) eqn:Hlim; [discriminate|].
  destruct (remember_frames q (st_layout st) ch) as [fs|] eqn:R; [|discriminate]. intros e [= <-].
  split; [split; assumption|]. cbn [n_q n_frames n_cat]. split; [|apply mle_refl].
  unfold remember_frames in R. rewrite Hlim in R.
  destruct (valid_order (sources None q (st_layout st)) (map fst ch)) eqn:V; [|discriminate]. injection R as <-.
  pose proof (valid_order_perm _ _ V) as P. rewrite concat_sources_none in P by exact Htf.
  apply (stored_parts _ _ _ _ []); [rewrite app_nil_r; exact P|apply frames_mark_ge_concat|intros e []].
Qed.

(** what [inv_show] and [inv_showfail] rest on, for frames [ap] in any order: the mark is their maximum. *)
Lemma append_frames_inv : forall l q fs ap rest,
  Permutation (concat fs) (filter (below q (frames_mark fs)) (content l)) ->
  Permutation (concat ap ++ concat rest) (filter (above q (frames_mark fs)) (content l)) ->
  strands ap rest = false ->
  Permutation (concat (fs ++ ap)) (filter (below q (frames_mark (fs ++ ap))) (content l))
  /\ mle (frames_mark fs) (frames_mark (fs ++ ap)) = true.
Proof.
  intros l q fs ap rest Hp Hd Hst. split; [|apply frames_mark_mono].
  set (m' := frames_mark (fs ++ ap)).
  assert (Hrest : forall e, In e (concat rest) -> mle (ekey e) m' = false).
  { intros e He. apply mle_false. unfold m'. rewrite frames_mark_app. apply fold_mark_lt_iff. split.
    - assert (Ha : In e (filter (above q (frames_mark fs)) (content l))).
      { eapply Permutation_in; [exact Hd|]. apply in_or_app. right. exact He. }
      apply filter_In in Ha. destruct Ha as [_ Ha]. apply andb_true_iff in Ha. apply Ha.
    - (* a frame of [ap]: [ap] is not empty, nothing of [rest] is at or below its mark *)
      intros f Hf. unfold strands in Hst. destruct ap as [|a0 r0]; [destruct Hf|]. cbn [nonempty andb] in Hst.
      apply existsb_false with (x := e) in Hst; [|exact He]. apply mle_false in Hst.
      eapply mle_mlt_trans; [apply frames_mark_ge_frame; exact Hf|exact Hst]. }
  (* the selection is the old rows, [ap] and [rest]; of these, exactly [rest] is above the new mark *)
  apply (stored_parts _ _ _ _ (concat rest)); [|apply frames_mark_ge_concat|exact Hrest].
  rewrite concat_app, <- app_assoc. apply Permutation_sym.
  eapply perm_trans; [apply (sel_split q (frames_mark fs))|]. apply Permutation_app; apply Permutation_sym; assumption.
Qed.

Lemma mark_eqb_refl : forall m, mark_eqb m m = true.
Proof. intros [a b]. unfold mark_eqb; cbn [fst snd]. rewrite !N.eqb_refl. reflexivity. Qed.

Lemma cat_after_same : forall c m, cat_after c m m = c.
Proof. intros c m. unfold cat_after. rewrite mark_eqb_refl. destruct (mark_zero m); reflexivity. Qed.

Lemma show_output_core : forall q old new, core_q q -> show_output q old new = concat old ++ concat new.
Proof. intros q old new [Htf Hlim]. unfold show_output, apply_limit, wm_enabled. rewrite Htf, Hlim. reflexivity. Qed.

Lemma cat_after_le : forall c m m2, mle c m = true -> mle m m2 = true -> mle (cat_after c m m2) m2 = true.
Proof.
  intros c m m2 H1 H2. unfold cat_after. destruct (mark_zero m2); [eapply mle_trans; eassumption|].
  destruct (mark_eqb m2 m); [eapply mle_trans; eassumption|apply mle_refl].
Qed.

Lemma show_fail_frames_spec : forall l en ch ap rest,
  layout_ok l -> entry_inv l en ->
  show_fail_frames (n_q en) (n_frames en) (n_cat en) l ch = Some (ap, rest) ->
  Permutation (concat ap ++ concat rest) (filter (above (n_q en) (frames_mark (n_frames en))) (content l))
  /\ ~ In [] ap.
Proof.
  intros l [q fs c] ch ap rest Hl [[Htf Hlim] [Hp Hcat]] Hs. cbn [n_q n_frames n_cat] in *.
  unfold show_fail_frames, filter_mark in Hs. rewrite delta_mark_flag, Hlim in Hs.
  destruct (valid_prefix _ (map fst ch)) eqn:V; [|discriminate]. inversion Hs; subst ap rest; clear Hs.
  split; [|intros H; exact (valid_prefix_nonempty _ _ _ V H eq_refl)].
  eapply perm_trans; [apply valid_prefix_split; exact V|].
  rewrite delta_rows; [apply Permutation_refl|exact Htf|apply Hl|exact Hcat].
Qed.

Lemma showfail_step : forall l en ch ap rest,
  layout_ok l -> entry_inv l en ->
  show_fail_frames (n_q en) (n_frames en) (n_cat en) l ch = Some (ap, rest) ->
  strands ap rest = false ->
  entry_inv l (mkEntry (n_q en) (n_frames en ++ ap) (n_cat en)).
Proof.
  intros l en ch ap rest Hl Hi Hs Hst. destruct (show_fail_frames_spec _ _ _ _ _ Hl Hi Hs) as [Hd _].
  destruct Hi as [Hq [Hp Hcat]]. destruct (append_frames_inv _ _ _ _ _ Hp Hd Hst) as [Hinv Hle].
  split; [exact Hq|split; [exact Hinv|eapply mle_trans; eassumption]].
Qed.

Lemma show_frames_complete : forall q fs c l ch nf, q_limit q = None ->
  show_frames q fs c l ch = Some nf -> show_fail_frames q fs c l ch = Some (nf, []).
Proof.
  intros q fs c l ch nf Hlim. unfold show_frames, show_fail_frames. rewrite Hlim.
  destruct (valid_order _ _) eqn:V; [|discriminate]. destruct (valid_order_prefix _ _ V) as [-> ->].
  intros [= <-]. reflexivity.
Qed.

Lemma show_step : forall l en ch nf,
  layout_ok l -> entry_inv l en ->
  show_frames (n_q en) (n_frames en) (n_cat en) l ch = Some nf ->
  Permutation (show_output (n_q en) (n_frames en) nf) (sel (n_q en) l)
  /\ entry_inv l (mkEntry (n_q en) (n_frames en ++ nf)
                    (cat_after (n_cat en) (frames_mark (n_frames en)) (frames_mark (n_frames en ++ nf))))
  /\ ~ In [] nf.
Proof.
  intros l en ch nf Hl Hi Hs. pose proof Hi as [Hq [Hp Hcat]]. apply show_frames_complete in Hs; [|apply Hq].
  destruct (show_fail_frames_spec _ _ _ _ _ Hl Hi Hs) as [Hd Hne]. cbn [concat] in Hd. rewrite app_nil_r in Hd.
  split; [|split; [|exact Hne]].
  - rewrite show_output_core by exact Hq.
    eapply perm_trans; [|apply Permutation_sym; apply (sel_split _ (frames_mark (n_frames en)))].
    apply Permutation_app; assumption.
  - destruct (showfail_step _ _ _ _ _ Hl Hi Hs) as [_ [Hinv _]]; [unfold strands; cbn [concat existsb]; apply andb_false_r|].
    split; [exact Hq|split; [exact Hinv|apply cat_after_le; [exact Hcat|apply frames_mark_mono]]].
Qed.

Lemma inv_show : forall st name ch, Inv st -> Inv (fst (step st (OShow name ch))).
Proof.
  intros st name ch Hi. apply (inv_view st (OShow name ch) name Hi eq_refl). destruct Hi as [Hl Hen]. cbn [view_step].
  destruct (lookup name (st_entries st)) as [en|] eqn:Lk; [|discriminate].
  destruct (show_frames _ _ _ _ ch) as [nf|] eqn:S; [|discriminate]. intros e [= <-].
  apply (show_step _ _ _ _ Hl (Hen _ _ (lookup_In _ _ _ Lk)) S).
Qed.

Lemma inv_showfail : forall st name ch, Inv st -> good_op st (OShowFail name ch) ->
  Inv (fst (step st (OShowFail name ch))).
Proof.
  intros st name ch Hi [Hc _]. apply (inv_view st (OShowFail name ch) name Hi eq_refl). destruct Hi as [Hl Hen].
  cbn [view_step classes_of] in *.
  destruct (lookup name (st_entries st)) as [en|] eqn:Lk; [|discriminate].
  destruct (show_fail_frames _ _ _ _ ch) as [[ap rest]|] eqn:S; [|discriminate]. intros e [= <-].
  apply app_eq_nil in Hc as [_ Hc]. apply (showfail_step _ _ _ _ _ Hl (Hen _ _ (lookup_In _ _ _ Lk)) S).
  destruct (strands ap rest); [discriminate|reflexivity].
Qed.

Lemma inv_step : forall st o, Inv st -> good_op st o -> Inv (fst (step st o)).
Proof.
  intros st [l|name q ch|name ch|name ch] Hi Hg.
  - apply inv_setlayout; assumption.
  - apply inv_remember; assumption.
  - apply inv_show, Hi.
  - apply inv_showfail; assumption.
Qed.

(** ** The classes that are left of [classes_of] by [last_dominates_true] *)

Lemma show_no_class : forall st name ch, classes_of st (OShow name ch) = [].
Proof.
  intros st name ch. cbn [classes_of]. destruct (lookup name (st_entries st)) as [en|]; [|reflexivity].
  destruct (show_frames (n_q en) (n_frames en) (n_cat en) (st_layout st) ch) as [nf|]; [|reflexivity].
  rewrite last_dominates_true. cbn [negb]. rewrite andb_false_r. reflexivity.
Qed.

Lemma show_good : forall st name ch, good_op st (OShow name ch).
Proof. intros st name ch. split; [apply show_no_class|exact I]. Qed.

Lemma remember_classes : forall st name q ch c, In c (classes_of st (ORemember name q ch)) ->
  (c = PayloadTimeField /\ q_tf q = TPayload) \/ (c = LimitNotReapplied /\ q_limit q <> None).
Proof.
  intros st name q ch c. cbn [classes_of]. destruct (lookup name (st_entries st)); [intros []|].
  intros H. apply in_app_or in H. destruct H as [H|H].
  - destruct (q_tf q); [destruct H|]. destruct H as [<-|[]]. left. auto.
  - apply in_app_or in H. destruct H as [H|H].
    + destruct (q_limit q); [|destruct H]. destruct H as [<-|[]]. right. split; [reflexivity|discriminate].
    + destruct (remember_frames q (st_layout st) ch) as [fs|]; [|destruct H].
      rewrite last_dominates_true in H. destruct H.
Qed.

Lemma remember_good : forall st name q ch, q_tf q = TCore -> q_limit q = None -> good_op st (ORemember name q ch).
Proof.
  intros st name q ch Htf Hlim. split; [|exact I].
  destruct (classes_of st (ORemember name q ch)) as [|c r] eqn:E; [reflexivity|]. exfalso.
  destruct (remember_classes st name q ch c) as [[_ H]|[_ H]]; [rewrite E; left; reflexivity|congruence|congruence].
Qed.

Lemma showfail_classes : forall st name ch c, In c (classes_of st (OShowFail name ch)) -> c = InterruptedRefresh.
Proof.
  intros st name ch c. cbn [classes_of]. destruct (lookup name (st_entries st)) as [en|]; [|intros []].
  destruct (show_fail_frames (n_q en) (n_frames en) (n_cat en) (st_layout st) ch) as [[ap rest]|]; [|intros []].
  rewrite last_dominates_true. cbn [negb]. rewrite andb_false_r. cbn [app].
  destruct (strands ap rest); [|intros []]. intros [<-|[]]. reflexivity.
Qed.

Lemma inv_init : Inv init.
Proof.
  split; [repeat split|intros name en H; destruct H].
Qed.

Lemma reach_inv : forall st, reach st -> Inv st.
Proof. intros st H. induction H; [apply inv_init|apply inv_step; assumption]. Qed.

(** what QUERY q returns: the response writer drops repeated ids *)
Definition live (q : query) (l : layout) : list event := dedup_seen [] (sel q l).

Definition expected_len (q : query) (l : layout) : N :=
  match q_limit q with None => lenN (live q l) | Some n => N.min n (lenN (live q l)) end.

(** with LIMIT n, any n rows of the live query are an answer *)
Definition is_answer (q : query) (l : layout) (out : list event) : Prop :=
  NoDup (map e_k out) /\ (forall e, In e out -> In e (live q l)) /\ lenN out = expected_len q l.

Definition is_answer_b (q : query) (l : layout) (out : list event) : bool :=
  nodupN (map e_k out) && forallb (fun e => in_events e (live q l)) out && (lenN out =? expected_len q l).

Lemma is_answer_b_spec : forall q l out, is_answer_b q l out = true <-> is_answer q l out.
Proof.
  intros q l out. unfold is_answer_b, is_answer. rewrite !andb_true_iff, nodupN_NoDup, forallb_forall, N.eqb_eq.
  split.
  - intros [[H1 H2] H3]. split; [exact H1|split; [|exact H3]].
    intros e He. apply in_events_In. apply H2. exact He.
  - intros [H1 [H2 H3]]. split; [split; [exact H1|]|exact H3].
    intros e He. apply in_events_In. apply H2. exact He.
Qed.

Lemma dedup_seen_nodup : forall l seen,
  NoDup (map e_id l) -> (forall e, In e l -> ~ In (e_id e) seen) -> dedup_seen seen l = l.
Proof.
  induction l as [|e l IH]; intros seen Hn Hs; cbn [dedup_seen]; [reflexivity|].
  destruct (memN (e_id e) seen) eqn:M.
  - apply memN_In in M. exfalso. apply (Hs e (or_introl eq_refl)). exact M.
  - f_equal. cbn [map] in Hn. inversion Hn as [|? ? Hx Hd]; subst. apply IH; [exact Hd|].
    intros x Hx' [Heq|Hin].
    + apply Hx. rewrite Heq. apply in_map. exact Hx'.
    + apply (Hs x (or_intror Hx')). exact Hin.
Qed.

Lemma live_sel : forall q l, layout_ok l -> live q l = sel q l.
Proof.
  intros q l [H _]. unfold live. apply dedup_seen_nodup; [|intros e _ []].
  unfold sel. apply nodup_map_filter. apply dup_content_false, H.
Qed.

Lemma perm_is_answer : forall q l out, layout_ok l -> q_limit q = None ->
  Permutation out (sel q l) -> is_answer q l out.
Proof.
  intros q l out Hl Hlim Hp. unfold is_answer, expected_len. rewrite Hlim, (live_sel q l Hl). split; [|split].
  - eapply Permutation_NoDup; [apply Permutation_map; apply Permutation_sym; exact Hp|].
    unfold sel. apply nodup_map_filter. apply layout_ok_nodup_keys. exact Hl.
  - intros e He. eapply Permutation_in; eassumption.
  - unfold lenN. f_equal. apply Permutation_length. exact Hp.
Qed.

Definition show_ok (st : state) (o : op) : Prop :=
  match o, snd (step st o) with
  | OShow name _, ObsShow out _ _ _ =>
      match lookup name (st_entries st) with
      | Some en => is_answer (n_q en) (st_layout st) out
      | None => False
      end
  | _, _ => True
  end.
Fixpoint shows_ok (st : state) (ops : list op) : Prop :=
  match ops with
  | [] => True
  | o :: r => show_ok st o /\ shows_ok (fst (step st o)) r
  end.

Definition show_ok_b (st : state) (o : op) : bool :=
  match o, snd (step st o) with
  | OShow name _, ObsShow out _ _ _ =>
      match lookup name (st_entries st) with
      | Some en => is_answer_b (n_q en) (st_layout st) out
      | None => false
      end
  | _, _ => true
  end.
Fixpoint shows_ok_b (st : state) (ops : list op) : bool :=
  match ops with
  | [] => true
  | o :: r => show_ok_b st o && shows_ok_b (fst (step st o)) r
  end.

Lemma shows_ok_b_true : forall ops st, shows_ok st ops -> shows_ok_b st ops = true.
Proof.
  induction ops as [|o r IH]; intros st; cbn [shows_ok shows_ok_b]; [reflexivity|].
  intros [H1 H2]. rewrite (IH _ H2), andb_true_r. unfold show_ok in H1. unfold show_ok_b.
  destruct o; try reflexivity. destruct (snd (step st (OShow name ch))); try reflexivity.
  destruct (lookup name (st_entries st)); [apply is_answer_b_spec; exact H1|contradiction].
Qed.

Fixpoint no_known (st : state) (ops : list op) : Prop :=
  match ops with
  | [] => True
  | o :: r => good_op st o /\ no_known (fst (step st o)) r
  end.

Definition run_state (st : state) (ops : list op) : state := fold_left (fun s o => fst (step s o)) ops st.

Lemma reach_run : forall ops st, reach st -> no_known st ops -> reach (run_state st ops).
Proof.
  induction ops as [|o r IH]; intros st Hr Hn; cbn [run_state fold_left]; [exact Hr|].
  destruct Hn as [Hg Hn]. apply IH; [apply reach_step; assumption|exact Hn].
Qed.

Definition KnownClass (c : known_class) (st : state) (o : op) : Prop := In c (classes_of st o).

Lemma no_class_good : forall st o, (forall c, ~ KnownClass c st o) -> classes_of st o = [].
Proof.
  intros st o H. unfold KnownClass in H. destruct (classes_of st o) as [|c r]; [reflexivity|].
  exfalso. apply (H c). left. reflexivity.
Qed.

Lemma step_show_inversion : forall st name ch st' out nf m c,
  step st (OShow name ch) = (st', ObsShow out nf m c) ->
  exists en, lookup name (st_entries st) = Some en /\
    show_frames (n_q en) (n_frames en) (n_cat en) (st_layout st) ch = Some nf /\
    out = show_output (n_q en) (n_frames en) nf /\
    m = frames_mark (n_frames en ++ nf) /\
    c = cat_after (n_cat en) (frames_mark (n_frames en)) m /\
    st' = mkState (st_layout st) (install name (mkEntry (n_q en) (n_frames en ++ nf) c) (st_entries st)).
Proof.
  intros st name ch st' out nf m c H. rewrite (step_view st (OShow name ch) name eq_refl) in H. cbn [view_step] in H.
  destruct (lookup name (st_entries st)) as [en|]; [|inversion H].
  destruct (show_frames _ _ _ _ ch) as [nf'|] eqn:Sf; inversion H; subst. exists en. repeat split. exact Sf.
Qed.

Theorem show_eq_query_reach : forall st name ch st' out nf m c,
  reach st ->
  step st (OShow name ch) = (st', ObsShow out nf m c) ->
  exists en, lookup name (st_entries st) = Some en /\
    Permutation out (sel (n_q en) (st_layout st)) /\ NoDup (map e_k out).
Proof.
  intros st name ch st' out nf m c Hr Hs. pose proof (reach_inv _ Hr) as [Hl Hen].
  destruct (step_show_inversion _ _ _ _ _ _ _ _ Hs) as [en [Lk [Sf [Eo _]]]].
  exists en. split; [exact Lk|].
  pose proof (proj1 (show_step _ _ _ _ Hl (Hen _ _ (lookup_In _ _ _ Lk)) Sf)) as Hp. rewrite <- Eo in Hp.
  split; [exact Hp|].
  eapply Permutation_NoDup; [apply Permutation_map; apply Permutation_sym; exact Hp|].
  unfold sel. apply nodup_map_filter. apply layout_ok_nodup_keys. exact Hl.
Qed.

Theorem show_eq_query_outside_known : forall ops st, reach st -> no_known st ops -> shows_ok st ops.
Proof.
  induction ops as [|o r IH]; intros st Hr; cbn [no_known shows_ok]; [trivial|].
  intros [Hg Hn]. split; [|apply IH; [apply reach_step; assumption|exact Hn]].
  unfold show_ok. destruct o as [l|name q ch|name ch|name ch]; try exact I.
  destruct (step st (OShow name ch)) as [st' ob] eqn:Hs. cbn [snd].
  destruct ob as [| | |out nf m c| | |]; try exact I.
  destruct (show_eq_query_reach _ _ _ _ _ _ _ _ Hr Hs) as [en [Lk [Hp _]]]. rewrite Lk.
  pose proof (reach_inv _ Hr) as [Hl Hen]. apply perm_is_answer; [exact Hl|apply (Hen _ _ (lookup_In _ _ _ Lk))|exact Hp].
Qed.

Theorem show_idempotent : forall st name ch1 ch2 st1 out1 nf1 m1 c1 st2 out2 nf2 m2 c2,
  reach st ->
  step st (OShow name ch1) = (st1, ObsShow out1 nf1 m1 c1) ->
  step st1 (OShow name ch2) = (st2, ObsShow out2 nf2 m2 c2) ->
  Permutation out2 out1 /\ nf2 = [] /\ m2 = m1 /\ c2 = c1.
Proof.
  intros st name ch1 ch2 st1 out1 nf1 m1 c1 st2 out2 nf2 m2 c2 Hr H1 H2.
  destruct (reach_inv _ Hr) as [Hl Hen].
  destruct (step_show_inversion _ _ _ _ _ _ _ _ H1) as [en [Lk [Sf1 [-> [-> [-> ->]]]]]].
  destruct (step_show_inversion _ _ _ _ _ _ _ _ H2) as [en1 [Lk1 [Sf2 [-> [-> [-> _]]]]]].
  cbn [st_entries] in Lk1. rewrite lookup_install, N.eqb_refl in Lk1. injection Lk1 as <-.
  pose proof (Hen _ _ (lookup_In _ _ _ Lk)) as Hi.
  destruct (show_step _ _ _ _ Hl Hi Sf1) as [Hp1 [Hi1 _]].
  destruct (show_step _ _ _ _ Hl Hi1 Sf2) as [Hp2 [_ Hne]]. cbn [n_q n_frames n_cat st_layout] in *.
  (* both outputs are the selection, and the second is the first followed by the new frames: these are empty *)
  pose proof (perm_trans Hp2 (Permutation_sym Hp1)) as Hp. split; [exact Hp|].
  rewrite !show_output_core, concat_app in Hp by apply Hi. rewrite <- (app_nil_r (concat _ ++ concat nf1)) in Hp at 2.
  apply Permutation_app_inv_l, Permutation_sym, Permutation_nil in Hp.
  assert (nf2 = []) as ->.
  { destruct nf2 as [|[|x f] r]; [reflexivity|elim Hne; left; reflexivity|discriminate Hp]. }
  rewrite app_nil_r. split; [reflexivity|split; [reflexivity|apply cat_after_same]].
Qed.

Theorem failed_show_then_show_exact : forall st name ch1 st1 ap m1 c1 ops st2 name2 ch2 st3 out nf m c,
  reach st -> good_op st (OShowFail name ch1) ->
  step st (OShowFail name ch1) = (st1, ObsShowFailed ap m1 c1) ->
  no_known st1 ops -> st2 = run_state st1 ops ->
  step st2 (OShow name2 ch2) = (st3, ObsShow out nf m c) ->
  exists en, lookup name2 (st_entries st2) = Some en /\
    Permutation out (sel (n_q en) (st_layout st2)) /\ NoDup (map e_k out).
Proof.
  intros st name ch1 st1 ap m1 c1 ops st2 name2 ch2 st3 out nf m c Hr Hg H1 Hn E2 H3.
  assert (Hr1 : reach st1).
  { pose proof (reach_step _ _ Hr Hg) as R. rewrite H1 in R. exact R. }
  subst st2. eapply show_eq_query_reach; [exact (reach_run ops st1 Hr1 Hn)|exact H3].
Qed.

Theorem failed_show_state : forall st name ch st' ap m c en,
  lookup name (st_entries st) = Some en ->
  step st (OShowFail name ch) = (st', ObsShowFailed ap m c) ->
  c = n_cat en /\ m = frames_mark (n_frames en ++ ap) /\
  lookup name (st_entries st') = Some (mkEntry (n_q en) (n_frames en ++ ap) (n_cat en)).
Proof.
  intros st name ch st' ap m c en Lk H. rewrite (step_view st (OShowFail name ch) name eq_refl), Lk in H. cbn [view_step] in H.
  destruct (show_fail_frames _ _ _ _ ch) as [[ap' rest]|]; inversion H; subst. cbn [st_entries].
  rewrite lookup_install, N.eqb_refl. auto.
Qed.

Theorem remember_dup_rejected : forall st name q ch en,
  lookup name (st_entries st) = Some en -> step st (ORemember name q ch) = (st, ObsRejected).
Proof. intros st name q ch en H. cbn [step]. rewrite H. reflexivity. Qed.

Theorem remember_fresh_accepted : forall st name q ch,
  lookup name (st_entries st) = None -> snd (step st (ORemember name q ch)) <> ObsRejected.
Proof.
  intros st name q ch H. cbn [step]. rewrite H.
  destruct (remember_frames q (st_layout st) ch); cbn [snd]; discriminate.
Qed.

Theorem frame_property : forall st o b, op_view o <> Some b ->
  lookup b (st_entries (fst (step st o))) = lookup b (st_entries st).
Proof.
  intros st o b H. destruct (op_view o) as [a|] eqn:V; [|destruct o; try discriminate V; reflexivity].
  rewrite (step_view st o a V). destruct (view_step _ o _) as [[e|] ob]; [|reflexivity].
  cbn [fst st_entries]. rewrite lookup_install. destruct (N.eqb_spec b a) as [->|_]; [contradiction|reflexivity].
Qed.

Theorem frame_property_history : forall ops st b,
  (forall o, In o ops -> op_view o <> Some b) ->
  lookup b (st_entries (run_state st ops)) = lookup b (st_entries st).
Proof.
  induction ops as [|o r IH]; intros st b H; cbn [run_state fold_left]; [reflexivity|].
  fold (run_state (fst (step st o)) r). rewrite IH.
  - apply frame_property. apply H. left. reflexivity.
  - intros o' Ho'. apply H. right. exact Ho'.
Qed.

Theorem view_independent : forall st st' o a,
  op_view o = Some a ->
  st_layout st = st_layout st' ->
  lookup a (st_entries st) = lookup a (st_entries st') ->
  snd (step st o) = snd (step st' o) /\
  lookup a (st_entries (fst (step st o))) = lookup a (st_entries (fst (step st' o))).
Proof.
  intros st st' o a V El Ek. rewrite !(step_view _ o a V), <- El, <- Ek.
  destruct (view_step _ o _) as [[e|] ob]; cbn [fst snd st_entries]; [|auto].
  rewrite !lookup_install, N.eqb_refl. auto.
Qed.

Lemma max_of_le : forall f l b, (forall e, In e l -> f e <= b) -> max_of f l <= b.
Proof.
  intros f l b H. induction l as [|x l IH]; cbn [max_of fold_right]; [lia|].
  pose proof (H x (or_introl eq_refl)). assert (max_of f l <= b) by (apply IH; intros e He; apply H; right; exact He).
  unfold max_of in *. lia.
Qed.

Lemma max_of_lt_all : forall f l b, 0 < b -> (forall e, In e l -> f e < b) -> max_of f l < b.
Proof.
  intros f l b Hb H. assert (max_of f l <= b - 1) by (apply max_of_le; intros e He; specialize (H e He); lia). lia.
Qed.

Theorem monotone_clock_not_late : forall st l,
  Inv st -> zero_id l = false ->
  (forall e, In e (content l) -> ~ In e (content (st_layout st)) ->
     forall e0, In e0 (content (st_layout st)) -> e_ts e0 <= e_ts e /\ e_id e0 < e_id e) ->
  some_late st l = false.
Proof.
  intros st l [Hl Hen] Hz Hmono. unfold some_late. apply existsb_false. intros [name en] Hin. cbn [snd].
  unfold late_for. apply existsb_false. intros e He.
  destruct (in_events e (content (st_layout st))) eqn:Hnew; [reflexivity|].
  destruct (matches (n_q en) e); [|reflexivity]. cbn [negb andb]. apply mle_false.
  assert (Hn : ~ In e (content (st_layout st))) by (intro X; apply in_events_In in X; congruence).
  unfold zero_id in Hz. apply existsb_false with (x := e) in Hz; [|exact He].
  assert (Hrows : forall f r, In f (n_frames en) -> In r f -> In r (content (st_layout st))).
  { intros f r Hf Hr. destruct (Hen name en Hin) as [_ [Hp _]].
    assert (Hc : In r (concat (n_frames en))) by (apply in_concat; exists f; split; assumption).
    eapply Permutation_in in Hc; [|exact Hp]. apply filter_In in Hc. apply Hc. }
  rewrite frames_mark_fold. apply fold_mark_lt_iff. split; [apply mlt_spec; cbn [ekey fst snd]; lia|].
  intros f Hf. apply mlt_spec. unfold frame_mark, ekey; cbn [fst snd].
  assert (H1 : max_of e_ts f <= e_ts e).
  { apply max_of_le. intros r Hr. apply (Hmono e He Hn r (Hrows f r Hf Hr)). }
  assert (H2 : max_of e_id f < e_id e).
  { apply max_of_lt_all; [lia|]. intros r Hr. apply (Hmono e He Hn r (Hrows f r Hf Hr)). }
  lia.
Qed.

Fixpoint classes_along (st : state) (ops : list op) : list known_class :=
  match ops with
  | [] => []
  | o :: r => classes_of st o ++ classes_along (fst (step st o)) r
  end.
(** side conditions that are not C14's business hold along the history *)
Fixpoint side_ok (st : state) (ops : list op) : bool :=
  match ops with
  | [] => true
  | o :: r => (match o with OSetLayout l => keeps_events st l && negb (zero_id l) | _ => true end)
              && side_ok (fst (step st o)) r
  end.

Definition q_all : query := mkQuery None None None TCore true None 0.
Definition ev (k ts pt id : N) : event := mkEvent k ts pt id 0 0 0.

(** No class — one shard, an older event in a segment, a newer one in the memtable; REMEMBER receives the
    memtable batch first, the segment batch last: the mark is the maximum over both, the next SHOW delivers
    nothing again ([former_lastframe_witness_now_exact]). *)
Definition w_lastframe : list op :=
  [ OSetLayout [mkShard [ev 2 20 0 200] [mkSeg 20 [[ev 1 10 0 100]]]];
    ORemember 1 q_all [(0, []); (1, [])];
    OShow 1 [] ].

(** PayloadTimeField — USING pt: an event whose payload time is above the core-timestamp mark is
    delivered again by every SHOW; an event arriving later with a payload time below the mark never shows. *)
Definition q_pt : query := mkQuery None None None TPayload true None 0.
Definition w_payload_dup : list op :=
  [ OSetLayout [mkShard [ev 1 10 50 100] []];
    ORemember 1 q_pt [(0, [])];
    OShow 1 [(0, [])] ].
Definition w_payload_lost : list op :=
  [ OSetLayout [mkShard [ev 1 10 10 100] []];
    ORemember 1 q_pt [(0, [])];
    OSetLayout [mkShard [ev 1 10 10 100; ev 2 20 5 200] []];
    OShow 1 [] ].
(** … and with RETURN omitting the time field the watermark filter is off: the raw delta is appended to the
    frames on every SHOW and comes back twice from the second SHOW on *)
Definition q_pt_hidden : query := mkQuery None None None TPayload false None 0.
Definition w_payload_hidden : list op :=
  [ OSetLayout [mkShard [ev 1 10 50 100] []];
    ORemember 1 q_pt_hidden [(0, [])];
    OShow 1 [(0, [])];
    OShow 1 [(0, [])] ].

(** EventNotAboveMark — frozen clock: the remembered event was applied on shard 1, a later event of the
    same second and millisecond on shard 0 gets a smaller id and stays below the mark for ever. *)
Definition w_same_ms : list op :=
  [ OSetLayout [mkShard [] []; mkShard [ev 1 10 0 4196] []];
    ORemember 1 q_all [(2, [])];
    OSetLayout [mkShard [ev 2 10 0 100] []; mkShard [ev 1 10 0 4196] []];
    OShow 1 [] ].

(** … and without any clock anomaly in the lexicographic sense: the mark's two components are independent
    maxima, (10, 200) here, a pair no stored row carries; the new event (10, 150) is above every stored row
    ((9, 200) and (10, 100)) and still below the mark. *)
Definition w_component_max : list op :=
  [ OSetLayout [mkShard [ev 1 9 0 200; ev 2 10 0 100] []];
    ORemember 1 q_all [(0, [])];
    OSetLayout [mkShard [ev 1 9 0 200; ev 2 10 0 100; ev 3 10 0 150] []];
    OShow 1 [] ].

(** LimitNotReapplied — LIMIT is applied when REMEMBER stores, never when SHOW answers. *)
Definition q_lim1 : query := mkQuery None None None TCore true (Some 1) 0.
Definition w_limit : list op :=
  [ OSetLayout [mkShard [ev 1 10 0 100] []];
    ORemember 1 q_lim1 [(0, [1])];
    OSetLayout [mkShard [ev 1 10 0 100; ev 2 20 0 200] []];
    OShow 1 [(0, [2])] ].

(** RawStreamDuplicates — REMEMBER inside a flush window: the event is in the passive memtable and in
    the published segment; QUERY drops the repeated id, REMEMBER stores both rows. *)
Definition w_window : list op :=
  [ OSetLayout [mkShard [ev 1 10 0 100] [mkSeg 10 [[ev 1 10 0 100]]]];
    ORemember 1 q_all [(0, []); (1, [])];
    OSetLayout [mkShard [] [mkSeg 10 [[ev 1 10 0 100]]]];
    OShow 1 [] ].

(** SegmentOlderThanEvent — events stamped ahead of the file-system clock: the segment holding the new
    event has an mtime below mark.ts - 1 and is skipped whole. *)
Definition w_mtime : list op :=
  [ OSetLayout [mkShard [ev 1 100 0 100] []];
    ORemember 1 q_all [(0, [])];
    OSetLayout [mkShard [] [mkSeg 50 [[ev 1 100 0 100; ev 2 110 0 200]]]];
    OShow 1 [] ].

(** InterruptedRefresh — the client hangs up during a SHOW whose delta arrives in two batches; the delta task
    is aborted after it appended the memtable batch (the newer event) and before the segment batch (the older one):
    the store's mark is now above the older event, no later SHOW delivers it. *)
Definition w_interrupted : list op :=
  [ ORemember 1 q_all [];
    OSetLayout [mkShard [ev 2 20 0 200] [mkSeg 20 [[ev 1 10 0 100]]]];
    OShowFail 1 [(0, [])];
    OShow 1 [] ].

Lemma refuted_by : forall ops, shows_ok_b init ops = false -> ~ shows_ok init ops.
Proof. intros ops H Hs. apply shows_ok_b_true in Hs. congruence. Qed.

Definition witness_of (c : known_class) (ops : list op) : Prop :=
  side_ok init ops = true /\
  (forall c', In c' (classes_along init ops) -> c' = c) /\
  ~ In ObsBadChoice (run init ops) /\
  ~ shows_ok init ops.

Ltac witness :=
  split; [vm_compute; reflexivity|
  split; [vm_compute; intros c' H; repeat (destruct H as [H|H]; [symmetry; exact H|]); contradiction|
  split; [vm_compute; intros H; repeat (destruct H as [H|H]; [discriminate H|]); contradiction|
  apply refuted_by; vm_compute; reflexivity]]].

Example former_lastframe_witness_now_exact :
  classes_along init w_lastframe = [] /\ ~ In ObsBadChoice (run init w_lastframe) /\ shows_ok_b init w_lastframe = true
  /\ no_known init w_lastframe.
Proof.
  split; [vm_compute; reflexivity|]. split; [vm_compute; intros H; repeat (destruct H as [H|H]; [discriminate H|]); contradiction|].
  split; [vm_compute; reflexivity|]. cbn [no_known w_lastframe]. repeat split; vm_compute; reflexivity.
Qed.
Theorem show_eq_query_refuted_payload_dup : witness_of PayloadTimeField w_payload_dup.
Proof. witness. Qed.
Theorem show_eq_query_refuted_payload_lost : witness_of PayloadTimeField w_payload_lost.
Proof. witness. Qed.
Theorem show_eq_query_refuted_payload_hidden : witness_of PayloadTimeField w_payload_hidden.
Proof. witness. Qed.
Theorem show_eq_query_refuted_same_ms : witness_of EventNotAboveMark w_same_ms.
Proof. witness. Qed.
Theorem show_eq_query_refuted_component_max : witness_of EventNotAboveMark w_component_max.
Proof. witness. Qed.
Theorem show_eq_query_refuted_limit : witness_of LimitNotReapplied w_limit.
Proof. witness. Qed.
Theorem show_eq_query_refuted_window : witness_of RawStreamDuplicates w_window.
Proof. witness. Qed.
Theorem show_eq_query_refuted_mtime : witness_of SegmentOlderThanEvent w_mtime.
Proof. witness. Qed.

Theorem show_eq_query_refuted_interrupted : witness_of InterruptedRefresh w_interrupted.
Proof. witness. Qed.

Theorem show_eq_query_refuted : exists ops, side_ok init ops = true /\ ~ shows_ok init ops.
Proof. exists w_payload_dup. destruct show_eq_query_refuted_payload_dup as [H [_ [_ H']]]. split; assumption. Qed.

(** The hypotheses of the positive theorems are satisfiable: two shards, events before REMEMBER, between REMEMBER and
    SHOW and between SHOWs, a flush, a compaction-like re-zoning, an event on the high-water second. *)
Definition q_ex : query := mkQuery (Some 0) (Some (CGe, 1)) (Some 5) TCore true None 0.
Definition x1 := mkEvent 1 10 0 4196 0 1 0.
Definition x2 := mkEvent 2 10 0 8000 0 0 0.   (* fails WHERE *)
Definition x3 := mkEvent 3 11 0 9000 0 2 0.
Definition x4 := mkEvent 4 11 0 9500 0 3 0.   (* same second as the mark *)
Definition x5 := mkEvent 5 12 0 12000 1 5 0.  (* other context *)
Definition x6 := mkEvent 6 13 0 13000 0 7 0.
Definition ex_ops : list op :=
  [ OSetLayout [mkShard [x2] []; mkShard [x1] []];
    ORemember 7 q_ex [(2, [])];
    ORemember 7 q_ex [(2, [])];
    OSetLayout [mkShard [x2] []; mkShard [x3] [mkSeg 11 [[x1]]]];
    OShow 7 [(2, [])];
    OSetLayout [mkShard [x2; x5] []; mkShard [x4] [mkSeg 11 [[x1]]; mkSeg 11 [[x3]]]];
    OShow 7 [(2, [])];
    OShow 7 [];
    OSetLayout [mkShard [x5] [mkSeg 12 [[x2]]]; mkShard [x6] [mkSeg 12 [[x1; x3]; [x4]]]];
    OShow 7 [(2, [])] ].

Example ex_no_known : no_known init ex_ops.
Proof. cbn [no_known ex_ops]. repeat apply conj; vm_compute; reflexivity. Qed.

Example ex_outputs :
  map (fun o => match o with ObsShow out _ _ _ => map e_k out | ObsRejected => [99] | _ => [] end) (run init ex_ops)
  = [[]; []; [99]; []; [1; 3]; []; [1; 3; 4]; [1; 3; 4]; []; [1; 3; 4; 6]].
Proof. vm_compute. reflexivity. Qed.

(** … and with failed SHOWs: one that appended nothing new, one that appended its whole delta (the usual case: the
    response is buffered and fails at the final flush), one that appended only the older of two batches. *)
Definition y1 := ev 1 10 0 100.
Definition y2 := ev 2 11 0 200.
Definition y3 := ev 3 12 0 300.
Definition y4 := ev 4 13 0 400.
Definition ex_fail_ops : list op :=
  [ OSetLayout [mkShard [y1] []];
    ORemember 1 q_all [(0, [])];
    OShowFail 1 [];
    OSetLayout [mkShard [y1; y2] []];
    OShowFail 1 [(0, [])];
    OShow 1 [];
    OSetLayout [mkShard [y4] [mkSeg 12 [[y1; y2; y3]]]];
    OShowFail 1 [(1, [])];
    OShow 1 [(0, [])];
    OShow 1 [] ].

Example ex_fail_no_known : no_known init ex_fail_ops.
Proof. cbn [no_known ex_fail_ops]. repeat apply conj; vm_compute; reflexivity. Qed.

Example ex_fail_outputs :
  map (fun o => match o with
                | ObsShow out _ m c => (map e_k out, m, c)
                | ObsShowFailed ap m c => (map e_k (concat ap), m, c)
                | _ => ([], (0, 0), (0, 0)) end) (run init ex_fail_ops)
  = [ ([], (0, 0), (0, 0)); ([], (0, 0), (0, 0)); ([], (10, 100), (10, 100)); ([], (0, 0), (0, 0));
      ([2], (11, 200), (10, 100)); ([1; 2], (11, 200), (10, 100)); ([], (0, 0), (0, 0));
      ([3], (12, 300), (10, 100)); ([1; 2; 3; 4], (13, 400), (13, 400)); ([1; 2; 3; 4], (13, 400), (13, 400)) ].
Proof. vm_compute. reflexivity. Qed.

(** several views side by side: interleaved REMEMBER / STORE / re-zoning / SHOW a / failed SHOW b / SHOW c *)
Definition q_ge1 : query := mkQuery None (Some (CGe, 1)) None TCore true None 0.
Definition q_eq0 : query := mkQuery None (Some (CEq, 0)) None TCore true None 0.
Definition q_ty1 : query := mkQuery None None None TCore true None 1.
Definition z1 := mkEvent 1 10 0 100 0 1 0.
Definition z2 := mkEvent 2 10 0 200 0 0 0.
Definition z3 := mkEvent 3 11 0 300 0 2 1.
Definition z4 := mkEvent 4 12 0 400 0 3 0.
Definition z5 := mkEvent 5 12 0 500 0 0 1.
Definition ex_views_ops : list op :=
  [ OSetLayout [mkShard [z1; z2; z3] []];
    ORemember 1 q_ge1 [(0, [])];
    ORemember 2 q_eq0 [(0, [])];
    ORemember 3 q_ty1 [(0, [])];
    ORemember 2 q_ge1 [(0, [])];
    OSetLayout [mkShard [z4; z5] [mkSeg 11 [[z1; z2]]; mkSeg 11 [[z3]]]];
    OShow 1 [(0, [])];
    OShowFail 3 [(0, [])];
    OShow 2 [];
    OShow 3 [];
    OShow 1 [] ].

Example ex_views_no_known : no_known init ex_views_ops.
Proof. cbn [no_known ex_views_ops]. repeat apply conj; vm_compute; reflexivity. Qed.

Example ex_views_outputs :
  map (fun o => match o with ObsShow out _ _ _ => map e_k out | ObsRejected => [99] | ObsShowFailed ap _ _ => 77 :: map e_k (concat ap) | _ => [] end)
      (run init ex_views_ops)
  = [[]; []; []; []; [99]; []; [1; 4]; [77; 5]; [2]; [3; 5]; [1; 4]].
Proof. vm_compute. reflexivity. Qed.

Example ex_reach : reach (fst (step init (OSetLayout [mkShard [x2] []; mkShard [x1] []]))).
Proof. apply reach_step; [apply reach_init|]. repeat split; vm_compute; reflexivity. Qed.
