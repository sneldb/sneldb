(** C16 — "the same instant on every path": the call sites of Model/TimeSites.v agree
    on every literal, up to the classified exceptions; the temporal pruner never loses a
    matching zone outside the known classes.  Model/Temporal.v models the same pruner for C08 and no lemma
    relates the two.  The variable [flag] of the pruner statements is the model's [is_timestamp] argument,
    not a value of Gen/Params.v. *)
From Coq Require Import ZArith List Bool Lia.
From Coq Require Import ZifyBool ZifyN.
From Snel Require Import Base.Bytes Gen.Params Model.Time Model.TimeSites
                         Proofs.TimeProofs Proofs.TimeIsoProofs Proofs.DecimalFacts Proofs.ListFacts.
Import ListNotations.
Open Scope Z_scope.
Section Sites.
(* [lia] takes quotients apart anyway once ZifyN is loaded; this stands in for ZifyBool's hook,
   the case analysis on the booleans of the context, which is slow here and not needed *)
Local Ltac Zify.zify_post_hook ::= Z.div_mod_to_equations.

Lemma all_digits_val_fold : forall ds acc,
  all_digit ds -> all_digits_val ds (Z.of_N acc) = Some (Z.of_N (fold_left dec_step ds acc)).
Proof.
  intros ds acc Hd. revert acc.
  induction Hd as [|c ds Hc Hd IH]; intros acc; cbn [all_digits_val fold_left]; [reflexivity|].
  rewrite Hc, <- IH. f_equal. unfold dec_step. lia.
Qed.

Lemma all_digits_val_dec : forall n, all_digits_val (dec_of_N n) 0 = Some (Z.of_N n).
Proof.
  intros n. destruct (dec_of_N_digits n) as (Hd & _ & Hv & _).
  pose proof (all_digits_val_fold _ 0 Hd) as H. unfold dec_val in Hv. rewrite Hv in H. exact H.
Qed.

Lemma all_digits_forall : forall r acc v,
  all_digits_val r acc = Some v -> forallb is_digit r = true.
Proof.
  induction r as [|a r IH]; intros acc v H; cbn [all_digits_val forallb] in *; [reflexivity|].
  destruct (is_digit a) eqn:E; [|discriminate]. cbn [andb]. eapply IH; eauto.
Qed.

Lemma digits_last : forall l,
  l <> [] -> forallb is_digit l = true ->
  exists b la, l = b ++ [la] /\ is_digit la = true.
Proof.
  intros l Hne Hd. destruct (exists_last Hne) as [b [la E]]. subst l.
  rewrite forallb_app in Hd. apply andb_prop in Hd. destruct Hd as [_ Hl].
  cbn [forallb] in Hl. rewrite andb_true_r in Hl. exists b, la. split; [reflexivity|exact Hl].
Qed.

Lemma parse_int_str_other : forall c r,
  c <> 45%N -> c <> 43%N -> parse_int_str (c :: r) = all_digits_val (c :: r) 0.
Proof.
  intros c r H45 H43. unfold parse_int_str. other_byte c.
Qed.

Inductive int_shape : bytes -> Prop :=
| IS_signed : forall sg r, (sg = 45 \/ sg = 43)%N -> r <> [] -> forallb is_digit r = true -> int_shape (sg :: r)
| IS_plain : forall s, s <> [] -> forallb is_digit s = true -> int_shape s.

Lemma int_str_shape : forall s z, parse_int_str s = Some z -> int_shape s.
Proof.
  intros s z H. destruct s as [|c r]; [discriminate|].
  destruct (N.eqb_spec c 45) as [->|H45]; [|destruct (N.eqb_spec c 43) as [->|H43]].
  - destruct r as [|x r']; [discriminate|]. cbn [parse_int_str] in H.
    destruct (all_digits_val (x :: r') 0) as [w|] eqn:E; [|discriminate].
    apply IS_signed; [auto | discriminate | eapply all_digits_forall; exact E].
  - destruct r as [|x r']; [discriminate|]. cbn [parse_int_str] in H.
    apply IS_signed; [auto | discriminate | eapply all_digits_forall; exact H].
  - rewrite parse_int_str_other in H by assumption.
    apply IS_plain; [discriminate | eapply all_digits_forall; exact H].
Qed.

Lemma trim_of_int_str : forall s, int_shape s -> trim s = s.
Proof.
  intros s H. apply trim_id. destruct H as [sg r Hsg Hne Hd | s Hne Hd].
  - destruct (digits_last r Hne Hd) as [b [la [-> Hla]]].
    exists sg, (b ++ [la]), (sg :: b), la. repeat split; [destruct Hsg; subst; reflexivity | now apply digit_not_ws].
  - destruct (digits_last s Hne Hd) as [b [la [E Hla]]]. destruct s as [|c r]; [congruence|].
    exists c, r, b, la. repeat split; [exact E | | now apply digit_not_ws].
    cbn [forallb] in Hd. apply andb_prop in Hd. now apply digit_not_ws.
Qed.

Lemma scan_number_aux_rest_digits : forall max ds min acc v rest,
  forallb is_digit ds = true -> scan_number_aux ds min max acc = Some (v, rest) ->
  forallb is_digit rest = true.
Proof.
  induction max as [|max IH]; intros ds min acc v rest Hd H.
  - destruct ds; cbn [scan_number_aux] in H; destruct min; try discriminate;
      injection H as _ <-; exact Hd.
  - destruct ds as [|c r]; cbn [scan_number_aux] in H.
    + destruct min; [injection H as _ <-; reflexivity | discriminate].
    + cbn [forallb] in Hd. apply andb_prop in Hd. destruct Hd as [Hc Hr]. rewrite Hc in H.
      eapply IH; [exact Hr | exact H].
Qed.

Lemma scan_char_digits_none : forall rest, forallb is_digit rest = true -> scan_char rest 45 = None.
Proof.
  intros rest H. destruct rest as [|c r]; [reflexivity|].
  cbn [forallb] in H. apply andb_prop in H. destruct H as [Hc _]. apply is_digit_range in Hc.
  unfold scan_char. destruct (N.eqb_spec c 45); [lia | reflexivity].
Qed.

Lemma scan_digits_all_digits : forall ds acc seen,
  forallb is_digit ds = true ->
  scan_digits_all ds acc seen = None \/ exists v, scan_digits_all ds acc seen = Some (v, []).
Proof.
  induction ds as [|c r IH]; intros acc seen Hd; cbn [scan_digits_all].
  - destruct seen; [right; eexists; reflexivity | left; reflexivity].
  - cbn [forallb] in Hd. apply andb_prop in Hd. destruct Hd as [Hc Hr]. rewrite Hc.
    destruct (acc * 10 + Z.of_N (digit_val c) >? i64_max); [left; reflexivity | apply IH; exact Hr].
Qed.

Lemma rfc3339_rejects_int_str : forall s, int_shape s -> parse_rfc3339 s = None.
Proof.
  intros s0 [sg r Hsg Hne Hd | s Hne Hd].
  - unfold parse_rfc3339, scan_number. destruct Hsg; subst; reflexivity.
  - unfold parse_rfc3339. destruct (scan_number s 4 4) as [[y rest]|] eqn:E; [|reflexivity].
    unfold scan_number in E.
    rewrite (scan_char_digits_none rest (scan_number_aux_rest_digits _ _ _ _ _ _ Hd E)). reflexivity.
Qed.

Lemma date_only_rejects_int_str : forall s, int_shape s -> parse_date_only s = None.
Proof.
  intros s0 [sg r Hsg Hne Hd | s Hne Hd].
  - unfold parse_date_only, scan_year.
    destruct Hsg; subst sg; (rewrite trim_start_nonws by reflexivity);
      destruct (scan_digits_all_digits r 0 false Hd) as [E|[v E]]; rewrite E; reflexivity.
  - destruct s as [|c r]; [congruence|].
    assert (Hc : is_digit c = true) by (cbn [forallb] in Hd; apply andb_prop in Hd; tauto).
    unfold parse_date_only. rewrite scan_year_digit by exact Hc.
    destruct (scan_number (c :: r) 1 4) as [[y rest]|] eqn:E; [|reflexivity].
    unfold scan_number in E.
    rewrite (scan_char_digits_none rest (scan_number_aux_rest_digits _ _ _ _ _ _ Hd E)). reflexivity.
Qed.

Theorem numeric_string_is_integer : forall s z,
  parse_int_str s = Some z -> parse_str_to_epoch_seconds s = normalize_integer_epoch z.
Proof.
  intros s z H. pose proof (int_str_shape s z H) as S. unfold parse_str_to_epoch_seconds.
  rewrite (trim_of_int_str s S), (rfc3339_rejects_int_str s S), (date_only_rejects_int_str s S), H.
  reflexivity.
Qed.

Lemma parse_dec_of_Z : forall n, parse_int_str (dec_of_Z n) = Some n.
Proof.
  intros n. destruct n as [|p|p]; [reflexivity| |]; cbn [dec_of_Z];
    pose proof (all_digits_val_dec (Npos p)) as Hv; destruct (dec_of_N_head (Npos p)) as (c & r & E & Hc);
    rewrite E in *.
  - apply is_digit_range in Hc. rewrite parse_int_str_other by lia. exact Hv.
  - cbn [parse_int_str]. rewrite Hv. reflexivity.
Qed.

Theorem decimal_string_is_integer : forall n,
  parse_str_to_epoch_seconds (dec_of_Z n) = normalize_integer_epoch n.
Proof. intros n. apply numeric_string_is_integer, parse_dec_of_Z. Qed.

Theorem all_string_spellings_agree : forall t frac sep off tz ws1 ws2 rms rus rns,
  iso_t_lo <= t <= iso_t_hi ->
  forallb is_digit frac = true -> sep_ok sep = true ->
  Z.abs off <= 1439 -> tz_ok off tz ->
  forallb is_ascii_ws ws1 = true -> forallb is_ascii_ws ws2 = true ->
  0 <= rms < 1000 -> 0 <= rus < 1000000 -> 0 <= rns < 1000000000 ->
  parse_str_to_epoch_seconds (ws1 ++ TimePrint.print_instant_gen t frac sep off tz ++ ws2) = Some t /\
  (Z.abs t < 10 ^ 11 -> parse_str_to_epoch_seconds (dec_of_Z t) = Some t) /\
  (10 ^ 11 <= Z.abs (t * 1000 + rms) < 10 ^ 14 ->
     parse_str_to_epoch_seconds (dec_of_Z (t * 1000 + rms)) = Some t) /\
  (10 ^ 14 <= Z.abs (t * 1000000 + rus) < 10 ^ 16 ->
     parse_str_to_epoch_seconds (dec_of_Z (t * 1000000 + rus)) = Some t) /\
  (10 ^ 16 <= Z.abs (t * 1000000000 + rns) < 10 ^ 19 ->
     parse_str_to_epoch_seconds (dec_of_Z (t * 1000000000 + rns)) = Some t).
Proof.
  intros t frac sep off tz ws1 ws2 rms rus rns Ht Hfr Hsep Hoff Htz H1 H2 Hms Hus Hns.
  destruct (unit_spellings_agree t rms rus rns Hms Hus Hns) as [A [B [C D]]].
  split; [apply iso_string_agree; assumption|].
  repeat split; intros Hb; rewrite decimal_string_is_integer; auto.
Qed.

Lemma int_str_unparsable : forall s z,
  parse_int_str s = Some z -> (parse_str_to_epoch_seconds s = None <-> 10 ^ 19 <= Z.abs z).
Proof. intros s z H. rewrite (numeric_string_is_integer s z H). apply normalize_none_iff. Qed.

(** The [since.parse::<i64>()] / [as_i64] fall-backs behind the time parser are dead:
    what the time parser refuses does not parse as i64 either. *)
Lemma i64_fallback_dead : forall s,
  parse_str_to_epoch_seconds s = None -> parse_i64_str s = None.
Proof.
  intros s Hn. unfold parse_i64_str. destruct (parse_int_str s) as [w|] eqn:E; [|reflexivity].
  apply (int_str_unparsable s w E) in Hn.
  destruct (try_i64 w) as [v|] eqn:F; [|reflexivity].
  apply try_i64_some in F as [_ B]. unfold i64_min, i64_max in B. lia.
Qed.

Definition u64_checked (d : bytes) : option Z :=
  match all_digits_val d 0 with
  | Some z => if z <=? u64_max then Some z else None
  | None => None
  end.

Lemma parse_u64_other : forall c r, c <> 43%N -> parse_u64_str (c :: r) = u64_checked (c :: r).
Proof.
  intros c r H43. unfold parse_u64_str, u64_checked. other_byte c.
Qed.

Lemma parse_u64_plus : forall x r, parse_u64_str (43%N :: x :: r) = u64_checked (x :: r).
Proof. reflexivity. Qed.

Lemma all_digits_nonneg : forall d a v, 0 <= a -> all_digits_val d a = Some v -> 0 <= v.
Proof.
  induction d as [|c d IH]; intros a v Ha Hv; cbn [all_digits_val] in Hv.
  - injection Hv as <-. exact Ha.
  - destruct (is_digit c); [|discriminate]. eapply IH; [|exact Hv]. lia.
Qed.

Lemma u64_checked_spec : forall d u,
  u64_checked d = Some u -> all_digits_val d 0 = Some u /\ 0 <= u <= u64_max.
Proof.
  intros d u H. unfold u64_checked in H.
  destruct (all_digits_val d 0) as [w|] eqn:E; [|discriminate].
  destruct (Z.leb_spec w u64_max); [|discriminate]. injection H as <-.
  split; [reflexivity|]. split; [eapply all_digits_nonneg; [|exact E]; lia | lia].
Qed.

Lemma parse_u64_is_int_str : forall s u,
  parse_u64_str s = Some u -> parse_int_str s = Some u /\ 0 <= u <= u64_max.
Proof.
  intros s u H. destruct s as [|c r]; [discriminate|].
  destruct (N.eqb_spec c 43) as [->|H43].
  - destruct r as [|x r']; [discriminate|].
    rewrite parse_u64_plus in H.
    destruct (u64_checked_spec _ _ H) as [E Hu].
    split; [cbn [parse_int_str]; exact E | exact Hu].
  - rewrite parse_u64_other in H by exact H43.
    destruct (u64_checked_spec _ _ H) as [E Hu].
    pose proof (all_digits_forall _ _ _ E) as Hd. cbn [forallb] in Hd.
    apply andb_prop in Hd. destruct Hd as [Hc _]. apply is_digit_range in Hc.
    rewrite parse_int_str_other by lia.
    split; [exact E | exact Hu].
Qed.

(** a [parse::<u64>()] fall-back behind the time parser *)
Lemma u64_fallback_range : forall s u,
  parse_str_to_epoch_seconds s = None -> parse_u64_str s = Some u -> 10 ^ 19 <= u <= u64_max.
Proof.
  intros s u Hn Hu. destruct (parse_u64_is_int_str s u Hu) as [Hi [H0 Hmax]].
  apply (int_str_unparsable s u Hi) in Hn. lia.
Qed.

Definition temporal_ft (ft : ftype) : Prop := is_temporal ft = true.

(** Holds for [tsite_pruner_clamps = false] (no clamp, no u64 fall-back: sneldb commit db7c428); only the
    materialiser (spec.rs, unsigned watermark) clamps at 0.  A literal no parser accepts is [i64::MIN] for
    the pruner, i.e. it restricts nothing. *)
Theorem sites_agree : forall (s : bytes) (ft : ftype),
  temporal_ft ft ->
  match parse_str_to_epoch_seconds s with
  | Some z =>
      site_payload ft (Some (TStr s)) = PNum z
      /\ site_where (TStr s) = CNum z
      /\ site_since_row s = SinceNum z
      /\ site_filter ft (TStr s) = SInt z
      /\ pruner_ts (site_since_filter s) = z
      /\ pruner_ts (site_filter ft (TStr s)) = z
      /\ parse_since_epoch s = Some (Z.max z 0)
  | None =>
      site_payload ft (Some (TStr s)) = PErr
      /\ site_where (TStr s) = CStr
      /\ site_since_row s = SinceIgnored
      /\ site_filter ft (TStr s) = SUtf8 s
      /\ pruner_ts (SUtf8 s) = - 2 ^ 63
  end.
Proof.
  intros s ft Hft. unfold temporal_ft in Hft.
  assert (Pay : site_payload ft (Some (TStr s)) =
                match parse_str_to_epoch_seconds s with Some z => PNum z | None => PErr end).
  { unfold site_payload. rewrite Hft. cbn [is_null andb]. rewrite andb_false_r.
    cbn [normalize_json_value]. destruct (parse_str_to_epoch_seconds s); reflexivity. }
  assert (Fil : site_filter ft (TStr s) =
                match parse_str_to_epoch_seconds s with Some z => SInt z | None => SUtf8 s end).
  { unfold site_filter. rewrite Hft. cbn [scalar_of]. destruct (parse_str_to_epoch_seconds s); reflexivity. }
  rewrite Pay, Fil. unfold site_where, site_since_row, site_since_filter, parse_since_epoch, pruner_ts, pruner_ts_gen.
  cbn [scalar_of scalar_as_i64].
  destruct (parse_str_to_epoch_seconds s) as [z|] eqn:E; [repeat split|].
  rewrite (i64_fallback_dead s E). repeat split.
Qed.

Lemma matspec_u64_fallback_range : forall s u,
  parse_str_to_epoch_seconds s = None -> parse_since_epoch s = Some u -> 10 ^ 19 <= u <= u64_max.
Proof.
  intros s u Hn Hu. unfold parse_since_epoch in Hu. rewrite Hn in Hu.
  exact (u64_fallback_range s u Hn Hu).
Qed.

Lemma prune_literal_same : forall f op s z zones,
  parse_str_to_epoch_seconds s = Some z ->
  prune f op (SUtf8 s) zones = prune f op (SInt z) zones.
Proof. intros f op s z zones E. unfold prune, prune_gen, pruner_ts_gen. rewrite E. reflexivity. Qed.

Lemma zone_bounds : forall z t, In t (z_ts z) -> zmin z <= t <= zmax z.
Proof.
  intros z t Ht. unfold zmin, zmax. destruct (z_ts z) as [|x r]; [destruct Ht|].
  apply fold_left_min_max. destruct Ht as [<-|Ht]; [left; lia | right; exact Ht].
Qed.

Lemma buckets_in : forall g lo hi k,
  0 < g -> lo / g <= k <= hi / g -> In ((k * g) mod u32_mod) (buckets g lo hi).
Proof.
  intros g lo hi k Hg Hk. unfold buckets. apply in_map_iff.
  exists (Z.to_nat (k - lo / g)). split.
  - f_equal. f_equal. lia.
  - apply in_seq. lia.
Qed.

(** the comparison "stored stamp [t] <op> literal [v]" *)
Definition cmp_holds (op : cmpop) (t v : Z) : Prop :=
  match op with
  | OEq => t = v
  | OGt => v < t
  | OGte => v <= t
  | OLt => t < v
  | OLte => t <= v
  | _ => False
  end.

Lemma in_nonempty_filter : forall (f : zone -> bool) zones other z,
  In z (filter f zones) ->
  In z (match filter f zones with [] => other | hz => hz end).
Proof. intros f zones other z H. destruct (filter f zones); [destruct H | exact H]. Qed.

Lemma bucket_small : forall m x g,
  0 <= x < m -> 0 < g -> ((x / g) * g) mod m = (x / g) * g.
Proof.
  intros m x g Hx Hg. apply Z.mod_small.
  pose proof (Z.mul_div_le x g Hg). pose proof (Z.div_pos x g ltac:(lia) Hg). nia.
Qed.

Lemma bucket_id_mono : forall g a b, 0 < g -> 0 <= a -> a <= b -> b < u32_mod -> bucket_id g a <= bucket_id g b.
Proof.
  intros g a b Hg Ha Hab Hb. unfold bucket_id. rewrite !bucket_small by lia.
  pose proof (Z.div_le_mono a b g Hg Hab). nia.
Qed.

Lemma zone_bucket_in : forall guard g z x, 0 < g -> in_cal_gen guard z = true ->
  Z.max 0 (zmin z) <= x <= Z.max 0 (zmax z) -> In (bucket_id g x) (zone_buckets_gen guard g z).
Proof.
  intros guard g z x Hg Hcal Hx. unfold zone_buckets_gen, bucket_id. rewrite Hcal.
  apply buckets_in; [exact Hg|]. split; apply Z.div_le_mono; lia.
Qed.

Lemma zmin_le_zmax : forall z, zmin z <= zmax z.
Proof.
  intros z. unfold zmin, zmax. destruct (z_ts z) as [|x r]; [lia|].
  pose proof (fold_left_min_max r x x x (or_introl (conj (Z.le_refl x) (Z.le_refl x)))). lia.
Qed.

(** What the pruner needs of one zone of the calendar: the per-zone test, and
    an instant [x] of the zone's (clamped) range whose bucket the calendar lookup reaches.  Generic
    in [guard] (only zones without pre-epoch stamps enter the calendar) and [clamps] (the pruner
    clamps the literal); both are [false] in [Params]. *)
Theorem prune_gen_keeps : forall guard clamps fb dflt flag op sv zones z x,
  let v := wrap_i64 (pruner_ts_gen clamps fb dflt sv) in
  (clamps = true -> 0 <= v) ->
  In z zones -> in_cal_gen guard z = true -> zti_ok op v z = true ->
  Z.max 0 (zmin z) <= x <= Z.max 0 (zmax z) ->
  match op with
  | OEq => x = Z.max v 0
  | OGt | OGte => bucket_id tsite_bucket_day (Z.max v 0) <= bucket_id tsite_bucket_day x
  | _ => bucket_id tsite_bucket_day x <= bucket_id tsite_bucket_day (Z.max v 0)
  end ->
  exists ids, prune_gen guard clamps fb dflt flag op sv zones = Some ids /\ In (z_id z) ids.
Proof.
  intros guard clamps fb dflt flag op sv zones z x v Hcl Hz Hcal Hok Hx Hreach.
  assert (Hex : existsb (in_cal_gen guard) zones = true)
    by (apply existsb_exists; exists z; split; assumption).
  assert (Evc : (if clamps then v else Z.max v 0) = Z.max v 0)
    by (destruct clamps; [specialize (Hcl eq_refl); lia | reflexivity]).
  assert (Hneg : (Z.max v 0 <? 0) = false) by lia.
  unfold prune_gen. fold v. rewrite Evc, Hex, Hneg. cbn [negb].
  destruct op; try discriminate Hok;
    (eexists; split; [reflexivity|]; apply in_map, filter_In; split; [|exact Hok]).
  1: apply in_nonempty_filter.
  all: apply filter_In; split; [exact Hz|]; apply existsb_exists.
  (* [=]: the hour bucket of the instant itself; the range operators: a day bucket of the zone *)
  1: exists (bucket_id tsite_bucket_hour x).
  2-5: exists (bucket_id tsite_bucket_day x).
  all: split; [apply zone_bucket_in; [reflexivity | exact Hcal | exact Hx]|].
  1: rewrite Hreach; apply Z.eqb_refl.
  all: apply Z.leb_le, Hreach.
Qed.

Lemma u32_mod_range : 0 < u32_mod <= 2 ^ 63.
Proof. unfold u32_mod, tsite_bucket_mod. lia. Qed.

(** the zone's last / first instant is reached because bucket ids keep the order below [u32_mod] *)
Theorem prune_gen_sound : forall guard clamps fb dflt flag op v zones z t,
  - 2 ^ 63 <= v < u32_mod ->
  (clamps = true -> 0 <= v) ->
  (guard = true -> 0 <= zmin z) ->
  In z zones -> zmax z < u32_mod ->
  In t (z_ts z) -> cmp_holds op t v ->
  exists ids, prune_gen guard clamps fb dflt flag op (SInt v) zones = Some ids /\ In (z_id z) ids.
Proof.
  intros guard clamps fb dflt flag op v zones z t Hv Hcl Hgd Hz Hhi Ht Hc.
  pose proof (zone_bounds z t Ht) as Hb. pose proof u32_mod_range as Hm.
  assert (Ets : wrap_i64 (pruner_ts_gen clamps fb dflt (SInt v)) = v).
  { cbn [pruner_ts_gen]. unfold wrap_i64.
    destruct clamps; [rewrite Z.max_l by (specialize (Hcl eq_refl); lia)|]; destruct (Z.ltb_spec v (2 ^ 63)); lia. }
  assert (Hok : zti_ok op v z = true).
  { destruct op; cbn [cmp_holds] in Hc; try contradiction; cbn [zti_ok]; try lia.
    subst t. apply existsb_exists. exists v. split; [exact Ht | apply Z.eqb_refl]. }
  apply (prune_gen_keeps guard clamps fb dflt flag op (SInt v) zones z
           (match op with OEq => Z.max v 0 | OGt | OGte => Z.max 0 (zmax z) | _ => Z.max 0 (zmin z) end));
    rewrite ?Ets; try assumption.
  - unfold in_cal_gen. destruct guard; [specialize (Hgd eq_refl); lia | reflexivity].
  - destruct op; cbn [cmp_holds] in Hc; try contradiction; lia.
  - destruct op; cbn [cmp_holds] in Hc; try contradiction;
      [reflexivity | apply bucket_id_mono; [reflexivity | lia ..] ..].
Qed.

(** the bound [u32_mod] is class CalendarBucketWrapsAfter2106 *)
Theorem prune_sound : forall flag op v zones z t,
  - 2 ^ 63 <= v < u32_mod ->
  In z zones -> zmax z < u32_mod ->
  In t (z_ts z) -> cmp_holds op t v ->
  exists ids, prune flag op (SInt v) zones = Some ids /\ In (z_id z) ids.
Proof.
  intros flag op v zones z t Hv Hz Hhi Ht Hc.
  (* the instance [clamps = guard = false] of Gen/Params.v: both side conditions are void *)
  assert (Hcl : tsite_pruner_clamps = true -> 0 <= v) by (unfold tsite_pruner_clamps; discriminate).
  assert (Hgd : tsite_cal_guard = true -> 0 <= zmin z) by (unfold tsite_cal_guard; discriminate).
  exact (prune_gen_sound _ _ _ _ flag op v zones z t Hv Hcl Hgd Hz Hhi Ht Hc).
Qed.

(** the raw string literal: SINCE, or WHERE without planner rewriting *)
Corollary prune_sound_literal : forall flag op s v zones z t,
  parse_str_to_epoch_seconds s = Some v ->
  - 2 ^ 63 <= v < u32_mod ->
  In z zones -> zmax z < u32_mod ->
  In t (z_ts z) -> cmp_holds op t v ->
  exists ids, prune flag op (SUtf8 s) zones = Some ids /\ In (z_id z) ids.
Proof.
  intros flag op s v zones z t E. rewrite (prune_literal_same flag op s v zones E).
  apply prune_sound.
Qed.

Theorem unparsable_since_keeps_all : forall flag s zones z,
  parse_str_to_epoch_seconds s = None ->
  In z zones -> - 2 ^ 63 <= zmax z ->
  site_since_row s = SinceIgnored /\
  exists ids, prune flag OGte (site_since_filter s) zones = Some ids /\ In (z_id z) ids.
Proof.
  intros flag s zones z E Hz Hmax.
  split; [pose proof (sites_agree s FDateTime eq_refl) as H; rewrite E in H; tauto|].
  assert (Ets : wrap_i64 (pruner_ts (site_since_filter s)) = - 2 ^ 63)
    by (unfold pruner_ts, site_since_filter, pruner_ts_gen; rewrite E; reflexivity).
  pose proof (zmin_le_zmax z) as Hmm. unfold prune, pruner_ts in *.
  apply (prune_gen_keeps _ _ _ _ flag OGte _ zones z (Z.max 0 (zmin z))); rewrite ?Ets.
  - discriminate.
  - exact Hz.
  - reflexivity.
  - cbn [zti_ok]. lia.
  - lia.
  - change (bucket_id tsite_bucket_day (Z.max (- 2 ^ 63) 0)) with 0. apply Z.mod_pos_bound. reflexivity.
Qed.

Definition cmp_holds_sel (op : cmpop) (t v : Z) : Prop :=
  match op with ONeq => t <> v | _ => cmp_holds op t v end.

(** holds for [tsite_selector_neq_all_zones = true] of Gen/Params.v *)
Theorem select_unanswered_keeps_all : forall flag op sv zones z,
  op_unanswered op = true -> In z zones -> In (z_id z) (select_zones flag op sv zones).
Proof.
  intros flag op sv zones z Hop Hz. unfold select_zones.
  assert (E : prune flag op sv zones = None) by (destruct op; try discriminate Hop; reflexivity).
  rewrite E. unfold select_gen, tsite_selector_neq_all_zones. rewrite Hop. apply in_map, Hz.
Qed.

Corollary select_neq_keeps_all : forall flag sv zones z,
  In z zones -> In (z_id z) (select_zones flag ONeq sv zones).
Proof. intros flag sv zones z. exact (select_unanswered_keeps_all flag ONeq sv zones z eq_refl). Qed.

Theorem select_sound : forall flag op v zones z t,
  - 2 ^ 63 <= v < u32_mod ->
  In z zones -> zmax z < u32_mod ->
  In t (z_ts z) -> cmp_holds_sel op t v ->
  In (z_id z) (select_zones flag op (SInt v) zones).
Proof.
  intros flag op v zones z t Hv Hz Hhi Ht Hc.
  destruct (match op with ONeq => true | _ => false end) eqn:Eop; [|unfold select_zones].
  - destruct op; try discriminate. apply select_neq_keeps_all, Hz.
  - assert (Hc' : cmp_holds op t v) by (destruct op; try discriminate; exact Hc).
    destruct (prune_sound flag op v zones z t Hv Hz Hhi Ht Hc') as [ids [E Hin]].
    rewrite E. exact Hin.
Qed.

(** one witness of each class of known/C16.json that sneldb commits db7c428 / f801704 fixed: the right zones *)
Example fixed_witnesses :
  (* PreEpochZoneNotInCalendar *)
  prune false OEq (SInt 500) [mkZone 1 [0; 0]; mkZone 4 [-5; 500]] = Some [4%N]
  /\ prune false OGte (SInt 0) [mkZone 1 [0; 0]; mkZone 4 [-5; 500]] = Some [1%N; 4%N]
  /\ prune false OEq (SInt (-50)) [mkZone 0 [-100; -50]; mkZone 1 [0; 0]] = Some [0%N]
  (* NegativeInstantClampedByPruner *)
  /\ prune false OGt (SInt (-1)) [mkZone 1 [0; 0]; mkZone 2 [10; 20]] = Some [1%N; 2%N]
  (* UnparsableSinceU64WrapsNegative *)
  /\ prune false OGte (SUtf8 [49;48;48;48;48;48;48;48;48;48;48;48;48;48;48;48;48;48;48;48]%N)
       [mkZone 0 [-100; -50]; mkZone 1 [0; 0]; mkZone 2 [10; 20]] = Some [0%N; 1%N; 2%N]
  (* TemporalNeqPrunesAllZones *)
  /\ select_zones false ONeq (SInt 500) [mkZone 0 [0; 0]; mkZone 1 [10; 20]] = [0%N; 1%N].
Proof. repeat apply conj; vm_compute; reflexivity. Qed.

Example prune_sound_witness :
  prune false OEq (SInt 104) [mkZone 1 [100; 104]; mkZone 2 [200]] = Some [1%N]
  /\ prune false OGt (SInt 104) [mkZone 1 [100; 104]; mkZone 2 [200]] = Some [2%N]
  /\ prune false OGte (SInt 104) [mkZone 1 [100; 104]; mkZone 2 [200]] = Some [1%N; 2%N]
  /\ prune false OLt (SInt 104) [mkZone 1 [100; 104]; mkZone 2 [200]] = Some [1%N]
  /\ prune false OLte (SInt 100) [mkZone 1 [100; 104]; mkZone 2 [200]] = Some [1%N].
Proof. repeat apply conj; vm_compute; reflexivity. Qed.

(** [CalendarBucketWrapsAfter2106]: bucket ids are truncated to u32, so range lookups
    compare wrapped ids: a stamp in 2106 is not found by [t >= 1980-01-01]. *)
Example bucket_wrap_refuted :
  prune false OGte (SInt 315532800) [mkZone 3 [4295399296; 4295399297]] = Some []
  /\ cmp_holds OGte 4295399296 315532800.
Proof. split; [vm_compute; reflexivity | cbn; lia]. Qed.

End Sites.
