(** Proofs about Model/EventId.v (C18).
    [pack] is positional notation in the radices of its three fields ([pack_arith]), so for a fixed shard ids
    order as (millisecond, sequence number) does, on the states [good].  A call of the generator is one step
    [follows], a lifetime a chain of such steps ([run]), which increases in that order and stays [good] while the
    clock stays in the window; across a restart two runs are concatenated. *)
From Coq Require Import PeanoNat NArith List Bool Lia Sorted.
From Coq Require Import ZifyBool ZifyNat ZifyN.
From Snel Require Import Gen.Params Model.EventId Proofs.ListFacts.
Import ListNotations.
Open Scope N_scope.

(** * Side conditions on the regenerated parameters *)

Definition params_ok_b : bool :=
  (id_ts_bits + id_shard_bits + id_seq_bits =? 64) && (id_seq_bits <? 16)
  && (id_shard_bits <=? id_shard_cast_bits) && (id_synth_shift =? 32).

Lemma params_ok : params_ok_b = true.
Proof. vm_compute. reflexivity. Qed.

Lemma bits_sum : id_ts_bits + id_shard_bits + id_seq_bits = 64.
Proof. pose proof params_ok as H. unfold params_ok_b in H. lia. Qed.
Lemma seq_bits_lt16 : id_seq_bits < 16.
Proof. pose proof params_ok as H. unfold params_ok_b in H. lia. Qed.
Lemma shard_bits_le_cast : id_shard_bits <= id_shard_cast_bits.
Proof. pose proof params_ok as H. unfold params_ok_b in H. lia. Qed.
Lemma synth_shift_32 : id_synth_shift = 32.
Proof. pose proof params_ok as H. unfold params_ok_b in H. lia. Qed.

(** the radices of the three packed fields: timestamp, shard, sequence *)
Definition TA : N := 2 ^ id_ts_bits.
Definition TB : N := 2 ^ id_shard_bits.
Definition TC : N := 2 ^ id_seq_bits.

Lemma TA_pos : 0 < TA. Proof. unfold TA. apply N.neq_0_lt_0, N.pow_nonzero. lia. Qed.
Lemma TB_pos : 0 < TB. Proof. unfold TB. apply N.neq_0_lt_0, N.pow_nonzero. lia. Qed.
Lemma TC_pos : 0 < TC. Proof. unfold TC. apply N.neq_0_lt_0, N.pow_nonzero. lia. Qed.
Lemma TABC : TA * (TB * TC) = 2 ^ 64.
Proof.
  unfold TA, TB, TC. rewrite <- !N.pow_add_r.
  replace (id_ts_bits + (id_shard_bits + id_seq_bits)) with 64 by (pose proof bits_sum; lia).
  reflexivity.
Qed.
Lemma land_shiftl_small : forall a n b, b < 2 ^ n -> N.land (N.shiftl a n) b = 0.
Proof.
  intros a n b Hb. apply N.bits_inj_0. intro i. rewrite N.land_spec.
  destruct (N.ltb_spec i n) as [Hi|Hi].
  - rewrite N.shiftl_spec_low by exact Hi. reflexivity.
  - replace (N.testbit b i) with false; [apply andb_false_r|].
    symmetry. destruct (N.eq_dec b 0) as [->|Hnz]; [apply N.bits_0|].
    apply N.bits_above_log2. apply N.log2_lt_pow2; [lia|].
    apply N.lt_le_trans with (2 ^ n); [exact Hb|]. apply N.pow_le_mono_r; lia.
Qed.

Lemma lor_shiftl_add : forall a n b, b < 2 ^ n -> N.lor (a * 2 ^ n) b = a * 2 ^ n + b.
Proof.
  intros a n b Hb. rewrite <- N.shiftl_mul_pow2.
  pose proof (land_shiftl_small a n b Hb) as Hz.
  rewrite <- N.lxor_lor by exact Hz. symmetry. apply N.add_nocarry_lxor. exact Hz.
Qed.

Lemma ts_component_eq : forall m, ts_component m = (m - id_epoch_ms) mod TA.
Proof. intro m. unfold ts_component, ts_mask, TA. apply N.land_ones. Qed.

Lemma mod_pow2_twice : forall x a b, a <= b -> (x mod 2 ^ b) mod 2 ^ a = x mod 2 ^ a.
Proof.
  intros x a b H. replace b with (a + (b - a)) by lia. rewrite N.pow_add_r.
  assert (forall n, 2 ^ n <> 0) as NZ by (intro n; apply N.pow_nonzero; lia).
  rewrite N.mod_mul_r, (N.mul_comm (2 ^ a)), N.mod_add by apply NZ. apply N.mod_mod, NZ.
Qed.

Lemma shard_component_eq : forall sh, shard_component sh = sh mod TB.
Proof.
  intro sh. unfold shard_component, shard_mask, u16_cast, TB. rewrite N.land_ones.
  apply mod_pow2_twice, shard_bits_le_cast.
Qed.

Lemma seq_succ_eq : forall s, seq_succ s = (s + 1) mod TC.
Proof.
  intro s. unfold seq_succ, seq_mask, TC. rewrite N.land_ones.
  apply mod_pow2_twice. pose proof seq_bits_lt16. lia.
Qed.

Lemma ts_component_lt : forall m, ts_component m < TA.
Proof. intro m. rewrite ts_component_eq. apply N.mod_lt. pose proof TA_pos. lia. Qed.
Lemma shard_component_lt : forall sh, shard_component sh < TB.
Proof. intro sh. rewrite shard_component_eq. apply N.mod_lt. pose proof TB_pos. lia. Qed.

Lemma shard_component_small : forall sh, sh < TB -> shard_component sh = sh.
Proof. intros sh H. rewrite shard_component_eq. apply N.mod_small, H. Qed.

Lemma pack_components : forall m sh m' sh' s,
  ts_component m = ts_component m' -> shard_component sh = shard_component sh' -> pack m sh s = pack m' sh' s.
Proof. intros m sh m' sh' s Em Es. unfold pack. rewrite Em, Es. reflexivity. Qed.

Lemma pack_arith : forall m sh s, s < TC ->
  pack m sh s = ts_component m * (TB * TC) + shard_component sh * TC + s.
Proof.
  intros m sh s Hs. unfold pack, u64_wrap.
  pose proof (ts_component_lt m) as HT. pose proof (shard_component_lt sh) as HS.
  pose proof TABC as HABC.
  set (T := ts_component m) in *. set (S := shard_component sh) in *.
  rewrite !N.shiftl_mul_pow2.
  assert (HBC : 2 ^ (id_shard_bits + id_seq_bits) = TB * TC)
    by (unfold TB, TC; apply N.pow_add_r).
  assert (HSC : S * TC < TB * TC) by (apply N.mul_lt_mono_pos_r; lia).
  assert (HTBC : T * (TB * TC) + TB * TC <= TA * (TB * TC)).
  { replace (T * (TB * TC) + TB * TC) with ((T + 1) * (TB * TC)) by lia.
    apply N.mul_le_mono_r. lia. }
  fold TC. rewrite (N.mod_small (S * TC)) by lia.
  rewrite (N.mod_small (T * 2 ^ (id_shard_bits + id_seq_bits))) by (rewrite HBC; lia).
  rewrite (lor_shiftl_add T (id_shard_bits + id_seq_bits) (S * TC)) by (rewrite HBC; exact HSC).
  rewrite HBC.
  replace (T * (TB * TC) + S * TC) with ((T * TB + S) * 2 ^ id_seq_bits) by (fold TC; lia).
  apply lor_shiftl_add. exact Hs.
Qed.

Lemma id_seq_pack : forall m sh s, s < TC -> id_seq (pack m sh s) = s.
Proof.
  intros m sh s Hs. unfold id_seq, seq_mask. rewrite N.land_ones. fold TC.
  rewrite pack_arith by exact Hs.
  symmetry. apply N.mod_unique with (q := ts_component m * TB + shard_component sh); [exact Hs|lia].
Qed.

Lemma id_shard_pack : forall m sh s, s < TC -> id_shard (pack m sh s) = shard_component sh.
Proof.
  intros m sh s Hs. unfold id_shard, shard_mask. rewrite N.land_ones, N.shiftr_div_pow2. fold TB TC.
  rewrite pack_arith by exact Hs. pose proof (shard_component_lt sh).
  replace ((ts_component m * (TB * TC) + shard_component sh * TC + s) / TC)
    with (ts_component m * TB + shard_component sh).
  - symmetry. apply N.mod_unique with (q := ts_component m); [assumption|lia].
  - apply N.div_unique with (r := s); [exact Hs|lia].
Qed.

Lemma id_ts_pack : forall m sh s, s < TC -> id_ts (pack m sh s) = ts_component m.
Proof.
  intros m sh s Hs. unfold id_ts. rewrite N.shiftr_div_pow2, N.pow_add_r. fold TB TC.
  rewrite pack_arith by exact Hs.
  pose proof (shard_component_lt sh) as HS.
  symmetry. apply N.div_unique with (r := shard_component sh * TC + s); [|lia].
  assert ((shard_component sh + 1) * TC <= TB * TC) by (apply N.mul_le_mono_r; lia). lia.
Qed.

Lemma ts_component_window : forall m,
  id_epoch_ms <= m < id_epoch_ms + TA -> ts_component m = m - id_epoch_ms.
Proof. intros m H. rewrite ts_component_eq. apply N.mod_small. lia. Qed.

Lemma pack_injective : forall m1 sh1 s1 m2 sh2 s2,
  id_epoch_ms <= m1 < id_epoch_ms + TA -> id_epoch_ms <= m2 < id_epoch_ms + TA ->
  sh1 < TB -> sh2 < TB -> s1 < TC -> s2 < TC ->
  pack m1 sh1 s1 = pack m2 sh2 s2 -> m1 = m2 /\ sh1 = sh2 /\ s1 = s2.
Proof.
  intros m1 sh1 s1 m2 sh2 s2 Hm1 Hm2 Hsh1 Hsh2 Hs1 Hs2 E.
  pose proof (f_equal id_ts E) as Et. pose proof (f_equal id_shard E) as Esh.
  pose proof (f_equal id_seq E) as Es.
  rewrite !id_ts_pack in Et by assumption. rewrite !id_shard_pack in Esh by assumption.
  rewrite !id_seq_pack in Es by assumption.
  rewrite !ts_component_window in Et by assumption.
  rewrite !shard_component_small in Esh by assumption. lia.
Qed.

Lemma pack_lt : forall m1 s1 m2 s2 sh,
  id_epoch_ms <= m1 < id_epoch_ms + TA -> id_epoch_ms <= m2 < id_epoch_ms + TA ->
  s1 < TC -> s2 < TC ->
  (m1 < m2 \/ (m1 = m2 /\ s1 < s2)) -> pack m1 sh s1 < pack m2 sh s2.
Proof.
  intros m1 s1 m2 s2 sh Hm1 Hm2 Hs1 Hs2 Hlt.
  rewrite !pack_arith by assumption. rewrite !ts_component_window by assumption.
  pose proof (shard_component_lt sh) as HS.
  set (S := shard_component sh) in *.
  destruct Hlt as [Hlt|[-> Hlt]]; [|lia].
  assert ((S + 1) * TC <= TB * TC) by (apply N.mul_le_mono_r; lia).
  assert ((m1 - id_epoch_ms + 1) * (TB * TC) <= (m2 - id_epoch_ms) * (TB * TC))
    by (apply N.mul_le_mono_r; lia).
  lia.
Qed.

Lemma pack_zero_iff : forall m sh s, s < TC ->
  (pack m sh s = 0 <-> ts_component m = 0 /\ shard_component sh = 0 /\ s = 0).
Proof.
  intros m sh s Hs. rewrite pack_arith by exact Hs. pose proof TB_pos.
  split.
  - intro E. assert (ts_component m * (TB * TC) = 0 /\ shard_component sh * TC = 0 /\ s = 0) as (E1 & E2 & E3) by lia.
    apply N.eq_mul_0 in E1. apply N.eq_mul_0 in E2. lia.
  - intros (-> & -> & ->). lia.
Qed.

Lemma seq_succ_lt : forall s, seq_succ s < TC.
Proof. intro s. rewrite seq_succ_eq. apply N.mod_lt. pose proof TC_pos. lia. Qed.

Lemma seq_succ_spec : forall s, s < TC ->
  (seq_succ s = 0 /\ s + 1 = TC) \/ (seq_succ s = s + 1 /\ s + 1 < TC).
Proof.
  intros s Hs. rewrite seq_succ_eq. destruct (N.eq_dec (s + 1) TC) as [E|NE].
  - left. rewrite E. split; [apply N.mod_same; lia|reflexivity].
  - right. rewrite N.mod_small by lia. lia.
Qed.

Definition glt (g g' : gen) : Prop :=
  last_millis g < last_millis g' \/ (last_millis g = last_millis g' /\ sequence g < sequence g').
Definition gle (g g' : gen) : Prop := glt g g' \/ g = g'.

Lemma glt_trans : forall a b c, glt a b -> glt b c -> glt a c.
Proof. unfold glt. intros a b c H1 H2. lia. Qed.
Lemma gle_glt_trans : forall a b c, gle a b -> glt b c -> glt a c.
Proof. intros a b c [H| ->] H2; [eapply glt_trans; eassumption|exact H2]. Qed.
Lemma glt_gle_trans : forall a b c, glt a b -> gle b c -> glt a c.
Proof. intros a b c H1 [H| <-]; [eapply glt_trans; eassumption|exact H1]. Qed.

Definition gid (shard : N) (g : gen) : N := pack (last_millis g) shard (sequence g).

(** window predicate with an adjustable lower end [lo] (>= epoch): from [lo = id_epoch_ms + 1] on the timestamp
    component, hence the id, is non-zero ([issued_nonzero]) *)
Definition win (lo r : N) : Prop := lo <= r < id_epoch_ms + TA.

Lemma in_window_win : forall r, in_window r = true <-> win id_epoch_ms r.
Proof. intro r. unfold in_window, win, TA. lia. Qed.

Lemma in_window_all : forall rs, Forall (fun r => in_window r = true) rs -> Forall (win id_epoch_ms) rs.
Proof. intros rs H. eapply Forall_impl; [|exact H]. intros r Hr. apply in_window_win. exact Hr. Qed.

Lemma wait_spec : forall last rs m rs',
  wait_next_millis last rs = Some (m, rs') ->
  last < m /\ exists pre, rs = pre ++ m :: rs'.
Proof.
  intros last rs. induction rs as [|r rs IH]; intros m rs' H; cbn [wait_next_millis] in H.
  - discriminate.
  - destruct (N.leb_spec r last) as [Hle|Hgt].
    + destruct (IH _ _ H) as (Hlt & pre & ->). split; [exact Hlt|]. exists (r :: pre). reflexivity.
    + inversion H; subst. split; [exact Hgt|]. exists []. reflexivity.
Qed.

Lemma wait_skips : forall last late m rs,
  Forall (fun r => r <= last) late -> last < m -> wait_next_millis last (late ++ m :: rs) = Some (m, rs).
Proof.
  intros last late m rs Hle Hm. induction Hle as [|r late Hr _ IH]; cbn [app wait_next_millis].
  - destruct (N.leb_spec m last); [lia|reflexivity].
  - destruct (N.leb_spec r last); [exact IH|lia].
Qed.

(** [gen_next] by its first reading *)
Lemma gen_next_eq : forall g sh r rs,
  gen_next g sh (r :: rs) =
    if last_millis g <? r then Some (pack r sh 0, mkGen r 0, rs)
    else if seq_succ (sequence g) =? 0 then
      match wait_next_millis (last_millis g) rs with
      | Some (m, rs') => Some (pack m sh 0, mkGen m 0, rs')
      | None => None
      end
    else Some (pack (last_millis g) sh (seq_succ (sequence g)), mkGen (last_millis g) (seq_succ (sequence g)), rs).
Proof.
  intros g sh r rs. unfold gen_next. destruct (N.ltb_spec (last_millis g) r) as [H|H].
  - destruct (N.ltb_spec r (last_millis g)); [lia|]. destruct (N.eqb_spec r (last_millis g)); [lia|reflexivity].
  - replace (if r <? last_millis g then last_millis g else r) with (last_millis g)
      by (destruct (N.ltb_spec r (last_millis g)); lia).
    rewrite N.eqb_refl. destruct (N.eqb_spec (seq_succ (sequence g)) 0) as [->|_]; reflexivity.
Qed.

Lemma gen_next_fresh : forall g sh r rs,
  last_millis g < r -> gen_next g sh (r :: rs) = Some (pack r sh 0, mkGen r 0, rs).
Proof. intros g sh r rs H. rewrite gen_next_eq. apply N.ltb_lt in H. rewrite H. reflexivity. Qed.

Lemma gen_next_same : forall g sh r rs, r <= last_millis g -> seq_succ (sequence g) <> 0 ->
  gen_next g sh (r :: rs) =
    Some (pack (last_millis g) sh (seq_succ (sequence g)), mkGen (last_millis g) (seq_succ (sequence g)), rs).
Proof.
  intros g sh r rs Hr Hnz. rewrite gen_next_eq. apply N.ltb_ge in Hr. apply N.eqb_neq in Hnz.
  rewrite Hr, Hnz. reflexivity.
Qed.

Lemma gen_next_wait : forall g sh r late m rs,
  r <= last_millis g -> seq_succ (sequence g) = 0 ->
  Forall (fun x => x <= last_millis g) late -> last_millis g < m ->
  gen_next g sh (r :: late ++ m :: rs) = Some (pack m sh 0, mkGen m 0, rs).
Proof.
  intros g sh r late m rs Hr Hz Hle Hm. apply N.ltb_ge in Hr.
  rewrite gen_next_eq, Hr, Hz, wait_skips by assumption. reflexivity.
Qed.

(** One call of the generator, by what it reads ([pre]) and where it ends. *)
Inductive follows (g : gen) (pre : list N) : gen -> Prop :=
| f_new m : In m pre -> last_millis g < m -> follows g pre (mkGen m 0)
| f_same r : In r pre -> r <= last_millis g -> seq_succ (sequence g) <> 0 ->
    follows g pre (mkGen (last_millis g) (seq_succ (sequence g))).

Lemma gen_next_follows : forall g sh rs id g' rs',
  gen_next g sh rs = Some (id, g', rs') ->
  id = gid sh g' /\ exists pre, rs = pre ++ rs' /\ follows g pre g'.
Proof.
  intros g sh [|r rs1] id g' rs' H; [discriminate|]. rewrite gen_next_eq in H.
  assert (Hid : forall m s, pack m sh s = gid sh (mkGen m s)) by reflexivity.
  destruct (N.ltb_spec (last_millis g) r) as [Hr|Hr]; [|destruct (N.eqb_spec (seq_succ (sequence g)) 0) as [Hz|Hnz]].
  - inversion H; subst id g' rs'. split; [apply Hid|]. exists [r]. split; [reflexivity|].
    apply f_new; [left; reflexivity|exact Hr].
  - destruct (wait_next_millis (last_millis g) rs1) as [[m rs2]|] eqn:Hw; [|discriminate].
    destruct (wait_spec _ _ _ _ Hw) as (Hlt & pre & ->). inversion H; subst id g' rs'.
    split; [apply Hid|]. exists (r :: pre ++ [m]). split; [cbn; rewrite <- app_assoc; reflexivity|].
    apply f_new; [right; apply in_elt|exact Hlt].
  - inversion H; subst id g' rs'. split; [apply Hid|]. exists [r]. split; [reflexivity|].
    apply (f_same _ _ r); [left; reflexivity|exact Hr|exact Hnz].
Qed.

Lemma follows_seq : forall g pre g', follows g pre g' -> sequence g' < TC.
Proof. intros g pre g' [m _ _|r _ _ _]; [apply TC_pos|apply seq_succ_lt]. Qed.

Lemma follows_glt : forall g pre g', follows g pre g' -> sequence g < TC -> glt g g'.
Proof.
  intros g pre g' [m _ H|r _ _ Hnz] Hs; [left; exact H|right]. cbn [last_millis sequence].
  destruct (seq_succ_spec _ Hs) as [[Hz _]|[-> _]]; [contradiction|lia].
Qed.

Lemma follows_win : forall lo g pre g', follows g pre g' ->
  Forall (win lo) pre -> last_millis g < id_epoch_ms + TA -> win lo (last_millis g').
Proof.
  intros lo g pre g' F HW Hl. rewrite Forall_forall in HW.
  destruct F as [m Hm _|r Hr Hle _]; [exact (HW m Hm)|]. specialize (HW r Hr). unfold win in *. cbn [last_millis]. lia.
Qed.

(** The list of states a run goes through (proof device; ids are [gid] of these). *)
Fixpoint states (k : nat) (g : gen) (shard : N) (rs : list N) : list gen :=
  match k with
  | O => []
  | S k' =>
      match gen_next g shard rs with
      | None => []
      | Some (_, g', rs') => g' :: states k' g' shard rs'
      end
  end.

Lemma issued_states : forall k g sh rs, issued k g sh rs = map (gid sh) (states k g sh rs).
Proof.
  unfold issued. induction k as [|k IH]; intros g sh rs; cbn [issue states]; [reflexivity|].
  destruct (gen_next g sh rs) as [[[id g'] rs']|] eqn:H; [|reflexivity].
  specialize (IH g' sh rs'). destruct (issue k g' sh rs') as [[ids g''] rs''].
  cbn [fst map] in *. rewrite IH.
  destruct (gen_next_follows _ _ _ _ _ _ H) as (-> & _). reflexivity.
Qed.

Lemma gen_after_states : forall k g sh rs d, gen_after k g sh rs = last (g :: states k g sh rs) d.
Proof.
  unfold gen_after. induction k as [|k IH]; intros g sh rs d; cbn [issue states]; [reflexivity|].
  destruct (gen_next g sh rs) as [[[id g'] rs']|] eqn:H; [|reflexivity].
  specialize (IH g' sh rs' d). destruct (issue k g' sh rs') as [[ids g''] rs'']. exact IH.
Qed.

(** a run: the states reached by consecutive calls, each call reading its own stretch of the clock *)
Inductive run : gen -> list N -> list gen -> Prop :=
| run_nil g rs : run g rs []
| run_cons g pre rs g' l : follows g pre g' -> run g' rs l -> run g (pre ++ rs) (g' :: l).

Lemma states_run : forall k g sh rs, run g rs (states k g sh rs).
Proof.
  induction k as [|k IH]; intros g sh rs; cbn [states]; [constructor|].
  destruct (gen_next g sh rs) as [[[id g'] rs']|] eqn:H; [|constructor].
  destruct (gen_next_follows _ _ _ _ _ _ H) as (_ & pre & -> & F). constructor; [exact F|apply IH].
Qed.

Lemma run_seq : forall g rs l, run g rs l -> Forall (fun g' => sequence g' < TC) l.
Proof. induction 1 as [|g pre rs g' l F _ IH]; constructor; [exact (follows_seq _ _ _ F)|exact IH]. Qed.

Lemma run_sorted : forall g rs l, run g rs l -> sequence g < TC -> StronglySorted glt (g :: l).
Proof.
  induction 1 as [|g pre rs g' l F _ IH]; intro Hs; [repeat constructor|].
  pose proof (follows_glt _ _ _ F Hs) as L. specialize (IH (follows_seq _ _ _ F)).
  constructor; [exact IH|]. constructor; [exact L|].
  eapply Forall_impl; [|exact (proj2 (StronglySorted_inv IH))]. intros x. apply glt_trans, L.
Qed.

(** the states whose ids order as the states do ([gid_sorted]) *)
Definition good (lo : N) (g : gen) : Prop := win lo (last_millis g) /\ sequence g < TC.

Lemma run_good : forall lo g rs l, run g rs l ->
  last_millis g < id_epoch_ms + TA -> Forall (win lo) rs -> Forall (good lo) l.
Proof.
  intros lo. induction 1 as [|g pre rs g' l F _ IH]; intros Hl HW; [constructor|]. apply Forall_app in HW as [HWp HW].
  pose proof (follows_win lo _ _ _ F HWp Hl) as W.
  constructor; [exact (conj W (follows_seq _ _ _ F))|apply IH; [unfold win in W; lia|exact HW]].
Qed.

Lemma states_sorted : forall k g sh rs, sequence g < TC -> StronglySorted glt (g :: states k g sh rs).
Proof. intros k g sh rs. apply run_sorted with (rs := rs), states_run. Qed.

Lemma gid_sorted : forall sh l, Forall (good id_epoch_ms) l ->
  StronglySorted glt l -> StronglySorted N.lt (map (gid sh) l).
Proof.
  intros sh l G. rewrite Forall_forall in G. apply sorted_map. intros a b Ha Hb.
  destruct (G a Ha), (G b Hb). apply pack_lt; assumption.
Qed.

(** [ids_strictly_increasing], general start state. *)
Lemma issued_sorted_from : forall k g sh rs,
  sequence g < TC -> last_millis g < id_epoch_ms + TA ->
  Forall (fun r => in_window r = true) rs ->
  StronglySorted N.lt (issued k g sh rs).
Proof.
  intros k g sh rs Hs Hl HW. rewrite issued_states.
  apply gid_sorted; [exact (run_good _ _ _ _ (states_run k g sh rs) Hl (in_window_all _ HW))|].
  exact (proj1 (StronglySorted_inv (states_sorted k g sh rs Hs))).
Qed.

Lemma gen0_inv : sequence gen0 < TC /\ last_millis gen0 < id_epoch_ms + TA.
Proof. cbn [gen0 sequence last_millis]. pose proof TC_pos. pose proof TA_pos. lia. Qed.

Lemma ids_strictly_increasing : forall k sh rs,
  Forall (fun r => in_window r = true) rs ->
  StronglySorted N.lt (issued k gen0 sh rs).
Proof. intros k sh rs HW. apply issued_sorted_from; [apply gen0_inv|apply gen0_inv|exact HW]. Qed.

Lemma ids_unique_in_lifetime : forall k sh rs,
  Forall (fun r => in_window r = true) rs -> NoDup (issued k gen0 sh rs).
Proof. intros. apply sorted_lt_nodup, ids_strictly_increasing. assumption. Qed.

Lemma issued_shard_tag : forall k g sh rs,
  Forall (fun id => id_shard id = shard_component sh) (issued k g sh rs).
Proof.
  intros k g sh rs. rewrite issued_states. pose proof (run_seq _ _ _ (states_run k g sh rs)) as Hseq.
  induction Hseq as [|x l Hx _ IH]; cbn [map]; constructor; [|exact IH].
  unfold gid. apply id_shard_pack. exact Hx.
Qed.

Lemma unique_across_shards : forall k1 k2 g1 g2 sh1 sh2 rs1 rs2 id,
  sh1 < TB -> sh2 < TB -> sh1 <> sh2 ->
  In id (issued k1 g1 sh1 rs1) -> In id (issued k2 g2 sh2 rs2) -> False.
Proof.
  intros k1 k2 g1 g2 sh1 sh2 rs1 rs2 id H1 H2 Hne Hin1 Hin2.
  pose proof (issued_shard_tag k1 g1 sh1 rs1) as T1. pose proof (issued_shard_tag k2 g2 sh2 rs2) as T2.
  rewrite Forall_forall in T1, T2. specialize (T1 id Hin1). specialize (T2 id Hin2).
  rewrite shard_component_small in T1, T2 by assumption. congruence.
Qed.

(** so with more than 2^SHARD_ID_BITS shards ids are not unique across shards *)
Lemma shard_component_alias : forall sh, shard_component (sh + TB) = shard_component sh.
Proof.
  intro sh. rewrite !shard_component_eq. replace (sh + TB) with (sh + 1 * TB) by lia.
  apply N.mod_add. pose proof TB_pos. lia.
Qed.

Lemma shard_tag_aliases : forall m sh s, pack m (sh + TB) s = pack m sh s.
Proof. intros m sh s. apply pack_components; [reflexivity|apply shard_component_alias]. Qed.

Lemma recovery_reproduces_ids : forall g sh rs stored,
  Forall (fun id => id <> 0) stored -> recover g sh rs stored = (stored, g, rs).
Proof.
  intros g sh rs stored H. induction H as [|id rest Hid _ IH]; cbn [recover]; [reflexivity|].
  destruct (N.eqb_spec id 0) as [E|_]; [contradiction|]. rewrite IH. reflexivity.
Qed.

Lemma issued_nonzero : forall k sh rs,
  Forall (fun r => in_window r = true /\ r <> id_epoch_ms) rs ->
  Forall (fun id => id <> 0) (issued k gen0 sh rs).
Proof.
  intros k sh rs HW. rewrite issued_states. apply Forall_map.
  eapply Forall_impl; [|apply (run_good (id_epoch_ms + 1) _ _ _ (states_run k gen0 sh rs) (proj2 gen0_inv))].
  - intros x [Hw Hs] E. apply pack_zero_iff in E as (E & _); [|exact Hs].
    unfold win in Hw. rewrite ts_component_window in E by lia. lia.
  - eapply Forall_impl; [|exact HW]. intros r [Hr Hne]. apply in_window_win in Hr. unfold win in *. lia.
Qed.

(** On shards other than (a multiple of 2^SHARD_ID_BITS) the tag alone makes ids non-zero. *)
Lemma issued_nonzero_shard : forall k g sh rs,
  shard_component sh <> 0 -> Forall (fun id => id <> 0) (issued k g sh rs).
Proof.
  intros k g sh rs Hsh. pose proof (issued_shard_tag k g sh rs) as T.
  eapply Forall_impl; [|exact T]. intros id Hid E. subst id.
  unfold id_shard in Hid. rewrite N.shiftr_0_l, N.land_0_l in Hid. congruence.
Qed.

Lemma lifetime_fresh : forall sh k rs,
  lifetime sh [] k rs = ([], issued k gen0 sh rs, gen_after k gen0 sh rs).
Proof.
  intros. unfold lifetime, issued, gen_after. cbn [recover].
  destruct (issue k gen0 sh rs) as [[ids g] r]. reflexivity.
Qed.

Lemma restart_history_eq : forall sh k1 rs1 k2 rs2,
  Forall (fun id => id <> 0) (issued k1 gen0 sh rs1) ->
  restart_history sh k1 rs1 k2 rs2 = two_lifetimes sh k1 rs1 k2 rs2.
Proof.
  intros sh k1 rs1 k2 rs2 Hnz. unfold restart_history, two_lifetimes.
  rewrite lifetime_fresh. unfold lifetime.
  rewrite recovery_reproduces_ids by exact Hnz. unfold issued.
  destruct (issue k2 gen0 sh rs2) as [[ids g] r]. reflexivity.
Qed.

Lemma sorted_le_last : forall l d, StronglySorted glt l -> Forall (fun x => gle x (last l d)) l.
Proof.
  intros l d Hs. induction Hs as [|a l Hs IH Hall]; [constructor|].
  destruct l as [|b l]; [repeat constructor; right; reflexivity|].
  change (last (a :: b :: l) d) with (last (b :: l) d). constructor; [|exact IH].
  left. eapply glt_gle_trans; [exact (Forall_inv Hall)|exact (Forall_inv IH)].
Qed.

Lemma states_le_final : forall k g sh rs, sequence g < TC ->
  Forall (fun x => gle x (gen_after k g sh rs)) (states k g sh rs).
Proof.
  intros k g sh rs Hs. rewrite (gen_after_states k g sh rs g).
  exact (Forall_inv_tail (sorted_le_last _ g (states_sorted k g sh rs Hs))).
Qed.

Lemma states_from_reading : forall k g sh r rs,
  last_millis g < r -> Forall (fun s => r <= last_millis s) (states k g sh (r :: rs)).
Proof.
  intros [|k] g sh r rs H; cbn [states]; [constructor|]. rewrite gen_next_fresh by exact H.
  constructor; [cbn [last_millis]; lia|].
  eapply Forall_impl; [|exact (proj2 (StronglySorted_inv (states_sorted k (mkGen r 0) sh rs TC_pos)))].
  unfold glt. cbn [last_millis sequence]. intros s Hs. lia.
Qed.

Lemma across_restart_outside_known : forall sh k1 rs1 k2 rs2,
  Forall (fun r => in_window r = true) rs1 -> Forall (fun r => in_window r = true) rs2 ->
  (shard_component sh <> 0 \/ Forall (fun r => r <> id_epoch_ms) rs1) ->
  restart_clock_not_advanced (gen_after k1 gen0 sh rs1) rs2 = false ->
  StronglySorted N.lt (restart_history sh k1 rs1 k2 rs2).
Proof.
  intros sh k1 rs1 k2 rs2 HW1 HW2 Hnz Hcls.
  assert (Hnz' : Forall (fun id => id <> 0) (issued k1 gen0 sh rs1)).
  { destruct Hnz as [Hsh|Hne]; [apply issued_nonzero_shard; exact Hsh|].
    apply issued_nonzero. rewrite Forall_forall in *. intros r Hr. split; [apply HW1|apply Hne]; exact Hr. }
  rewrite restart_history_eq by exact Hnz'. unfold two_lifetimes. rewrite !issued_states, <- map_app.
  destruct gen0_inv as [Hq0 Hl0].
  apply gid_sorted; [apply Forall_app; split; eapply run_good; eauto using states_run, in_window_all|].
  apply sorted_app; try exact (proj1 (StronglySorted_inv (states_sorted _ gen0 sh _ Hq0))).
  (* the second lifetime starts at its first reading, which is above everything used before *)
  intros s1 s2 Hs1 Hs2. left.
  destruct rs2 as [|r0 rest]; [destruct k2; destruct Hs2|]. cbn [restart_clock_not_advanced] in Hcls.
  pose proof (states_from_reading k2 gen0 sh r0 rest) as Hlow. pose proof (states_le_final k1 gen0 sh rs1 Hq0) as Hfin.
  rewrite Forall_forall in Hlow, Hfin.
  specialize (Hlow ltac:(cbn [gen0 last_millis]; lia) s2 Hs2).
  destruct (Hfin s1 Hs1) as [Hg| ->]; [unfold glt in Hg|]; lia.
Qed.

Example across_restart_outside_known_sat :
  let e := id_epoch_ms in
  let rs1 := [e + 5; e + 5; e + 3; e + 9] in let rs2 := [e + 10; e + 2; e + 11] in
  Forall (fun r => in_window r = true) rs1 /\ Forall (fun r => in_window r = true) rs2 /\
  Forall (fun r => r <> id_epoch_ms) rs1 /\
  restart_clock_not_advanced (gen_after 4 gen0 3 rs1) rs2 = false /\
  length (restart_history 3 4 rs1 3 rs2) = 7%nat.
Proof.
  cbv zeta. repeat split; try (repeat constructor; vm_compute; congruence); vm_compute; reflexivity.
Qed.

(** One STORE per lifetime: a duplicate when the clock reads the same millisecond again (shard 0), a smaller id
    when it stepped back (shard 1). *)
Lemma across_restart_refuted :
  exists sh k1 rs1 k2 rs2,
    Forall (fun r => in_window r = true) rs1 /\ Forall (fun r => in_window r = true) rs2 /\
    ~ NoDup (restart_history sh k1 rs1 k2 rs2).
Proof.
  exists 0, 1%nat, [id_epoch_ms + 5], 1%nat, [id_epoch_ms + 5].
  split; [repeat constructor|]. split; [repeat constructor|].
  vm_compute. intro H. inversion H as [|? ? Hnin _]; subst. apply Hnin. left. reflexivity.
Qed.

Lemma across_restart_order_refuted :
  exists sh k1 rs1 k2 rs2,
    Forall (fun r => in_window r = true) rs1 /\ Forall (fun r => in_window r = true) rs2 /\
    exists a b, restart_history sh k1 rs1 k2 rs2 = [a; b] /\ b < a.
Proof.
  exists 1, 1%nat, [id_epoch_ms + 5], 1%nat, [id_epoch_ms + 4].
  split; [repeat constructor|]. split; [repeat constructor|].
  eexists. eexists. split; [vm_compute; reflexivity|]. vm_compute. reflexivity.
Qed.

Example across_restart_refuted_in_class :
  restart_clock_not_advanced (gen_after 1 gen0 0 [id_epoch_ms + 5]) [id_epoch_ms + 5] = true.
Proof. vm_compute. reflexivity. Qed.

Lemma before_epoch_refuted :
  exists sh rs, Forall (fun r => r <= id_epoch_ms) rs /\ ~ NoDup (issued 2 gen0 sh rs).
Proof.
  exists 7, [5; 6]. split; [repeat constructor; vm_compute; congruence|].
  vm_compute. intro H. inversion H as [|? ? Hnin _]; subst. apply Hnin. left. reflexivity.
Qed.

Lemma before_epoch_collapse : forall m sh s, m <= id_epoch_ms -> pack m sh s = pack 0 sh s.
Proof.
  intros m sh s H. apply pack_components; [|reflexivity]. unfold ts_component.
  replace (m - id_epoch_ms) with 0 by lia. replace (0 - id_epoch_ms) with 0 by lia. reflexivity.
Qed.

Lemma beyond_window_wraps : forall m sh s, pack (m + TA) sh s = pack m sh s \/ m < id_epoch_ms.
Proof.
  intros m sh s. destruct (N.lt_ge_cases m id_epoch_ms) as [H|H]; [right; exact H|left].
  apply pack_components; [|reflexivity]. rewrite !ts_component_eq. pose proof TA_pos.
  replace (m + TA - id_epoch_ms) with (m - id_epoch_ms + 1 * TA) by lia.
  apply N.mod_add. lia.
Qed.

Lemma beyond_window_refuted :
  exists sh rs, Forall (fun r => id_epoch_ms <= r) rs /\
    exists a b, issued 2 gen0 sh rs = [a; b] /\ b < a.
Proof.
  exists 0, [id_epoch_ms + 2 ^ id_ts_bits - 1; id_epoch_ms + 2 ^ id_ts_bits].
  split; [repeat constructor; vm_compute; congruence|].
  eexists. eexists. split; vm_compute; reflexivity.
Qed.

(** * Bursts: non-vacuity of [ids_strictly_increasing] *)

Lemma issue_add : forall a b g sh rs ids1 g1 rs1 ids2 g2 rs2,
  issue a g sh rs = (ids1, g1, rs1) -> issue b g1 sh rs1 = (ids2, g2, rs2) ->
  issue (a + b) g sh rs = (ids1 ++ ids2, g2, rs2).
Proof.
  induction a as [|a IH]; intros b g sh rs ids1 g1 rs1 ids2 g2 rs2 E1 E2; cbn [Nat.add issue] in *.
  - inversion E1; subst. exact E2.
  - destruct (gen_next g sh rs) as [[[id g'] rs']|] eqn:H.
    + destruct (issue a g' sh rs') as [[i1 g1'] rs1'] eqn:Ea. inversion E1; subst.
      rewrite (IH _ _ _ _ _ _ _ _ _ _ Ea E2). reflexivity.
    + (* a run that has stopped stays stopped *)
      inversion E1; subst. destruct b; cbn [issue] in E2; [|rewrite H in E2]; inversion E2; reflexivity.
Qed.

Lemma issue_same_ms : forall pre a m sh rs,
  Forall (fun r => r <= m) pre -> N.of_nat (a + length pre) < TC ->
  issue (length pre) (mkGen m (N.of_nat a)) sh (pre ++ rs) =
    (map (fun q => pack m sh (N.of_nat q)) (seq (S a) (length pre)), mkGen m (N.of_nat (a + length pre)), rs).
Proof.
  induction pre as [|r pre IH]; intros a m sh rs Hle Hn; cbn [length issue app seq map].
  - rewrite Nat.add_0_r. reflexivity.
  - cbn [length] in Hn. assert (E : seq_succ (N.of_nat a) = N.of_nat (S a)).
    { rewrite seq_succ_eq, N.mod_small; clear - Hn; lia. }
    rewrite gen_next_same; cbn [last_millis sequence]; rewrite ?E; [|exact (Forall_inv Hle)|clear; lia].
    rewrite (IH (S a)); [|exact (Forall_inv_tail Hle)|clear - Hn; lia].
    rewrite Nat.add_succ_r. reflexivity.
Qed.

(** The clock stands at [m] for one call more than a millisecond has sequence numbers: the last call waits for a
    newer reading [m'] and starts again at 0. *)
Lemma issue_overflow : forall n g sh m late m' rs,
  last_millis g < m -> N.of_nat (S n) = TC -> Forall (fun r => r <= m) late -> m < m' ->
  issue (S n + 1) g sh (repeat m (S n + 1) ++ late ++ m' :: rs) =
    (map (fun q => pack m sh (N.of_nat q)) (seq 0 (S n)) ++ [pack m' sh 0], mkGen m' 0, rs).
Proof.
  intros n g sh m late m' rs Hm Hn Hle Hm'. rewrite repeat_app, <- app_assoc.
  apply issue_add with (mkGen m (N.of_nat n)) (m :: late ++ m' :: rs); cbn [issue repeat app].
  - rewrite gen_next_fresh by exact Hm.
    pose proof (issue_same_ms (repeat m n) 0 m sh (m :: late ++ m' :: rs)) as E.
    rewrite repeat_length in E. change (N.of_nat 0) with 0 in E. rewrite E; [reflexivity| |lia].
    apply Forall_forall. intros r Hr. apply repeat_spec in Hr. lia.
  - rewrite gen_next_wait; cbn [last_millis sequence]; try assumption; [reflexivity|lia|].
    rewrite seq_succ_eq, <- Hn, Nat2N.inj_succ, <- N.add_1_r. apply N.mod_same. lia.
Qed.

Lemma burst_wraps : forall n sh m late m',
  last_millis gen0 < m -> N.of_nat (S n) = TC -> Forall (fun r => r <= m) late -> m < m' ->
  let rs := repeat m (S n + 1) ++ late ++ [m'; m'] in
  length (issued (S n + 1 + 1) gen0 sh rs) = (S n + 1 + 1)%nat /\
  gen_after (S n + 1 + 1) gen0 sh rs = mkGen m' 1 /\
  nth (S n) (issued (S n + 1 + 1) gen0 sh rs) 0 = pack m' sh 0.
Proof.
  intros n sh m late m' Hm Hn Hle Hm' rs.
  assert (E : issue (S n + 1 + 1) gen0 sh rs =
              ((map (fun q => pack m sh (N.of_nat q)) (seq 0 (S n)) ++ [pack m' sh 0]) ++ [pack m' sh 1], mkGen m' 1, [])).
  { apply issue_add with (mkGen m' 0) [m']; [exact (issue_overflow n gen0 sh m late m' [m'] Hm Hn Hle Hm')|].
    cbn [issue]. rewrite gen_next_same; [reflexivity|apply N.le_refl|discriminate]. }
  unfold issued, gen_after. rewrite E. cbn [fst snd].
  rewrite !app_length, map_length, seq_length, app_nth1, app_nth2; rewrite ?app_length, map_length, seq_length;
    cbn [length]; try lia.
  rewrite Nat.sub_diag. repeat split.
Qed.

Example burst_beyond_sequence_space :
  let e := id_epoch_ms in
  let rs := repeat (e + 7) 4097 ++ [e + 7; e + 2; e + 8; e + 8] in
  Forall (fun r => in_window r = true) rs /\
  length (issued 4098 gen0 5 rs) = 4098%nat /\
  gen_after 4098 gen0 5 rs = mkGen (e + 8) 1 /\
  nth 4096 (issued 4098 gen0 5 rs) 0 = pack (e + 8) 5 0.
Proof.
  intros e rs. split.
  - apply Forall_app. split.
    + apply Forall_forall. intros x Hx. apply repeat_spec in Hx. subst x. vm_compute. reflexivity.
    + repeat constructor.
  - apply (burst_wraps 4095 5 (e + 7) [e + 7; e + 2] (e + 8));
      [reflexivity|vm_compute; reflexivity|repeat constructor; lia|lia].
Qed.

Lemma synthetic_id_arith : forall zone row, zone < 2 ^ 32 -> row < 2 ^ 32 ->
  synthetic_id zone row = zone * 2 ^ 32 + row.
Proof.
  intros zone row Hz Hr. unfold synthetic_id, u64_wrap. rewrite synth_shift_32.
  rewrite N.shiftl_mul_pow2. rewrite (N.mod_small zone) by exact Hz.
  assert (zone * 2 ^ 32 < 2 ^ 64).
  { change (2 ^ 64) with (2 ^ 32 * 2 ^ 32). apply N.mul_lt_mono_pos_r; [reflexivity|exact Hz]. }
  rewrite (N.mod_small (zone * 2 ^ 32)) by assumption.
  rewrite (N.mod_small row) by (change (2 ^ 64) with (2 ^ 32 * 2 ^ 32); nia).
  apply lor_shiftl_add. exact Hr.
Qed.

Lemma synthetic_injective : forall z1 r1 z2 r2,
  z1 < 2 ^ 32 -> z2 < 2 ^ 32 -> r1 < 2 ^ 32 -> r2 < 2 ^ 32 ->
  synthetic_id z1 r1 = synthetic_id z2 r2 -> z1 = z2 /\ r1 = r2.
Proof.
  intros z1 r1 z2 r2 Hz1 Hz2 Hr1 Hr2 E. rewrite !synthetic_id_arith in E by assumption. lia.
Qed.

(** the segment is not an input of [synthetic_id] *)
Lemma synthetic_collide : forall seg1 seg2 zone row st1 st2,
  seg1 <> seg2 -> row_id seg1 zone row true st1 = row_id seg2 zone row true st2.
Proof. intros. reflexivity. Qed.

Lemma synthetic_collide_zero : forall seg1 seg2 zone row m1 m2,
  seg1 <> seg2 -> row_id seg1 zone row m1 0 = row_id seg2 zone row m2 0.
Proof. intros. unfold row_id, synthetic_row. rewrite !orb_true_r. reflexivity. Qed.

Lemma row_id_real : forall seg zone row st, st <> 0 -> row_id seg zone row false st = st.
Proof.
  intros seg zone row st H. unfold row_id, synthetic_row.
  destruct (N.eqb_spec st 0); [contradiction|reflexivity].
Qed.

Lemma row_ids_outside_known : forall seg1 z1 r1 m1 st1 seg2 z2 r2 m2 st2,
  synthetic_row m1 st1 = false -> synthetic_row m2 st2 = false ->
  row_id seg1 z1 r1 m1 st1 = st1 /\ row_id seg2 z2 r2 m2 st2 = st2 /\
  (st1 <> st2 -> row_id seg1 z1 r1 m1 st1 <> row_id seg2 z2 r2 m2 st2).
Proof.
  intros seg1 z1 r1 m1 st1 seg2 z2 r2 m2 st2 H1 H2. unfold row_id. rewrite H1, H2.
  repeat split; auto.
Qed.

(** A synthetic id can also equal a real id: the two live in the same 64-bit space. *)
Lemma synthetic_meets_real : exists zone row m sh s,
  in_window m = true /\ synthetic_id zone row = pack m sh s.
Proof.
  exists 42, 0, (id_epoch_ms + 43008), 0, 0. split; vm_compute; reflexivity.
Qed.

Lemma dedup_ids_nodup : forall rows seen,
  NoDup (map snd rows) -> (forall id, In id seen -> ~ In id (map snd rows)) ->
  dedup_ids seen rows = rows.
Proof.
  induction rows as [|[x id] r IH]; intros seen Hnd Hseen; cbn [dedup_ids]; [reflexivity|].
  cbn [map snd] in Hnd, Hseen. inversion Hnd as [|? ? Hnin Hnd']; subst.
  destruct (existsb (N.eqb id) seen) eqn:Ex.
  - apply existsb_exists in Ex. destruct Ex as (y & Hy & Ey). apply N.eqb_eq in Ey. subst y.
    exfalso. apply (Hseen id Hy). left. reflexivity.
  - f_equal. apply IH; [exact Hnd'|].
    intros y [<-|Hy] Hin; [contradiction|]. apply (Hseen y Hy). right. exact Hin.
Qed.

Lemma number_rows_ids : forall ids, map snd (number_rows ids) = ids.
Proof.
  intro ids. apply map_snd_combine. rewrite map_length, seq_length. apply le_n.
Qed.

Lemma unique_ids_all_rows_visible : forall ids,
  NoDup ids -> dedup_ids [] (number_rows ids) = number_rows ids.
Proof.
  intros ids H. apply dedup_ids_nodup; [rewrite number_rows_ids; exact H|]. intros id [].
Qed.

Lemma visible_after_restart_outside_known : forall sh k1 rs1 k2 rs2,
  Forall (fun r => in_window r = true) rs1 -> Forall (fun r => in_window r = true) rs2 ->
  (shard_component sh <> 0 \/ Forall (fun r => r <> id_epoch_ms) rs1) ->
  restart_clock_not_advanced (gen_after k1 gen0 sh rs1) rs2 = false ->
  visible_after_restart sh k1 rs1 k2 rs2 = number_rows (restart_history sh k1 rs1 k2 rs2).
Proof.
  intros. unfold visible_after_restart. apply unique_ids_all_rows_visible.
  apply sorted_lt_nodup. apply across_restart_outside_known; assumption.
Qed.

(** two STOREs before the restart, two after it in the same millisecond: four events applied, two rows shown *)
Lemma restart_drops_rows_refuted :
  exists sh k1 rs1 k2 rs2,
    Forall (fun r => in_window r = true) rs1 /\ Forall (fun r => in_window r = true) rs2 /\
    length (restart_history sh k1 rs1 k2 rs2) = 4%nat /\
    map fst (visible_after_restart sh k1 rs1 k2 rs2) = [0; 1].
Proof.
  exists 0, 2%nat, [id_epoch_ms + 5; id_epoch_ms + 5], 2%nat, [id_epoch_ms + 5; id_epoch_ms + 5].
  split; [repeat constructor|]. split; [repeat constructor|]. split; vm_compute; reflexivity.
Qed.
