(** Proofs about Model/Trie.v (C08).  Read off in child order, the keys of a well-formed trie are strictly
    increasing, and every search of the model is [find] of a test on that list or on its reverse;
    hence [find_first_key_geq] is exact for all key sets, [find_last_key_leq] is exact for keys
    of the target's length and gives no false "none" when no key is a proper prefix of the target. *)
From Coq Require Import NArith List Lia Sorting.Sorted.
From Snel Require Import Base.Bytes Model.Trie Proofs.ListFacts Proofs.SurfLexProofs.
Import ListNotations.
Open Scope N_scope.

Fixpoint keys_t (t : trie) : list bytes :=
  match t with
  | Node tm f => (if tm then [[]] else []) ++ keys_f f
  end
with keys_f (f : forest) : list bytes :=
  match f with
  | FNil => []
  | FCons l c r => map (cons l) (keys_t c) ++ keys_f r
  end.

Fixpoint In_f (l : N) (c : trie) (f : forest) : Prop :=
  match f with
  | FNil => False
  | FCons l' c' r => (l = l' /\ c = c') \/ In_f l c r
  end.

Fixpoint wf_t (t : trie) : Prop :=
  match t with Node _ f => wf_f f end
with wf_f (f : forest) : Prop :=
  match f with
  | FNil => True
  | FCons l c r => wf_t c /\ keys_t c <> [] /\ wf_f r /\ (forall l' c', In_f l' c' r -> l < l')
  end.

Scheme trie_mut := Induction for trie Sort Prop
  with forest_mut := Induction for forest Sort Prop.

Lemma forest_ind_simple : forall Q : forest -> Prop,
  Q FNil -> (forall l c r, Q r -> Q (FCons l c r)) -> forall f, Q f.
Proof.
  intros Q H0 H1. fix IH 1. intros [|l c r]; [exact H0|]. apply H1. apply IH.
Qed.

Lemma in_keys_f : forall f k,
  In k (keys_f f) <-> exists l c k', In_f l c f /\ k = l :: k' /\ In k' (keys_t c).
Proof.
  induction f as [|l c r IH] using forest_ind_simple; intros k.
  - cbn. split; [intros []|intros (l & c & k' & [] & _)].
  - cbn [keys_f In_f]. rewrite in_app_iff, in_map_iff, IH. split.
    + intros [(k' & <- & Hk')|(l2 & c2 & k' & Hin & -> & Hk')].
      * exists l, c, k'. auto.
      * exists l2, c2, k'. auto.
    + intros (l2 & c2 & k' & [[-> ->]|Hin] & -> & Hk').
      * left. now exists k'.
      * right. now exists l2, c2, k'.
Qed.

Lemma in_keys_t : forall tm f k,
  In k (keys_t (Node tm f)) <-> (tm = true /\ k = []) \/ In k (keys_f f).
Proof.
  intros tm f k. cbn [keys_t]. rewrite in_app_iff. destruct tm; cbn [In]; split.
  - intros [[<-|[]]|H]; auto.
  - intros [[_ ->]|H]; auto.
  - intros [[]|H]; auto.
  - intros [[H _]|H]; [discriminate|auto].
Qed.

Lemma wf_child : forall f l c, wf_f f -> In_f l c f -> wf_t c /\ keys_t c <> [].
Proof.
  induction f as [|l0 c0 r IH] using forest_ind_simple;
    intros l c Hwf Hin.
  - destruct Hin.
  - cbn [wf_f] in Hwf. destruct Hwf as (W1 & W2 & W3 & W4).
    destruct Hin as [[-> ->]|Hin]; [auto|now apply (IH l c)].
Qed.

Lemma nonempty_ex : forall (l : list bytes), l <> [] -> exists k, In k l.
Proof. intros [|k l] H; [congruence|]. exists k. now left. Qed.

Lemma in_map_cons_add : forall b rk (A B : list bytes) k,
  (forall k', In k' A <-> k' = rk \/ In k' B) ->
  (In k (map (cons b) A) <-> k = b :: rk \/ In k (map (cons b) B)).
Proof.
  intros b rk A B k H. rewrite !in_map_iff. split.
  - intros (k' & <- & Hk'). apply H in Hk' as [->|Hk']; [now left | right; now exists k'].
  - intros [->|(k' & <- & Hk')]; [exists rk | exists k']; (split; [reflexivity | apply H; auto]).
Qed.

Lemma f_ins_keys : forall b (ins_r : trie -> trie) rk,
  (forall t k, In k (keys_t (ins_r t)) <-> k = rk \/ In k (keys_t t)) ->
  forall f k, In k (keys_f (f_ins b ins_r f)) <-> k = b :: rk \/ In k (keys_f f).
Proof.
  intros b ins_r rk Hr. induction f as [|l c r IH] using forest_ind_simple; intros k; cbn [f_ins].
  - cbn [keys_f]. rewrite !in_app_iff, (in_map_cons_add b rk _ _ k (Hr t_empty)). cbn. tauto.
  - destruct (b <? l); [|destruct (N.eqb_spec b l) as [->|_]]; cbn [keys_f]; rewrite !in_app_iff.
    + rewrite (in_map_cons_add b rk _ _ k (Hr t_empty)). cbn. tauto.
    + rewrite (in_map_cons_add l rk _ _ k (Hr c)). tauto.
    + rewrite IH. tauto.
Qed.

Lemma t_insert_keys : forall k t k', In k' (keys_t (t_insert k t)) <-> k' = k \/ In k' (keys_t t).
Proof.
  induction k as [|b r IH]; intros [tm f] k'; cbn [t_insert].
  - rewrite !in_keys_t. destruct tm; intuition congruence.
  - rewrite !in_keys_t, (f_ins_keys b (t_insert r) r (fun t => IH t)). tauto.
Qed.

Lemma f_ins_wf : forall b (ins_r : trie -> trie),
  (forall t, wf_t t -> wf_t (ins_r t)) -> (forall t, keys_t (ins_r t) <> []) ->
  forall f, wf_f f ->
    wf_f (f_ins b ins_r f) /\ forall l c, In_f l c (f_ins b ins_r f) -> l = b \/ exists c', In_f l c' f.
Proof.
  intros b ins_r Wr Nr. induction f as [|l c r IH] using forest_ind_simple; intros Hwf; cbn [f_ins].
  - split; [|intros l c [[-> _]|[]]; now left].
    refine (conj (Wr t_empty I) (conj (Nr _) (conj I _))). intros l c [].
  - pose proof Hwf as (W1 & W2 & W3 & W4).
    destruct (N.ltb_spec b l) as [Hlt|Hge]; [|destruct (N.eqb_spec b l) as [->|Hne]]; split.
    + refine (conj (Wr t_empty I) (conj (Nr _) (conj Hwf _))).
      intros l' c' [[-> _]|Hin]; [exact Hlt | apply W4 in Hin; lia].
    + intros l' c' [[-> _]|Hin]; [now left | right; now exists c'].
    + exact (conj (Wr c W1) (conj (Nr c) (conj W3 W4))).
    + intros l' c' [[-> _]|Hin]; [now left | right; exists c'; now right].
    + destruct (IH W3) as (Wi & Li). refine (conj W1 (conj W2 (conj Wi _))).
      intros l' c' Hin. apply Li in Hin as [->|(c'' & Hin)]; [lia | exact (W4 l' c'' Hin)].
    + destruct (IH W3) as (_ & Li). intros l' c' [[-> ->]|Hin]; [right; exists c; now left|].
      apply Li in Hin as [->|(c'' & Hin)]; [now left | right; exists c''; now right].
Qed.

Lemma t_insert_wf : forall k t, wf_t t -> wf_t (t_insert k t).
Proof.
  induction k as [|b r IH]; intros [tm f] Hwf; cbn [t_insert]; [exact Hwf|].
  apply (f_ins_wf b (t_insert r) IH); [|exact Hwf].
  intros t E. assert (H : In r (keys_t (t_insert r t))) by (apply t_insert_keys; now left).
  rewrite E in H. destruct H.
Qed.

Lemma t_build_from : forall ks t, wf_t t ->
  wf_t (fold_left (fun t k => t_insert k t) ks t) /\
  forall k, In k (keys_t (fold_left (fun t k => t_insert k t) ks t)) <-> In k ks \/ In k (keys_t t).
Proof.
  induction ks as [|k0 ks IH]; intros t Hwf; cbn [fold_left].
  - split; [assumption|]. intros k. cbn [In]. tauto.
  - destruct (IH (t_insert k0 t) (t_insert_wf k0 t Hwf)) as (W' & K'). split; [assumption|].
    intros k. rewrite K', t_insert_keys. cbn [In]. intuition congruence.
Qed.

Theorem t_build_spec : forall ks,
  wf_t (t_build ks) /\ forall k, In k (keys_t (t_build ks)) <-> In k ks.
Proof.
  intros ks. unfold t_build. destruct (t_build_from ks t_empty I) as (W & K).
  split; [assumption|]. intros k. rewrite K. cbn. tauto.
Qed.

Lemma later_keys : forall l c r k, wf_f (FCons l c r) -> In k (keys_f r) -> exists l' k', k = l' :: k' /\ l < l'.
Proof.
  intros l c r k (_ & _ & _ & Hlab) Hk. apply in_keys_f in Hk as (l' & c' & k' & Hin & -> & _).
  exists l', k'. split; [reflexivity | exact (Hlab l' c' Hin)].
Qed.

Lemma forest_keys : forall l c r k, wf_f (FCons l c r) -> In k (keys_f (FCons l c r)) -> exists l' k', k = l' :: k' /\ l <= l'.
Proof.
  intros l c r k Hwf Hk. cbn [keys_f] in Hk. apply in_app_iff in Hk as [Hk|Hk].
  - apply in_map_iff in Hk as (k' & <- & _). exists l, k'. split; [reflexivity | lia].
  - apply (later_keys l c r k Hwf) in Hk as (l' & k' & -> & Hl). exists l', k'. split; [reflexivity | lia].
Qed.

Lemma keys_t_sorted : forall t, wf_t t -> StronglySorted blt (keys_t t).
Proof.
  apply (trie_mut (fun t => wf_t t -> StronglySorted blt (keys_t t))
                  (fun f => wf_f f -> StronglySorted blt (keys_f f))).
  - intros tm f IH Hwf. cbn [keys_t]. apply sorted_app; [destruct tm; repeat constructor | exact (IH Hwf) |].
    intros a b Ha Hb. apply in_keys_f in Hb as (l & c & k' & _ & -> & _).
    destruct tm; [destruct Ha as [<-|[]]; reflexivity | destruct Ha].
  - constructor.
  - intros l c IHc r IHr Hwf. pose proof Hwf as (Wc & _ & Wr & _). cbn [keys_f]. apply sorted_app.
    + apply (sorted_map blt); [|exact (IHc Wc)]. intros a b _ _ Hab. apply blt_cons. right. auto.
    + exact (IHr Wr).
    + intros a b Ha Hb. apply in_map_iff in Ha as (a' & <- & _).
      apply (later_keys l c r b Hwf) in Hb as (l' & k' & -> & Hl). apply blt_cons. left. exact Hl.
Qed.

Lemma app_snoc : forall (out : bytes) l k, (out ++ [l]) ++ k = out ++ l :: k.
Proof. intros. now rewrite <- app_assoc. Qed.

Lemma in_keys_child : forall tm f l c k, In_f l c f -> In k (keys_t c) -> In (l :: k) (keys_t (Node tm f)).
Proof. intros tm f l c k H1 H2. apply in_keys_t. right. apply in_keys_f. now exists l, c, k. Qed.

Lemma leftmost_first : forall t, wf_t t ->
  forall out, descend_leftmost t out = option_map (app out) (hd_error (keys_t t)).
Proof.
  apply (trie_mut (fun t => wf_t t -> forall out, descend_leftmost t out = option_map (app out) (hd_error (keys_t t)))
                  (fun f => match f with FNil => True | FCons l c _ => wf_f f -> forall out,
                     descend_leftmost c (out ++ [l]) = option_map (app out) (hd_error (keys_f f)) end)).
  - intros tm f IH Hwf out. cbn [descend_leftmost keys_t]. destruct tm; [cbn; now rewrite app_nil_r|].
    destruct f as [|l c r]; [reflexivity | exact (IH Hwf out)].
  - exact I.
  - intros l c IH r _ (Wc & Nc & _) out. rewrite (IH Wc). cbn [keys_f].
    destruct (keys_t c) as [|k ks]; [congruence|]. cbn. now rewrite app_snoc.
Qed.

Lemma leftmost_child : forall l c r, wf_f (FCons l c r) ->
  exists k, hd_error (keys_f (FCons l c r)) = Some k /\
            forall out, descend_leftmost c (out ++ [l]) = Some (out ++ k).
Proof.
  intros l c r (Wc & Nc & _). cbn [keys_f]. destruct (keys_t c) as [|k ks] eqn:E; [congruence|].
  exists (l :: k). split; [reflexivity|]. intros out. rewrite (leftmost_first c Wc), E. cbn. now rewrite app_snoc.
Qed.

Lemma rev_keys_f : forall l c r, rev (keys_f (FCons l c r)) = rev (keys_f r) ++ map (cons l) (rev (keys_t c)).
Proof. intros. cbn [keys_f]. now rewrite rev_app_distr, map_rev. Qed.

Lemma rev_keys_t : forall tm f, rev (keys_t (Node tm f)) = rev (keys_f f) ++ (if tm then [[]] else []).
Proof. intros. cbn [keys_t]. rewrite rev_app_distr. now destruct tm. Qed.

Lemma rightmost_last : forall t, wf_t t ->
  forall out, descend_rightmost t out = option_map (app out) (hd_error (rev (keys_t t))).
Proof.
  apply (trie_mut (fun t => wf_t t -> forall out, descend_rightmost t out = option_map (app out) (hd_error (rev (keys_t t))))
                  (fun f => wf_f f -> forall out,
                     rightmost_f f out = option_map (fun k => Some (out ++ k)) (hd_error (rev (keys_f f))))).
  - intros tm f IH Hwf out. cbn [descend_rightmost]. rewrite (IH Hwf), rev_keys_t.
    destruct (rev (keys_f f)); [|reflexivity]. destruct tm; cbn; [now rewrite app_nil_r | reflexivity].
  - reflexivity.
  - intros l c IHc r IHr (Wc & Nc & Wr & _) out. cbn [rightmost_f]. rewrite (IHr Wr), (IHc Wc), rev_keys_f.
    destruct (rev (keys_f r)); [|reflexivity].
    destruct (keys_t c) as [|k ks]; [congruence|]. cbn [rev]. destruct (rev ks); cbn; now rewrite app_snoc.
Qed.

Lemma rightmost_child : forall l c, wf_t c -> keys_t c <> [] ->
  exists k, hd_error (map (cons l) (rev (keys_t c))) = Some k /\
            forall out, descend_rightmost c (out ++ [l]) = Some (out ++ k).
Proof.
  intros l c Wc Nc. destruct (rev (keys_t c)) as [|k ks] eqn:E.
  - apply (f_equal (@rev _)) in E. rewrite rev_involutive in E. contradiction.
  - exists (l :: k). split; [reflexivity|]. intros out. rewrite (rightmost_last c Wc), E. cbn. now rewrite app_snoc.
Qed.

Lemma first_ge_wf : forall tb f, wf_f f -> wf_f (first_ge tb f).
Proof.
  intros tb. induction f as [|l c r IH] using forest_ind_simple; intros Hwf; [exact I|].
  cbn [first_ge]. destruct (tb <=? l); [exact Hwf | apply IH, Hwf].
Qed.

Lemma first_ge_find : forall tb rest f, wf_f f ->
  find (ble_b (tb :: rest)) (keys_f f) =
  match first_ge tb f with
  | FNil => None
  | FCons l c sibs =>
      if l =? tb then match find (ble_b rest) (keys_t c) with
                      | Some k => Some (tb :: k)
                      | None => hd_error (keys_f sibs)
                      end
      else hd_error (keys_f (FCons l c sibs))
  end.
Proof.
  intros tb rest. induction f as [|l c r IH] using forest_ind_simple; intros Hwf; [reflexivity|].
  cbn [first_ge]. destruct (N.leb_spec tb l) as [Hle|Hgt].
  - destruct (N.eqb_spec l tb) as [->|Hne].
    + cbn [keys_f]. rewrite find_app, (find_map _ (ble_b rest)) by (intros; apply ble_b_cons).
      destruct (find (ble_b rest) (keys_t c)); [reflexivity|]. apply find_all.
      intros k Hk. apply (later_keys tb c r k Hwf) in Hk as (l' & k' & -> & Hl). apply ble_b_true, ble_cons. now left.
    + apply find_all. intros k Hk. apply (forest_keys l c r k Hwf) in Hk as (l' & k' & -> & Hl).
      apply ble_b_true, ble_cons. left. lia.
  - cbn [keys_f]. rewrite find_app, find_none_in; [apply IH, Hwf|].
    intros k Hk. apply in_map_iff in Hk as (k' & <- & _). apply ble_b_false, blt_cons. now left.
Qed.

(** only the root can be without keys, and there the stack is empty *)
Lemma geq_loop_find : forall target t path stack, wf_t t -> (keys_t t = [] -> stack = []) ->
  geq_loop target t path stack =
  match find (ble_b target) (keys_t t) with Some k => Some (path ++ k) | None => backtrack_ge stack end.
Proof.
  induction target as [|tb rest IH]; intros t path stack Hwf Hst.
  - cbn [geq_loop]. rewrite (leftmost_first t Hwf), find_all by (intros [|x k] _; reflexivity).
    destruct (keys_t t); [now rewrite Hst | reflexivity].
  - destruct t as [tm f]. cbn [geq_loop t_children].
    replace (find (ble_b (tb :: rest)) (keys_t (Node tm f))) with (find (ble_b (tb :: rest)) (keys_f f))
      by (destruct tm; reflexivity).
    rewrite (first_ge_find tb rest f Hwf). pose proof (first_ge_wf tb f Hwf) as Hs.
    destruct (first_ge tb f) as [|l c sibs]; [reflexivity|]. pose proof Hs as (Wc & Nc & Ws & _).
    destruct (N.eqb_spec l tb) as [->|_].
    + rewrite (IH c _ _ Wc) by (intros E; destruct (Nc E)).
      destruct (find (ble_b rest) (keys_t c)); [now rewrite app_snoc|].
      cbn [backtrack_ge]. destruct sibs as [|l2 c2 s2]; [reflexivity|].
      destruct (leftmost_child l2 c2 s2 Ws) as (k & Hk & Hd). now rewrite Hk, Hd.
    + destruct (leftmost_child l c sibs Hs) as (k & Hk & Hd). now rewrite Hk, Hd.
Qed.

Theorem first_geq_spec : forall ks target,
  match find_first_key_geq (t_build ks) target with
  | Some r => In r ks /\ ble target r /\ forall k, In k ks -> ble target k -> ble r k
  | None => forall k, In k ks -> blt k target
  end.
Proof.
  intros ks target. destruct (t_build_spec ks) as (W & K). unfold find_first_key_geq.
  rewrite (geq_loop_find target _ [] [] W) by reflexivity.
  pose proof (find_sorted blt (ble_b target) _ (keys_t_sorted _ W)) as H.
  destruct (find (ble_b target) (keys_t (t_build ks))) as [r|]; cbn [app].
  - destruct H as (Hr & Pr & Hmin). split; [apply K, Hr|]. split; [apply ble_b_true, Pr|].
    intros k Hk Hle. apply K in Hk. apply ble_b_true in Hle.
    destruct (Hmin k Hk Hle) as [->|Hlt]; [apply ble_refl | apply blt_ble, Hlt].
  - intros k Hk. apply ble_b_false, H, K, Hk.
Qed.

(** [find_last_key_leq] finds the last key that, cut to the target's length, is not above the target. *)
Definition le_upto (target k : bytes) : bool := ble_b (firstn (length target) k) target.

Lemma le_upto_same : forall x t k, le_upto (x :: t) (x :: k) = le_upto t k.
Proof. intros. apply ble_b_cons. Qed.

Lemma le_upto_lt : forall tb rest l k, l < tb -> le_upto (tb :: rest) (l :: k) = true.
Proof. intros. apply ble_b_true, ble_cons. now left. Qed.

Lemma le_upto_gt : forall tb rest l k, tb < l -> le_upto (tb :: rest) (l :: k) = false.
Proof. intros. apply ble_b_false, blt_cons. now left. Qed.

Lemma ble_firstn : forall n k, ble (firstn n k) k.
Proof.
  induction n as [|n IH]; intros [|x k]; cbn [firstn]; try apply ble_nil_l.
  apply ble_cons. right. split; [reflexivity | apply IH].
Qed.

Lemma ble_le_upto : forall k t, ble k t -> le_upto t k = true.
Proof. intros k t H. apply ble_b_true. exact (ble_trans _ _ _ (ble_firstn _ k) H). Qed.

Lemma le_upto_ble : forall k t, length k = length t -> le_upto t k = true -> ble k t.
Proof. intros k t E H. unfold le_upto in H. rewrite <- E, firstn_all in H. apply ble_b_true, H. Qed.

Lemma scan_le_in : forall tb f pp x l c, scan_le tb f = (pp, x) -> x = Some (l, c) \/ pp = Some (l, c) -> In_f l c f.
Proof.
  intros tb. induction f as [|l1 c1 r IH] using forest_ind_simple; intros pp x l c E H; cbn [scan_le] in E.
  - injection E as <- <-. destruct H; discriminate.
  - destruct (l1 <=? tb); [|injection E as <- <-; destruct H; discriminate].
    destruct (scan_le tb r) as [pp' [x'|]]; injection E as <- <-.
    + destruct H as [H|H]; [right; apply (IH _ _ l c eq_refl); now left|].
      destruct pp'; [right; apply (IH _ _ l c eq_refl); now right | injection H as <- <-; left; auto].
    + destruct H as [[= <- <-]|H]; [left; auto | discriminate].
Qed.

Lemma scan_le_find : forall tb rest f, wf_f f ->
  find (le_upto (tb :: rest)) (rev (keys_f f)) =
  match scan_le tb f with
  | (pp, Some (l, c)) =>
      if l =? tb then
        match find (le_upto rest) (rev (keys_t c)) with
        | Some k => Some (tb :: k)
        | None => match pp with
                  | Some (l0, c0) => hd_error (map (cons l0) (rev (keys_t c0)))
                  | None => None
                  end
        end
      else hd_error (map (cons l) (rev (keys_t c)))
  | (_, None) => None
  end.
Proof.
  intros tb rest. induction f as [|l c r IH] using forest_ind_simple; intros Hwf; [reflexivity|].
  pose proof Hwf as (Wc & Nc & Wr & Hlab). cbn [scan_le]. destruct (N.leb_spec l tb) as [Hle|Hgt].
  - rewrite rev_keys_f, find_app, (IH Wr). pose proof (scan_le_in tb r) as Hin.
    assert (Hlt : l < tb -> find (le_upto (tb :: rest)) (map (cons l) (rev (keys_t c))) = hd_error (map (cons l) (rev (keys_t c)))).
    { intros Hlt. apply find_all. intros k Hk. apply in_map_iff in Hk as (k' & <- & _). now apply le_upto_lt. }
    destruct (scan_le tb r) as [pp [[l1 c1]|]].
    + pose proof (Hin _ _ l1 c1 eq_refl (or_introl eq_refl)) as Hin1.
      destruct (wf_child r l1 c1 Wr Hin1) as (W1 & N1). apply Hlab in Hin1.
      destruct (N.eqb_spec l1 tb) as [->|Hne].
      * destruct (find (le_upto rest) (rev (keys_t c1))); [reflexivity|]. destruct pp as [[l0 c0]|]; [|now apply Hlt].
        destruct (wf_child r l0 c0 Wr (Hin _ _ l0 c0 eq_refl (or_intror eq_refl))) as (W0 & N0).
        destruct (rightmost_child l0 c0 W0 N0) as (k & Hk & _). now rewrite Hk.
      * destruct (rightmost_child l1 c1 W1 N1) as (k & Hk & _). now rewrite Hk.
    + destruct (N.eqb_spec l tb) as [->|Hne]; [|apply Hlt; lia].
      rewrite (find_map _ (le_upto rest)) by (intros; apply le_upto_same).
      destruct (find (le_upto rest) (rev (keys_t c))); reflexivity.
  - apply find_none_in. intros k Hk. apply in_rev, (forest_keys l c r k Hwf) in Hk as (l' & k' & -> & Hl).
    apply le_upto_gt. lia.
Qed.

(** The known class of the latent defect of [find_last_key_leq]. *)
Definition SurfTrieProperPrefixKey (ks : list bytes) (target : bytes) : Prop :=
  exists k, In k ks /\ proper_prefix k target.

Lemma proper_prefix_cons : forall x k t, proper_prefix k t -> proper_prefix (x :: k) (x :: t).
Proof. intros x k t (s & Hs & ->). exists s. split; [assumption|reflexivity]. Qed.

Lemma nil_proper_prefix : forall x t, proper_prefix [] (x :: t).
Proof. intros x t. exists (x :: t). split; [discriminate|reflexivity]. Qed.

Definition bt_result (stack : list (option (N * trie) * bytes)) : option bytes :=
  match backtrack_le stack with Some r => r | None => None end.

(** A key that is a proper prefix of the target sits at a terminal node on the search path;
    the search forgets such nodes when it backtracks, so they are excluded. *)
Lemma leq_loop_find : forall target t path stack, wf_t t -> (keys_t t = [] -> stack = []) ->
  ~ SurfTrieProperPrefixKey (keys_t t) target ->
  leq_loop target t path stack =
  match find (le_upto target) (rev (keys_t t)) with Some k => Some (path ++ k) | None => bt_result stack end.
Proof.
  induction target as [|tb rest IH]; intros t path stack Hwf Hst Hnp.
  - cbn [leq_loop]. rewrite (rightmost_last t Hwf), find_all by reflexivity.
    destruct (rev (keys_t t)) eqn:E; [|reflexivity].
    apply (f_equal (@rev _)) in E. rewrite rev_involutive in E. rewrite (Hst E).
    destruct t as [[|] f]; [discriminate E | reflexivity].
  - destruct t as [tm f]. destruct tm.
    { destruct Hnp. exists []. split; [left; reflexivity | apply nil_proper_prefix]. }
    cbn [leq_loop t_children t_terminal keys_t app]. rewrite (scan_le_find tb rest f Hwf).
    pose proof (scan_le_in tb f) as Hin. destruct (scan_le tb f) as [pp [[l c]|]]; [|reflexivity].
    pose proof (Hin _ _ l c eq_refl (or_introl eq_refl)) as Hc. destruct (wf_child f l c Hwf Hc) as (Wc & Nc).
    destruct (N.eqb_spec l tb) as [->|_].
    + rewrite (IH c _ _ Wc).
      * destruct (find (le_upto rest) (rev (keys_t c))); [now rewrite app_snoc|].
        unfold bt_result. cbn [backtrack_le]. destruct pp as [[l0 c0]|]; [|reflexivity].
        destruct (wf_child f l0 c0 Hwf (Hin _ _ l0 c0 eq_refl (or_intror eq_refl))) as (W0 & N0).
        destruct (rightmost_child l0 c0 W0 N0) as (k & Hk & Hd). now rewrite Hk, Hd.
      * intros E. destruct (Nc E).
      * intros (k & Hk & Hp). apply Hnp. exists (tb :: k).
        split; [exact (in_keys_child false f tb c k Hc Hk) | now apply proper_prefix_cons].
    + destruct (rightmost_child l c Wc Nc) as (k & Hk & Hd). now rewrite Hk, Hd.
Qed.

Lemma uniform_outside_known : forall ks target,
  (forall k, In k ks -> length k = length target) -> ~ SurfTrieProperPrefixKey ks target.
Proof. intros ks target Hu (k & Hk & Hp). exact (same_length_no_prefix k target (Hu k Hk) Hp). Qed.

Lemma last_leq_find : forall ks target, ~ SurfTrieProperPrefixKey ks target ->
  find_last_key_leq (t_build ks) target = find (le_upto target) (rev (keys_t (t_build ks))).
Proof.
  intros ks target Hnp. destruct (t_build_spec ks) as (W & K). unfold find_last_key_leq.
  rewrite (leq_loop_find target _ [] [] W); [|reflexivity | intros (k & Hk & Hp); apply Hnp; exists k; split; [apply K, Hk | exact Hp]].
  destruct (find (le_upto target) (rev (keys_t (t_build ks)))); reflexivity.
Qed.

Theorem last_leq_spec_uniform : forall ks target,
  (forall k, In k ks -> length k = length target) ->
  match find_last_key_leq (t_build ks) target with
  | Some r => In r ks /\ ble r target /\ forall k, In k ks -> ble k target -> ble k r
  | None => forall k, In k ks -> blt target k
  end.
Proof.
  intros ks target Hu. destruct (t_build_spec ks) as (W & K). rewrite last_leq_find.
  2: { apply uniform_outside_known, Hu. }
  pose proof (find_sorted _ (le_upto target) _ (sorted_rev blt _ (keys_t_sorted _ W))) as H.
  destruct (find (le_upto target) (rev (keys_t (t_build ks)))) as [r|].
  - destruct H as (Hr & Pr & Hmax). apply in_rev, K in Hr. split; [exact Hr|].
    split; [exact (le_upto_ble r target (Hu r Hr) Pr)|].
    intros k Hk Hle. destruct (Hmax k) as [->|Hlt]; [apply -> in_rev; apply K, Hk | now apply ble_le_upto | apply ble_refl | apply blt_ble, Hlt].
  - intros k Hk. apply not_ble_blt. intros Hle. apply ble_le_upto in Hle. rewrite H in Hle; [discriminate | apply -> in_rev; apply K, Hk].
Qed.

Theorem last_leq_none_sound : forall ks target,
  ~ SurfTrieProperPrefixKey ks target ->
  find_last_key_leq (t_build ks) target = None -> forall k, In k ks -> blt target k.
Proof.
  intros ks target Hnp Hnone k Hk. destruct (t_build_spec ks) as (_ & K). rewrite (last_leq_find ks target Hnp) in Hnone.
  apply not_ble_blt. intros Hle. apply ble_le_upto in Hle.
  rewrite (find_none _ _ Hnone k) in Hle; [discriminate | apply -> in_rev; apply K, Hk].
Qed.

(** [find_first_key] is [find_first_key_geq] at the empty target, by computation, so [first_geq_spec] says it.
    There is no greatest string to play that part for [find_last_key], which goes through [rightmost_last]. *)
Lemma find_first_key_spec : forall ks k0, In k0 ks ->
  exists m, find_first_key (t_build ks) = Some m /\ In m ks /\ forall k, In k ks -> ble m k.
Proof.
  intros ks k0 Hin. pose proof (first_geq_spec ks []) as H.
  change (find_first_key_geq (t_build ks) []) with (find_first_key (t_build ks)) in H.
  destruct (find_first_key (t_build ks)) as [m|]; [|destruct (blt_nil_r k0 (H k0 Hin))].
  destruct H as (Hm & _ & Hmin). exists m. split; [reflexivity|]. split; [exact Hm|].
  intros k Hk. apply Hmin; [exact Hk | apply ble_nil_l].
Qed.

Lemma find_last_key_spec : forall ks k0, In k0 ks ->
  exists m, find_last_key (t_build ks) = Some m /\ In m ks /\ forall k, In k ks -> ble k m.
Proof.
  intros ks k0 Hin. destruct (t_build_spec ks) as (W & K). unfold find_last_key.
  rewrite (rightmost_last _ W).
  pose proof (find_sorted _ (fun _ => true) _ (sorted_rev blt _ (keys_t_sorted _ W))) as H.
  rewrite find_all in H by reflexivity.
  destruct (hd_error (rev (keys_t (t_build ks)))) as [m|]; [|discriminate (H k0 (proj1 (in_rev _ _) (proj2 (K k0) Hin)))].
  destruct H as (Hm & _ & Hmax). exists m. split; [reflexivity|]. split; [apply K, in_rev, Hm|].
  intros k Hk. destruct (Hmax k) as [->|Hlt]; [apply -> in_rev; apply K, Hk | reflexivity | apply ble_refl | apply blt_ble, Hlt].
Qed.

Lemma bytes_ltb_spec : forall a b, bytes_ltb a b = true <-> blt a b.
Proof. intros a b. unfold bytes_ltb, blt. destruct (bytes_cmp a b); split; congruence. Qed.

(** [ble] or [blt] by [incl].  The bound stands second for [may_overlap_le] and first for [may_overlap_ge]
    ([cmp_upper incl lower k]: the lower bound against the key). *)
Definition cmp_upper (incl : bool) (k upper : bytes) : Prop := if incl then ble k upper else blt k upper.

Theorem may_overlap_ge_exact : forall ks lower incl,
  may_overlap_ge (t_build ks) lower incl = true <-> exists k, In k ks /\ cmp_upper incl lower k.
Proof.
  intros ks lower incl. unfold may_overlap_ge. pose proof (first_geq_spec ks lower) as Hs.
  destruct (find_first_key_geq (t_build ks) lower) as [r|].
  - destruct Hs as (Hr1 & Hr2 & Hr3). destruct incl.
    + split; [intros _; now exists r|reflexivity].
    + destruct (bytes_ltb lower r) eqn:Hlt.
      * split; [intros _; exists r; split; [assumption|now apply bytes_ltb_spec]|reflexivity].
      * destruct (find_last_key_spec ks r Hr1) as (m & Hm & Hm1 & Hm2). rewrite Hm.
        split.
        -- intros H. exists m. split; [assumption|]. now apply bytes_ltb_spec.
        -- intros (k & Hk & Hgt). apply bytes_ltb_spec. apply (blt_le_trans lower k m); [exact Hgt|now apply Hm2].
  - split; [discriminate|]. intros (k & Hk & Hc). exfalso.
    specialize (Hs k Hk). destruct incl.
    + now apply not_blt_ble in Hc.
    + apply (blt_irrefl k). eapply blt_trans; eassumption.
Qed.

Theorem may_overlap_le_sound_outside_known : forall ks upper incl,
  ~ SurfTrieProperPrefixKey ks upper ->
  (exists k, In k ks /\ cmp_upper incl k upper) ->
  may_overlap_le (t_build ks) upper incl = true.
Proof.
  intros ks upper incl Hnp (k & Hk & Hc). unfold may_overlap_le.
  assert (Hle : ble k upper) by (destruct incl; [exact Hc|now apply blt_ble]).
  destruct (find_last_key_leq (t_build ks) upper) as [r|] eqn:Hr.
  - destruct incl; [reflexivity|]. unfold cmp_upper in Hc.
    destruct (bytes_ltb r upper); [reflexivity|].
    destruct (find_first_key_spec ks k Hk) as (m & Hm & Hm1 & Hm2). rewrite Hm.
    apply bytes_ltb_spec. apply (ble_lt_trans m k upper); [now apply Hm2|exact Hc].
  - exfalso. pose proof (last_leq_none_sound ks upper Hnp Hr k Hk) as Hgt.
    now apply not_blt_ble in Hle.
Qed.

Theorem may_overlap_le_exact_uniform : forall ks upper incl,
  (forall k, In k ks -> length k = length upper) ->
  (may_overlap_le (t_build ks) upper incl = true <-> exists k, In k ks /\ cmp_upper incl k upper).
Proof.
  intros ks upper incl Hu. split.
  - unfold may_overlap_le. pose proof (last_leq_spec_uniform ks upper Hu) as Hs.
    destruct (find_last_key_leq (t_build ks) upper) as [r|]; [|discriminate].
    destruct Hs as (Hr1 & Hr2 & Hr3). destruct incl.
    + intros _. now exists r.
    + unfold cmp_upper. destruct (bytes_ltb r upper) eqn:Hlt.
      * intros _. exists r. split; [assumption|now apply bytes_ltb_spec].
      * destruct (find_first_key_spec ks r Hr1) as (m & Hm & Hm1 & Hm2). rewrite Hm.
        intros H. exists m. split; [assumption|now apply bytes_ltb_spec].
  - apply may_overlap_le_sound_outside_known, uniform_outside_known, Hu.
Qed.

(** Mixed lengths break [find_last_key_leq]: with keys "a" and "abz" and target "aba" the
    search answers "none" although "a" <= "aba" (a terminal ancestor is forgotten when the
    descent dead-ends).  Latent: at zone level the keys have the target's length
    ([SurfZoneProofs.surf_keys_len8], [SurfZoneProofs.unknown_class_keys]; Props/C08.v). *)
Theorem last_leq_prefix_refuted :
  exists ks target k,
    In k ks /\ ble k target /\
    find_last_key_leq (t_build ks) target = None /\
    may_overlap_le (t_build ks) target true = false.
Proof.
  exists [[97]; [97; 98; 122]], [97; 98; 97], [97].
  split; [now left|]. split; [unfold ble; vm_compute; discriminate|]. split; vm_compute; reflexivity.
Qed.

Example may_overlap_le_outside_known_inhabited :
  ~ SurfTrieProperPrefixKey [[1; 2]; [3]] [2; 0] /\
  (exists k, In k [[1; 2]; [3]] /\ cmp_upper true k [2; 0]).
Proof.
  split.
  - intros (k & [<-|[<-|[]]] & (s & Hs & E)); discriminate E.
  - exists [1; 2]. split; [now left|]. unfold cmp_upper, ble. vm_compute. discriminate.
Qed.
