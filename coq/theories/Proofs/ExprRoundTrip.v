(** Printing then parsing the leaves of a well-formed WHERE expression (fields, values, comparisons, IN
    lists) is the identity, for the grammar whose numeric actions [unwrap()] and for the repaired one, under every
    keyword casing.
    The levels above the leaves are in ExprRoundTripG.v. *)
From Coq Require Import NArith ZArith List Bool Lia.
From Coq Require Import ZifyBool ZifyNat ZifyN.
From Snel Require Import Base.Bytes Model.Tokenizer Model.Parser Model.Printer Proofs.ListFacts Proofs.ParserBasics.
Import ListNotations.
Open Scope N_scope.

Ltac norm_app := repeat (rewrite <- app_assoc || rewrite <- app_comm_cons); cbn [app].

(** What may follow a printed text for the parser to stop where the printer did: after a field or number no
    identifier byte or '.' ([fld_stop]); after a leaf the end, ' ' or ')' ([head_ok]); after a factor also no
    comparison operator or IN behind blanks, which would continue a bare field ([fstop]); after an and-level
    text also no AND ([astop]); after an or-level text also no OR ([ostop]). *)
Definition head_ok (rest : bytes) : bool :=
  match rest with [] => true | c :: _ => (c =? 32) || (c =? 41) end.
Definition fld_stop (rest : bytes) : bool := negb (head_is (fun c => is_ident_char c || (c =? 46)) rest).

Definition fstop (rest : bytes) : Prop :=
  head_ok rest = true /\ cmp_op (ws rest) = None /\ ci K_IN (ws rest) = None.
Definition astop (rest : bytes) : Prop := fstop rest /\ ci K_AND (ws rest) = None.
Definition ostop (rest : bytes) : Prop := astop rest /\ ci K_OR (ws rest) = None.

Lemma head_ok_fld_stop : forall rest, head_ok rest = true -> fld_stop rest = true.
Proof.
  intros [|c r] H; [reflexivity|]. unfold head_ok in H. unfold fld_stop, head_is.
  unfold is_ident_char, is_alpha, is_digit. lia.
Qed.

Lemma fld_stop_nonalpha : forall rest, fld_stop rest = true -> head_is is_alpha rest = false.
Proof.
  intros [|c r] H; [reflexivity|]. unfold fld_stop, head_is in *. unfold is_ident_char, is_alpha, is_digit in *. lia.
Qed.

Lemma fld_stop_nonident : forall rest, fld_stop rest = true -> head_is is_ident_char rest = false.
Proof. intros [|c r] H; [reflexivity|]. unfold fld_stop, head_is in *. unfold is_ident_char, is_alpha, is_digit in *. lia. Qed.

Lemma fld_stop_nondigit : forall rest, fld_stop rest = true -> head_is is_digit rest = false.
Proof. intros [|c r] H; [reflexivity|]. unfold fld_stop, head_is in *. unfold is_ident_char, is_alpha, is_digit in *. lia. Qed.

Lemma fld_stop_nodot : forall c r, fld_stop (c :: r) = true -> (c =? 46) = false.
Proof. intros c r H. unfold fld_stop, head_is in H. unfold is_ident_char, is_alpha, is_digit in *. lia. Qed.

Lemma ident_print : forall i rest,
  ident_syntax i = true -> head_is is_ident_char rest = false ->
  ident (i ++ rest) = Some (i, rest).
Proof.
  intros [|c r] rest Hi Hr; cbn in Hi; [discriminate|].
  apply andb_prop in Hi as [Hc Hr']. unfold ident, ident_with. cbn [app]. rewrite Hc.
  rewrite (span_app _ _ _ Hr' Hr). auto.
Qed.

Lemma split_dot_spec : forall f a o, split_dot f = (a, o) ->
  forallb (fun c => negb (c =? 46)) a = true /\
  match o with None => f = a | Some b2 => f = a ++ 46 :: b2 end.
Proof.
  induction f as [|c f IH]; intros a o H; cbn in H.
  - inversion H; subst. auto.
  - destruct (c =? 46) eqn:E.
    + inversion H; subst. apply N.eqb_eq in E. subst. auto.
    + destruct (split_dot f) as [a' o'] eqn:S. inversion H; subst.
      destruct (IH _ _ eq_refl) as [H1 H2]. split.
      * cbn. rewrite E, H1. auto.
      * destruct o; subst; auto.
Qed.

Lemma wf_ident_syntax : forall i, wf_ident i = true -> ident_syntax i = true.
Proof. intros i H. unfold wf_ident in H. apply andb_prop in H. tauto. Qed.

Lemma wf_field_cases : forall f, wf_field f = true ->
  wf_ident f = true \/ exists a b, f = a ++ 46 :: b /\ wf_ident a = true /\ ident_syntax b = true.
Proof.
  intros f Hf. unfold wf_field in Hf. destruct (split_dot f) as [a o] eqn:S. apply split_dot_spec in S as [_ E].
  destruct o as [b|]; subst f; [right|left; exact Hf]. apply andb_prop in Hf. eauto.
Qed.

Lemma field_print : forall f rest,
  wf_field f = true -> fld_stop rest = true -> field (f ++ rest) = Some (f, rest).
Proof.
  intros f rest Hf Hr. unfold field. destruct (wf_field_cases f Hf) as [Ha|(a & b & -> & Ha & Hb)].
  - rewrite (ident_print f rest (wf_ident_syntax _ Ha) (fld_stop_nonident _ Hr)).
    destruct rest as [|c r]; auto. rewrite (fld_stop_nodot _ _ Hr). auto.
  - norm_app. rewrite (ident_print a (46 :: b ++ rest) (wf_ident_syntax _ Ha) eq_refl).
    cbn [N.eqb Pos.eqb]. rewrite (ident_print b rest Hb (fld_stop_nonident _ Hr)). auto.
Qed.

Lemma span_prefix : forall p a rest, head_is p rest = false ->
  span p (a ++ rest) = (fst (span p a), snd (span p a) ++ rest).
Proof.
  induction a as [|c a IH]; intros rest Hr; cbn [app span].
  - destruct rest as [|x r]; cbn in *; auto. rewrite Hr. auto.
  - destruct (p c) eqn:E.
    + rewrite (IH _ Hr). destruct (span p a); auto.
    + auto.
Qed.

Lemma ci_wf_ident : forall i k rest,
  wf_ident i = true -> In k keywords -> head_is is_alpha rest = false ->
  ci k (i ++ rest) = None.
Proof.
  intros i k rest Hi Hk Hr. unfold ci. rewrite (span_prefix _ _ _ Hr).
  unfold wf_ident in Hi. apply andb_prop in Hi as [_ Hkw].
  destruct (span is_alpha i) as [w r] eqn:S. cbn [fst snd] in *.
  destruct w as [|c w]; auto.
  unfold is_keyword in Hkw. apply negb_true_iff in Hkw.
  rewrite (proj1 (existsb_false _ _) Hkw k Hk). auto.
Qed.

Lemma ci_wf_field : forall f k rest,
  wf_field f = true -> In k keywords -> fld_stop rest = true ->
  ci k (f ++ rest) = None.
Proof.
  intros f k rest Hf Hk Hr. destruct (wf_field_cases f Hf) as [Ha|(a & b & -> & Ha & _)].
  - apply ci_wf_ident; auto. apply fld_stop_nonalpha; auto.
  - norm_app. apply ci_wf_ident; auto.
Qed.

Lemma wf_field_head : forall f rest, wf_field f = true ->
  exists c r, f ++ rest = c :: r /\ is_ident_start c = true.
Proof.
  intros f rest Hf.
  assert (H : exists a t, f = a ++ t /\ ident_syntax a = true).
  { destruct (wf_field_cases f Hf) as [Ha|(a & b & -> & Ha & _)]; [exists f, []; rewrite app_nil_r|exists a, (46 :: b)];
      auto using wf_ident_syntax. }
  destruct H as ([|c a] & t & -> & Ha); cbn in Ha; [discriminate|]. apply andb_prop in Ha as [Hc _]. cbn [app]. eauto.
Qed.

Lemma string_lit_print : forall s rest, no_quote s = true ->
  string_lit (34 :: s ++ 34 :: rest) = Some (s, rest).
Proof.
  intros s rest Hs. unfold string_lit. cbn [N.eqb Pos.eqb].
  rewrite (span_app (fun c => negb (c =? 34)) s (34 :: rest) Hs eq_refl). auto.
Qed.

Lemma integer_signed : forall (neg : bool) d rest,
  all_digits d = true -> d <> [] -> head_is is_digit rest = false ->
  integer ((if neg then [45] else []) ++ d ++ rest) = Some ((neg, d), rest).
Proof.
  intros neg d rest Hd Hne Hr. unfold integer. destruct d as [|c d']; [congruence|].
  assert (Hc : (c =? 45) = false).
  { unfold all_digits in Hd. cbn [forallb] in Hd. unfold is_digit in Hd. lia. }
  destruct neg; cbn [app N.eqb Pos.eqb]; [|rewrite Hc];
    change (c :: d' ++ rest) with ((c :: d') ++ rest); rewrite (span_app _ _ _ Hd Hr); reflexivity.
Qed.

Lemma integer_digits : forall d rest,
  all_digits d = true -> d <> [] -> head_is is_digit rest = false ->
  integer (d ++ rest) = Some ((false, d), rest).
Proof. exact (integer_signed false). Qed.

Lemma number_text_int : forall (neg : bool) d rest,
  all_digits d = true -> d <> [] -> fld_stop rest = true ->
  number_text ((if neg then [45] else []) ++ d ++ rest) = Some ((neg, d, None), rest).
Proof.
  intros neg d rest Hd Hne Hr. unfold number_text. rewrite (integer_signed neg d rest Hd Hne (fld_stop_nondigit _ Hr)).
  destruct rest as [|c r]; auto. rewrite (fld_stop_nodot _ _ Hr). auto.
Qed.

Lemma number_text_float : forall (neg : bool) d fd rest,
  all_digits d = true -> d <> [] -> all_digits fd = true -> fd <> [] -> fld_stop rest = true ->
  number_text ((if neg then [45] else []) ++ d ++ 46 :: fd ++ rest) = Some ((neg, d, Some fd), rest).
Proof.
  intros neg d fd rest Hd Hne Hfd Hfne Hr. unfold number_text.
  rewrite (integer_signed neg d (46 :: fd ++ rest) Hd Hne eq_refl). cbn [N.eqb Pos.eqb].
  rewrite (span_app _ _ _ Hfd (fld_stop_nondigit _ Hr)). destruct fd; [congruence|auto].
Qed.

Lemma dec_of_Z_shape : forall z, exists (neg : bool) d,
  dec_of_Z z = (if neg then [45] else []) ++ d /\ all_digits d = true /\ d <> [] /\
  (if neg then (- Z.of_N (digits_val d 0))%Z else Z.of_N (digits_val d 0)) = z.
Proof.
  intros [|p|p]; cbn [dec_of_Z].
  - exists false, [48]. repeat split; auto. congruence.
  - destruct (dec_of_N_spec (Npos p)) as (H1 & H2 & H3). exists false, (dec_of_N (Npos p)).
    rewrite H3. repeat split; auto.
  - destruct (dec_of_N_spec (Npos p)) as (H1 & H2 & H3). exists true, (dec_of_N (Npos p)).
    rewrite H3. repeat split; auto.
Qed.

Lemma wf_float_parts : forall neg d fd, wf_val (VFloat neg d fd) = true ->
  all_digits d = true /\ all_digits fd = true /\ d <> [] /\ fd <> [] /\ float_overflows d fd = false.
Proof.
  intros neg d fd H. cbn [wf_val] in H.
  apply andb_prop in H as [H H5]. apply andb_prop in H as [H H4]. apply andb_prop in H as [H H3].
  apply andb_prop in H as [H1 H2]. apply negb_true_iff in H5.
  repeat split; auto; intro E; subst; discriminate.
Qed.

Lemma string_lit_nonquote : forall s, head_is (fun c => c =? 34) s = false -> string_lit s = None.
Proof. intros [|c r] H; [reflexivity|]. unfold string_lit. cbn [head_is] in H. rewrite H. reflexivity. Qed.

Lemma signed_digits_head : forall (p : N -> bool) (neg : bool) d r,
  all_digits d = true -> d <> [] -> p 45 = false -> (forall c, is_digit c = true -> p c = false) ->
  head_is p ((if neg then [45] else []) ++ d ++ r) = false.
Proof.
  intros p neg d r Hd Hne H45 Hp. destruct neg; [exact H45|]. destruct d as [|c d']; [congruence|].
  cbn [app head_is]. apply Hp. unfold all_digits in Hd. cbn [forallb] in Hd. apply andb_prop in Hd. tauto.
Qed.

Lemma digit_nonquote : forall c, is_digit c = true -> (c =? 34) = false.
Proof. intros c H. unfold is_digit in H. lia. Qed.
Lemma digit_nonws : forall c, is_digit c = true -> is_tws c = false.
Proof. intros c H. unfold is_digit in H. unfold is_tws. lia. Qed.

(** [value() = string_literal / number / <an identifier rule>]: the third alternative is not reached on printed values *)
Lemma value_alt_print : forall fx (third : P jval) v rest, wf_val v = true -> fld_stop rest = true ->
  alt (lift_map string_lit VStr) (alt (number fx) third) (print_val v ++ rest) = Ok (v, rest).
Proof.
  intros fx third v rest Hv Hr. destruct v as [s|z|neg d fd|bv]; cbn [print_val wf_val] in *.
  - norm_app. apply alt_ok, lift_map_ok, string_lit_print, Hv.
  - destruct (dec_of_Z_shape z) as (neg & d & E & Hd & Hne & Hz). rewrite E. norm_app.
    rewrite alt_err by apply lift_map_err, string_lit_nonquote, (signed_digits_head _ neg d rest Hd Hne eq_refl digit_nonquote).
    apply alt_ok. unfold number. rewrite (number_text_int neg d rest Hd Hne Hr).
    unfold conv_i64. rewrite Hz. rewrite Hv. auto.
  - destruct (wf_float_parts neg d fd Hv) as (Hd & Hfd & Hdne & Hfne & Hov). norm_app.
    rewrite alt_err by apply lift_map_err, string_lit_nonquote, (signed_digits_head _ neg d _ Hd Hdne eq_refl digit_nonquote).
    apply alt_ok. unfold number. rewrite (number_text_float neg d fd rest); auto.
    rewrite Hov. auto.
  - discriminate.
Qed.

Lemma print_val_head : forall v rest, wf_val v = true -> head_is is_tws (print_val v ++ rest) = false.
Proof.
  intros v rest Hv. destruct v as [s|z|neg d fd|bv]; cbn [print_val wf_val] in *.
  - reflexivity.
  - destruct (dec_of_Z_shape z) as (neg & d & E & Hd & Hne & Hz). rewrite E. norm_app.
    apply signed_digits_head; auto using digit_nonws.
  - destruct (wf_float_parts neg d fd Hv) as (Hd & Hfd & Hdne & Hfne & Hov). norm_app.
    apply signed_digits_head; auto using digit_nonws.
  - discriminate.
Qed.

(** The round trip of a comma-separated list, over the element's printer [pr] and parser [p].  [okf r]: the element
    parser stops where [r] follows. *)
Lemma many_sep_tail : forall A (pr : A -> bytes) (p : P A) (okf : bytes -> Prop) xs rest fuel,
  (forall x r, In x xs -> okf r -> p (pr x ++ r) = Ok (x, r)) ->
  (forall x r, In x xs -> head_is is_tws (pr x ++ r) = false) ->
  (forall r, okf (44 :: 32 :: r)) -> okf rest -> comma_sep rest = None ->
  (length (flat_map (fun y => 44%N :: 32%N :: pr y) xs ++ rest) < fuel)%nat ->
  many fuel (sepstep p comma_sep) (flat_map (fun y => 44 :: 32 :: pr y) xs ++ rest) = Ok (xs, rest).
Proof.
  intros A pr p okf xs rest fuel Hp Hh Hc Hr Hs Hf.
  destruct (many_seq _ (sepstep p comma_sep) eq (fun ys => flat_map (fun y => 44 :: 32 :: pr y) ys ++ rest) (fun ys => incl ys xs))
    with (xs := xs) (fuel := fuel) (r0 := flat_map (fun y => 44 :: 32 :: pr y) xs ++ rest) as (r' & E & ->); auto using incl_refl.
  - intros r r' ->. reflexivity.
  - intros y ys Hi. assert (Hy : In y xs) by (apply Hi; left; reflexivity). split; [intros z Hz; apply Hi; right; exact Hz|].
    cbn [flat_map]. norm_app. split; [cbn [length]; rewrite !app_length; lia|]. eexists. split; [|reflexivity].
    unfold sepstep. rewrite (comma_sep_hit _ (Hh y _ Hy)). apply Hp; auto. destruct ys; [exact Hr|apply Hc].
  - unfold sepstep. cbn [flat_map app]. rewrite Hs. reflexivity.
Qed.

Lemma sep_print_rt : forall A (pr : A -> bytes) (p : P A) (okf : bytes -> Prop) xs rest,
  (forall x r, In x xs -> okf r -> p (pr x ++ r) = Ok (x, r)) ->
  (forall x r, In x xs -> head_is is_tws (pr x ++ r) = false) ->
  (forall r, okf (44 :: 32 :: r)) -> okf rest -> comma_sep rest = None -> (xs = [] -> p rest = Err) ->
  sep_list p comma_sep (sep_print pr xs ++ rest) = Ok (xs, rest).
Proof.
  intros A pr p okf xs rest Hp Hh Hc Hr Hs He. unfold sep_list, sep_print. destruct xs as [|x xs].
  - cbn [app]. rewrite (He eq_refl). auto.
  - norm_app. rewrite (Hp x); [|left; auto|destruct xs; [exact Hr|apply Hc]].
    fold (sepstep p comma_sep). rewrite (many_sep_tail A pr p okf xs rest); auto.
    + intros y r Hy. apply Hp. right. auto.
    + intros y r Hy. apply Hh. right. auto.
Qed.

Lemma vals_alt_print : forall fx (third : P jval), (forall r, third (41 :: r) = Err) -> forall vs rest, forallb wf_val vs = true ->
  sep_list (alt (lift_map string_lit VStr) (alt (number fx) third)) comma_sep (print_vals vs ++ 41 :: rest) = Ok (vs, 41 :: rest).
Proof.
  intros fx third H3 vs rest Hw. rewrite forallb_forall in Hw.
  apply (sep_print_rt _ print_val _ (fun r => fld_stop r = true)); try reflexivity; [| |intros _; apply H3].
  - intros x r Hx Hr. apply value_alt_print; auto.
  - intros x r Hx. apply print_val_head; auto.
Qed.

Section WithMode.
Variable fx : bool.
Variable sp : bytes -> bytes.
Hypothesis Hsp : speller_ok sp.

Lemma value_print : forall v rest, wf_val v = true -> fld_stop rest = true ->
  value fx (print_val v ++ rest) = Ok (v, rest).
Proof. exact (value_alt_print fx _). Qed.

Lemma vals_print : forall vs rest, forallb wf_val vs = true ->
  sep_list (value fx) comma_sep (print_vals vs ++ 41 :: rest) = Ok (vs, 41 :: rest).
Proof. exact (vals_alt_print fx _ (fun _ => eq_refl)). Qed.

Lemma print_vals_nows : forall vs rest, forallb wf_val vs = true -> head_is is_tws (print_vals vs ++ 41 :: rest) = false.
Proof.
  intros [|v vs] rest Hv; [reflexivity|]. cbn [forallb] in Hv. apply andb_prop in Hv as [Hv _].
  unfold print_vals, sep_print. norm_app. apply print_val_head, Hv.
Qed.

Lemma print_op_step : forall o r, cmp_op (print_op o ++ 32 :: r) = Some (o, 32 :: r).
Proof. intros [] r; reflexivity. Qed.

Lemma print_op_head : forall o r, head_is is_tws (print_op o ++ r) = false.
Proof. intros [] r; reflexivity. Qed.

Lemma after_field_cmp : forall val vals f o v rest, wf_val v = true -> val (print_val v ++ rest) = Ok (v, rest) ->
  after_field val vals f (32 :: print_op o ++ 32 :: print_val v ++ rest) = Ok (ECmp f o v, rest).
Proof.
  intros val vals f o v rest Hv E. apply alt_ok.
  rewrite skip_bind, ws_space, (ws_nows _ (print_op_head o _)), (bind_ok (lift_ok _ _ _ _ (print_op_step o _))).
  rewrite skip_bind, ws_space, (ws_nows _ (print_val_head v _ Hv)). apply bind_ret, E.
Qed.

Lemma after_field_in : forall val vals f vs rest, forallb wf_val vs = true ->
  vals (print_vals vs ++ 41 :: rest) = Ok (vs, 41 :: rest) ->
  after_field val vals f (32 :: sp K_IN ++ 32 :: 40 :: print_vals vs ++ 41 :: rest) = Ok (EIn f vs, rest).
Proof.
  intros val vals f vs rest Hv E. unfold after_field.
  pose proof (sp_alpha_head sp Hsp K_IN (32 :: 40 :: print_vals vs ++ 41 :: rest) eq_refl) as Hin.
  rewrite alt_err by (rewrite skip_bind, ws_space, (ws_nows _ (alpha_not_ws _ Hin)); apply lift_bind_err, cmp_op_alpha, Hin).
  rewrite skip_bind, ws_space, (ws_nows _ (alpha_not_ws _ Hin)), (kw_bind_ok _ _ _ _ _ (ci_spell sp Hsp K_IN (32 :: _) eq_refl eq_refl)).
  rewrite skip_bind, ws_space, (ws_nows (40 :: _) eq_refl), sym_bind_ok, skip_bind, (ws_nows _ (print_vals_nows vs rest Hv)), (bind_ok E).
  rewrite skip_bind, (ws_nows (41 :: rest) eq_refl), sym_bind_ok. reflexivity.
Qed.

Lemma after_field_stop : forall val vals f rest, fstop rest -> after_field val vals f rest = Err.
Proof. intros val vals f rest (_ & Hc & Hi). apply after_field_err; assumption. Qed.

Lemma leaf_cmp : forall f o v rest,
  wf_field f = true -> wf_val v = true -> head_ok rest = true ->
  leaf fx (f ++ 32 :: print_op o ++ 32 :: print_val v ++ rest) = Ok (ECmp f o v, rest).
Proof.
  intros f o v rest Hf Hv Hr. rewrite leaf_field, (field_print f (32 :: _) Hf eq_refl).
  rewrite after_field_cmp; auto using value_print, head_ok_fld_stop.
Qed.

Lemma leaf_in : forall f vs rest,
  wf_field f = true -> forallb wf_val vs = true ->
  leaf fx (f ++ 32 :: sp K_IN ++ 32 :: 40 :: print_vals vs ++ 41 :: rest) = Ok (EIn f vs, rest).
Proof.
  intros f vs rest Hf Hv. rewrite leaf_field, (field_print f (32 :: _) Hf eq_refl). rewrite after_field_in; auto using vals_print.
Qed.

Lemma leaf_atom : forall f rest,
  wf_field f = true -> fstop rest ->
  leaf fx (f ++ rest) = Ok (ECmp f OpEq (VBool true), rest).
Proof.
  intros f rest Hf Hst. rewrite leaf_field, (field_print f _ Hf (head_ok_fld_stop _ (proj1 Hst))).
  rewrite after_field_stop; auto.
Qed.

(** the side condition of [leaf_ok] in ExprRoundTripG.v *)
Lemma leaf_front : forall f rest, wf_field f = true -> fld_stop rest = true ->
  ci K_NOT (f ++ rest) = None /\ lit 40 (f ++ rest) = None.
Proof.
  intros f rest Hf Hr. split; [apply ci_wf_field; auto; cbn; tauto|].
  destruct (wf_field_head f rest Hf) as (c & r & E & Hc). rewrite E. cbn.
  unfold is_ident_start, is_alpha in Hc. replace (c =? 40) with false by lia. auto.
Qed.

Lemma ci_after_kw : forall k K rest, word k = true -> ci_eqb k K = false ->
  head_is is_alpha rest = false -> ci K (ws (32 :: sp k ++ rest)) = None.
Proof.
  intros k K rest Hw Hk Hr. rewrite ws_space, (ws_nows _ (alpha_not_ws _ (sp_alpha_head sp Hsp k rest Hw))).
  apply (ci_spell_other sp Hsp); assumption.
Qed.

Lemma fstop_kw : forall k rest, word k = true -> ci_eqb k K_IN = false ->
  head_is is_alpha rest = false -> fstop (32 :: sp k ++ rest).
Proof.
  intros k rest Hw Hk Hr. repeat split; [|apply ci_after_kw; auto].
  pose proof (sp_alpha_head sp Hsp k rest Hw) as Hh.
  rewrite ws_space, (ws_nows _ (alpha_not_ws _ Hh)). apply cmp_op_alpha, Hh.
Qed.

Lemma ostop_paren : forall rest, ostop (41 :: rest).
Proof. intro rest. repeat split; destruct rest; reflexivity. Qed.
Lemma astop_paren : forall rest, astop (41 :: rest).
Proof. intro rest. exact (proj1 (ostop_paren rest)). Qed.
Lemma fstop_paren : forall rest, fstop (41 :: rest).
Proof. intro rest. exact (proj1 (astop_paren rest)). Qed.
Lemma ostop_nil : ostop [].
Proof. repeat split; reflexivity. Qed.

Lemma astop_kw : forall k rest, word k = true -> ci_eqb k K_IN = false -> ci_eqb k K_AND = false ->
  head_is is_alpha rest = false -> astop (32 :: sp k ++ rest).
Proof. intros k rest Hw H1 H2 Hr. split; [apply fstop_kw|apply ci_after_kw]; auto. Qed.

Lemma wf_field_nows : forall f rest, wf_field f = true -> head_is is_tws (f ++ rest) = false.
Proof.
  intros f rest Hf. destruct (wf_field_head f rest Hf) as (c & r & -> & Hc). cbn [head_is].
  unfold is_ident_start, is_alpha in Hc. unfold is_tws. lia.
Qed.

Lemma wf_cmp : forall f o v lvl, wf_expr (ECmp f o v) = true ->
  wf_field f = true /\
  ((o = OpEq /\ v = VBool true /\ print_expr_at sp lvl (ECmp f o v) = f) \/
   (wf_val v = true /\ print_expr_at sp lvl (ECmp f o v) = f ++ 32 :: print_op o ++ 32 :: print_val v)).
Proof.
  intros f o v lvl H.
  destruct v as [s|z|neg d fd|[|]]; destruct o; cbn [wf_expr print_expr_at] in *;
    try (apply andb_prop in H as [H1 H2]; split; [exact H1|right; split; [exact H2|reflexivity]]);
    try (split; [exact H|left; auto]).
Qed.

End WithMode.
