(** Proofs about Model/BucketTz.v (C16): PER buckets under a fixed UTC offset are the UTC buckets of
    Proofs/BucketProofs.v, shifted by the offset. *)
From Coq Require Import ZArith Lia.
From Snel Require Import Model.Bucket Model.BucketTz Proofs.BucketProofs.
Open Scope Z_scope.

Lemma bucket_off_contains : forall ws off secs g, 0 <= ws <= 6 ->
  calendar_bucket_secs_off ws off secs g <= secs < calendar_next_secs_off ws off secs g.
Proof.
  intros ws off secs g Hws. unfold calendar_bucket_secs_off, calendar_next_secs_off.
  pose proof (bucket_contains ws (secs + off) g Hws). lia.
Qed.

Lemma bucket_off_on_local_boundary : forall ws off secs g, 0 <= ws <= 6 ->
  on_boundary ws g (calendar_bucket_secs_off ws off secs g + off).
Proof.
  intros ws off secs g Hws. unfold calendar_bucket_secs_off.
  replace (calendar_bucket_secs ws (secs + off) g - off + off) with (calendar_bucket_secs ws (secs + off) g) by lia.
  apply bucket_on_boundary; exact Hws.
Qed.

(** hour buckets of a zone whose offset is not a whole number of hours do NOT start on a UTC hour *)
Example half_hour_zone_hour_bucket :
  calendar_bucket_secs_off 0 19800 1700000000 GHour = 1699997400
  /\ 1699997400 mod 3600 = 1800.
Proof. split; vm_compute; reflexivity. Qed.
