(** Model/Sequence.v (C15): every a-row is matched at most once.  A sweep emits at most one pair per a-row, in
    the order of the a-rows, whatever its step function; the matcher's answer is, up to order, the a-rows that
    have a partner ([matcher_perm], [fst_paired]). *)
From Coq Require Import ZArith List Lia Permutation.
From Snel Require Import Model.Sequence Proofs.ListFacts Proofs.SequenceProofs.
Import ListNotations.
Open Scope N_scope.

Inductive subseq {A : Type} : list A -> list A -> Prop :=
| ss_nil : forall l, subseq [] l
| ss_skip : forall x l1 l2, subseq l1 l2 -> subseq l1 (x :: l2)
| ss_take : forall x l1 l2, subseq l1 l2 -> subseq (x :: l1) (x :: l2).

Lemma subseq_In : forall (A : Type) (l1 l2 : list A) x, subseq l1 l2 -> In x l1 -> In x l2.
Proof.
  intros A l1 l2 x H. induction H as [l|y l1 l2 H IH|y l1 l2 H IH]; intros Hx.
  - destruct Hx.
  - right. apply IH. exact Hx.
  - destruct Hx as [Hx|Hx]; [left; exact Hx|right; apply IH; exact Hx].
Qed.

Lemma subseq_NoDup : forall (A : Type) (l1 l2 : list A), subseq l1 l2 -> NoDup l2 -> NoDup l1.
Proof.
  intros A l1 l2 H. induction H as [l|y l1 l2 H IH|y l1 l2 H IH]; intros Hn.
  - constructor.
  - inversion Hn; subst. apply IH. assumption.
  - inversion Hn as [|? ? Hy Hn']; subst. constructor.
    + intros Hin. apply Hy. eapply subseq_In; eassumption.
    + apply IH. exact Hn'.
Qed.

Lemma subseq_length : forall (A : Type) (l1 l2 : list A), subseq l1 l2 -> (length l1 <= length l2)%nat.
Proof.
  intros A l1 l2 H. induction H as [l|y l1 l2 H IH|y l1 l2 H IH]; cbn [length]; lia.
Qed.

Lemma sweep_fst_subseq : forall step w la lb, subseq (map fst (sweep step w la lb)) la.
Proof.
  intros step w la. induction la as [|a la IH]; intros lb; [constructor|].
  cbn [sweep]. rewrite map_app. unfold opt_pair. destruct (fst (step a lb)) as [b|]; [destruct (w a b)|];
    cbn [map fst app]; [apply ss_take|apply ss_skip|apply ss_skip]; apply IH.
Qed.

Lemma followed_by_fst_subseq : forall w la lb, subseq (map fst (followed_by w la lb)) la.
Proof. intros. rewrite followed_by_sweep. apply sweep_fst_subseq. Qed.

Lemma preceded_fixed_fst_subseq : forall w la lb, subseq (map fst (preceded_by_gen true w la lb)) la.
Proof. intros. rewrite preceded_fixed_sweep. apply sweep_fst_subseq. Qed.

Theorem group_matches_follow_a_rows : forall lk w g, subseq (map fst (match_group lk w g)) (g_a g).
Proof. intros. rewrite match_group_sweep. apply sweep_fst_subseq. Qed.

Lemma keys_of_NoDup : forall l acc, NoDup acc -> NoDup (keys_of l acc).
Proof. exact keys_of_distinct. Qed.

Lemma opt_take_map : forall (A B : Type) (f : A -> B) o l, map f (opt_take o l) = opt_take o (map f l).
Proof.
  intros A B f o l. destruct o as [n|]; cbn [opt_take]; [|reflexivity]. symmetry. apply firstn_map.
Qed.

(** [NoDup la]: rows carry their positions *)
Theorem matched_once : forall lk wh ta tb limit la lb,
  NoDup la -> NoDup (map fst (matcher lk wh ta tb limit la lb)).
Proof.
  intros lk wh ta tb limit la lb Hn.
  assert (H : NoDup (map fst (matcher lk wh ta tb None la lb))).
  { rewrite matcher_perm, fst_paired. apply NoDup_filter, Hn. }
  rewrite matcher_limit, opt_take_map. destruct limit as [n|]; [apply firstn_NoDup|]; exact H.
Qed.

Theorem matched_count_le_a_rows : forall lk wh ta tb limit la lb,
  NoDup la -> (length (matcher lk wh ta tb limit la lb) <= length la)%nat.
Proof.
  intros lk wh ta tb limit la lb Hn.
  assert (E : length (map fst (matcher lk wh ta tb limit la lb)) = length (matcher lk wh ta tb limit la lb)) by apply map_length.
  rewrite <- E. clear E.
  apply NoDup_incl_length; [apply matched_once; exact Hn|].
  intros a Ha. apply in_map_iff in Ha. destruct Ha as [[a' b] [E Hin]]. cbn [fst] in E. subst a'.
  apply pairs_sound in Hin. destruct Hin as [Hin _]. exact Hin.
Qed.

Example matched_once_nonvacuous :
  let a1 := ev 0 7 1 f_x 0 in let a2 := ev 1 7 2 f_x 0 in let a3 := ev 2 8 2 f_x 0 in
  let b1 := ev 3 7 3 f_y 0 in let b2 := ev 4 8 1 f_y 0 in let b3 := ev 5 7 4 f_y 0 in
  NoDup [a1; a2; a3] /\
  map fst (matcher FollowedBy None t_pa t_pb None [a1; a2; a3] [b1; b2; b3]) = [a1; a2].
Proof.
  cbv zeta. split; [|vm_compute; reflexivity].
  repeat constructor; cbn [In]; intros H; repeat (destruct H as [H|H]; [discriminate H|]); exact H.
Qed.
