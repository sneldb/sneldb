(** Proofs about Model/Shard.v for C03: reads see every applied write exactly
    once at every stage of its flush (histories without crash / restart).

    Everything of a crash-free state but the WAL is a function of a summary ([abs], [shape],
    [reach_run]): the segments allocated so far, with their flush jobs and what is written of each,
    and the memtable.  The segments are listed in allocation order and their ids are their
    positions, hence sorted, distinct and below the allocator by construction; a step changes the
    entry at the head of the flush queue.  C03, C04 and C05 read a state off its shape through the
    lemmas [v_...].  [events_stored] is for all histories, crashes included.

    The file begins with the facts about the rows of a directory list that all shard proof files share. *)
From Coq Require Import NArith List Bool Lia Permutation Sorted.
From Snel Require Import Model.Shard.
From Snel Require Model.Compaction.
From Snel Require Export Proofs.ShardBase.
Import ListNotations.
Open Scope N_scope.

(** used for the passive copies and for the log files *)
Definition prows (ps : list (N * list event)) : list event := concat (map snd ps).
Definition all_rows (ds : list segdir) : list event := concat (map srows ds).

(** a second name for the model's [Compaction.rows_of], over which every lemma is stated *)
Definition rows_of (ds : list segdir) (seg : N) : list event :=
  concat (map srows (filter (fun d => sid d =? seg) ds)).

Lemma rows_of_model ds seg : rows_of ds seg = Compaction.rows_of ds seg.
Proof. reflexivity. Qed.

Lemma prows_snoc ps a l : prows (ps ++ [(a, l)]) = prows ps ++ l.
Proof. unfold prows. rewrite map_app, concat_app. cbn [map concat snd]. rewrite app_nil_r. reflexivity. Qed.

Lemma clear_passive_sub ps seg e : In e (prows (clear_passive ps seg)) -> In e (prows ps).
Proof.
  unfold prows, clear_passive. induction ps as [|p r IH]; cbn [map concat]; [auto|].
  rewrite !in_app_iff. intros [H|H]; [|right; auto].
  destruct (fst p =? seg); cbn [snd] in H; [destruct H | left; exact H].
Qed.

Lemma in_rows_of_iff ds seg e :
  In e (Compaction.rows_of ds seg) <-> exists d, In d ds /\ sid d = seg /\ In e (srows d).
Proof.
  unfold Compaction.rows_of. rewrite in_concat_map. split; intros (d & Hd & He); exists d.
  - apply filter_In in Hd as [Hd Hs]. apply N.eqb_eq in Hs. auto.
  - rewrite filter_In, N.eqb_eq. tauto.
Qed.

Lemma rows_of_sub_all ds seg e : In e (Compaction.rows_of ds seg) -> In e (all_rows ds).
Proof. apply in_concat_filter. Qed.

Lemma rows_of_app ds ds' i :
  Compaction.rows_of (ds ++ ds') i = Compaction.rows_of ds i ++ Compaction.rows_of ds' i.
Proof. unfold Compaction.rows_of. rewrite filter_app, map_app, concat_app. reflexivity. Qed.

Lemma rows_of_single i j r : Compaction.rows_of [mkSeg j r] i = if j =? i then r else [].
Proof.
  unfold Compaction.rows_of. cbn [filter sid]. destruct (j =? i); cbn [map concat srows]; [apply app_nil_r | reflexivity].
Qed.

Lemma rows_of_cons d ds i :
  Compaction.rows_of (d :: ds) i = (if sid d =? i then srows d else []) ++ Compaction.rows_of ds i.
Proof. unfold Compaction.rows_of. cbn [filter]. destruct (sid d =? i); reflexivity. Qed.

Lemma rows_of_no_dir ds i : (forall d, In d ds -> sid d <> i) -> Compaction.rows_of ds i = [].
Proof.
  intros H. unfold Compaction.rows_of. rewrite filter_none; [reflexivity|].
  intros d Hd. apply N.eqb_neq, H, Hd.
Qed.

Lemma rows_of_filter ds p i :
  (forall d, In d ds -> sid d = i -> p d = true) -> Compaction.rows_of (filter p ds) i = Compaction.rows_of ds i.
Proof.
  intros H. unfold Compaction.rows_of. rewrite filter_filter. f_equal. f_equal. apply filter_ext_in.
  intros d Hd. destruct (N.eqb_spec (sid d) i) as [E|E]; [|destruct (p d); reflexivity].
  rewrite (H d Hd E). reflexivity.
Qed.

Lemma rows_of_add ds seg r seg' e :
  In e (Compaction.rows_of (dir_add_rows ds seg r) seg') <-> In e (Compaction.rows_of ds seg') \/ (seg' = seg /\ In e r).
Proof.
  unfold Compaction.rows_of. induction ds as [|d ds IH]; cbn [dir_add_rows].
  - cbn [filter sid map concat]. destruct (N.eqb_spec seg seg') as [->|Hne]; cbn [map concat srows In].
    + rewrite app_nil_r. intuition.
    + intuition congruence.
  - destruct (N.eqb_spec (sid d) seg) as [Hd|Hd]; cbn [filter sid].
    + clear IH. rewrite Hd. destruct (N.eqb_spec seg seg') as [->|Hne]; cbn [map concat srows].
      * rewrite !in_app_iff. intuition.
      * intuition congruence.
    + destruct (sid d =? seg'); cbn [map concat]; [rewrite !in_app_iff|]; rewrite IH; intuition.
Qed.

Lemma rows_of_add_eq ds seg r i :
  NoDup (map sid ds) ->
  Compaction.rows_of (dir_add_rows ds seg r) i =
  if seg =? i then Compaction.rows_of ds i ++ r else Compaction.rows_of ds i.
Proof.
  induction ds as [|d ds IH]; intros Hn; cbn [dir_add_rows].
  - rewrite rows_of_single. reflexivity.
  - cbn [map] in Hn. apply NoDup_cons_iff in Hn as [Hd Hn].
    destruct (N.eqb_spec (sid d) seg) as [E|E]; rewrite !rows_of_cons; cbn [sid srows].
    + (* [d] is the directory named [seg], and no other is *)
      rewrite <- E. destruct (N.eqb_spec (sid d) i) as [Ei|_]; [|reflexivity].
      rewrite <- Ei, (rows_of_no_dir ds (sid d)), !app_nil_r; [reflexivity|].
      intros d0 H0 E0. apply Hd. rewrite <- E0. apply in_map, H0.
    + rewrite (IH Hn). destruct (seg =? i); [rewrite app_assoc|]; reflexivity.
Qed.

Lemma all_rows_add ds seg r : Permutation (all_rows (dir_add_rows ds seg r)) (all_rows ds ++ r).
Proof.
  unfold all_rows. induction ds as [|d ds IH]; cbn [dir_add_rows map concat srows app].
  - rewrite app_nil_r. reflexivity.
  - destruct (sid d =? seg); cbn [map concat srows].
    + rewrite <- !app_assoc. apply Permutation_app_head, Permutation_app_comm.
    + rewrite IH, app_assoc. reflexivity.
Qed.

Lemma all_rows_add_in ds seg r e : In e (all_rows (dir_add_rows ds seg r)) <-> In e (all_rows ds) \/ In e r.
Proof.
  rewrite <- in_app_iff. split; apply Permutation_in; [|symmetry]; apply all_rows_add.
Qed.

Lemma add_sid ds seg r d : In d (dir_add_rows ds seg r) -> sid d = seg \/ In d ds.
Proof.
  induction ds as [|x ds IH]; cbn [dir_add_rows].
  - intros [<-|[]]. left. reflexivity.
  - destruct (sid x =? seg).
    + intros [<-|H]; [left; reflexivity | right; right; exact H].
    + intros [<-|H]; [right; left; reflexivity|]. apply IH in H as [H|H]; [left | right; right]; exact H.
Qed.

Lemma dir_add_rows_app D X seg r :
  (forall d, In d D -> sid d <> seg) -> dir_add_rows (D ++ X) seg r = D ++ dir_add_rows X seg r.
Proof.
  induction D as [|d D IH]; intros H; cbn [app dir_add_rows]; [reflexivity|].
  destruct (N.eqb_spec (sid d) seg) as [E|_]; [destruct (H d (or_introl eq_refl) E)|].
  rewrite IH; [reflexivity | intros d0 H0; apply H; right; exact H0].
Qed.

Lemma dir_has_uid_spec s seg u :
  dir_has_uid s seg u = true <-> exists e, In e (Compaction.rows_of (dirs s) seg) /\ euid e = u.
Proof.
  unfold dir_has_uid. rewrite existsb_exists. split.
  - intros (d & Hd & H). apply andb_true_iff in H as [Hs H]. apply existsb_exists in H as (e & He & Hu).
    apply N.eqb_eq in Hs, Hu. exists e. split; [apply in_rows_of_iff; eauto | exact Hu].
  - intros (e & He & Hu). apply in_rows_of_iff in He as (d & Hd & Hs & He). exists d. split; [exact Hd|].
    apply andb_true_iff. split; [apply N.eqb_eq, Hs|]. apply existsb_exists. exists e. split; [exact He | apply N.eqb_eq, Hu].
Qed.

Lemma in_sids ds i : In i (map sid ds) <-> exists d, In d ds /\ sid d = i.
Proof. rewrite in_map_iff. split; intros (d & A & B); exists d; auto. Qed.

Lemma add_rows_sids ds seg r :
  map sid (dir_add_rows ds seg r) = if memb seg (map sid ds) then map sid ds else map sid ds ++ [seg].
Proof.
  induction ds as [|d ds IH]; cbn [dir_add_rows map sid app]; [reflexivity|]. rewrite memb_cons, (N.eqb_sym seg).
  destruct (sid d =? seg) eqn:E; cbn [orb map sid]; [apply N.eqb_eq in E; rewrite E; reflexivity|].
  rewrite IH. destruct (memb seg (map sid ds)); reflexivity.
Qed.

Lemma add_rows_sids_iff ds seg r i : In i (map sid (dir_add_rows ds seg r)) <-> In i (map sid ds) \/ i = seg.
Proof.
  rewrite add_rows_sids. destruct (memb seg (map sid ds)) eqn:E; [apply memb_true in E | rewrite in_app_iff; cbn [In]];
    intuition congruence.
Qed.

(** the guard of FwIndex implies that the job's directory exists: it holds the type of the first event *)
Lemma index_guard_dir s j :
  jevs j <> [] -> forallb (dir_has_uid s (jseg j)) (uids_of (jevs j)) = true ->
  exists d, In d (dirs s) /\ sid d = jseg j.
Proof.
  intros Hne Hall. destruct (jevs j) as [|e0 r] eqn:Hev; [contradiction|]. rewrite forallb_forall in Hall.
  assert (Hu : In (euid e0) (uids_of (e0 :: r))) by (apply memb_true, uids_of_in; left; reflexivity).
  apply Hall, dir_has_uid_spec in Hu as (e & He & _). apply in_rows_of_iff in He as (d & Hd & Hs & _). eauto.
Qed.

Lemma in_seg_rows s e :
  In e (seg_rows s) <->
  exists d, In d (dirs s) /\ (In (sid d) (live s) \/ In (sid d) (inflight s)) /\ In e (srows d).
Proof.
  unfold seg_rows, scanned_dirs. rewrite in_concat_map. split; intros (d & Hd & He); exists d.
  - apply filter_In in Hd as [Hd Hs]. apply orb_true_iff in Hs. rewrite !memb_true in Hs. auto.
  - rewrite filter_In, orb_true_iff, !memb_true. tauto.
Qed.

Lemma seg_rows_sub_all s e : In e (seg_rows s) -> In e (all_rows (dirs s)).
Proof. apply in_concat_filter. Qed.

Lemma seg_rows_all s :
  (forall d, In d (dirs s) -> memb (sid d) (live s) || memb (sid d) (inflight s) = false -> srows d = []) ->
  seg_rows s = all_rows (dirs s).
Proof. unfold seg_rows, scanned_dirs, all_rows. apply concat_filter_nil. Qed.

Lemma in_scan s u e : In e (scan s u) <-> In e (mem_rows s ++ seg_rows s) /\ euid e = u.
Proof. apply of_uid_in. Qed.

Lemma scan_app s u : scan s u = of_uid u (mem_rows s) ++ of_uid u (seg_rows s).
Proof. apply of_uid_app. Qed.

Lemma dedup_ev_sound l : forall seen,
  NoDup (map ek (dedup_ev l seen)) /\
  forall e, In e (dedup_ev l seen) -> memb (ek e) seen = false /\ In e l.
Proof.
  induction l as [|x r IH]; intros seen; cbn [dedup_ev].
  - split; [constructor | intros e []].
  - destruct (memb (ek x) seen) eqn:Hm.
    + destruct (IH seen) as [H1 H2]. split; [exact H1|]. intros e He. apply H2 in He as [Ha Hb]. split; [exact Ha | right; exact Hb].
    + destruct (IH (ek x :: seen)) as [H1 H2]. split.
      * cbn [map]. constructor; [|exact H1]. intros Hin. apply in_map_iff in Hin as (y & Hy & Hyr).
        apply H2 in Hyr as [Hf _]. rewrite memb_cons, Hy, N.eqb_refl in Hf. discriminate.
      * intros e [->|He]; [split; [exact Hm | left; reflexivity]|].
        apply H2 in He as [Hf Hr]. rewrite memb_cons in Hf. apply orb_false_iff in Hf as [_ Hf].
        split; [exact Hf | right; exact Hr].
Qed.

Definition KeyInj (l : list event) : Prop := forall a b, In a l -> In b l -> ek a = ek b -> a = b.

Lemma KeyInj_incl l l' : (forall e, In e l -> In e l') -> KeyInj l' -> KeyInj l.
Proof. intros Hs K a b Ha Hb. apply K; apply Hs; assumption. Qed.

Lemma KeyInj_nodup l : NoDup (map ek l) -> KeyInj l.
Proof. exact (nodup_map_inj_on ek l). Qed.

Lemma dedup_in l : forall seen e,
  KeyInj l -> In e l -> memb (ek e) seen = false -> In e (dedup_ev l seen).
Proof.
  induction l as [|x r IH]; intros seen e Hinj He Hm; [destruct He|]. cbn [dedup_ev].
  assert (Hinj' : KeyInj r) by (eapply KeyInj_incl; [|exact Hinj]; intros a Ha; right; exact Ha).
  destruct (memb (ek x) seen) eqn:Hx.
  - destruct He as [->|He]; [congruence|]. apply IH; assumption.
  - destruct He as [->|He]; [left; reflexivity|].
    destruct (N.eqb_spec (ek e) (ek x)) as [Hk|Hk].
    + left. apply Hinj; [left; reflexivity | right; exact He | auto].
    + right. apply IH; try assumption. rewrite memb_cons, Hm.
      destruct (N.eqb_spec (ek e) (ek x)); [contradiction | reflexivity].
Qed.

Lemma dedup_id l : forall seen,
  NoDup (map ek l) -> (forall e, In e l -> memb (ek e) seen = false) -> dedup_ev l seen = l.
Proof.
  induction l as [|x r IH]; intros seen Hn Hs; cbn [dedup_ev]; [reflexivity|].
  cbn [map] in Hn. apply NoDup_cons_iff in Hn as [Hx Hn].
  rewrite (Hs x) by (left; reflexivity). f_equal. apply IH; [exact Hn|].
  intros e He. rewrite memb_cons, (Hs e) by (right; exact He).
  destruct (N.eqb_spec (ek e) (ek x)) as [Hk|Hk]; [|reflexivity].
  exfalso. apply Hx. rewrite <- Hk. apply in_map. exact He.
Qed.

Lemma dedup_mem l e : KeyInj l -> In e (dedup_ev l []) <-> In e l.
Proof.
  intros K. split; intros He; [apply dedup_ev_sound in He; tauto | apply dedup_in; [exact K | exact He | reflexivity]].
Qed.

Lemma select_keys_nodup s u : NoDup (map ek (select s u)).
Proof. apply dedup_ev_sound. Qed.

Lemma select_scan s u e : In e (select s u) -> In e (scan s u).
Proof. intros H. apply dedup_ev_sound in H. tauto. Qed.

Lemma in_select s u e : KeyInj (scan s u) -> In e (select s u) <-> In e (scan s u).
Proof. apply dedup_mem. Qed.

Lemma dedup_perm l t : (forall e, In e l <-> In e t) -> NoDup (map ek t) -> Permutation (dedup_ev l []) t.
Proof.
  intros Hlt Hk. apply NoDup_Permutation.
  - apply (NoDup_map_inv ek), dedup_ev_sound.
  - apply (NoDup_map_inv ek), Hk.
  - intros e. rewrite <- Hlt. apply dedup_mem. eapply KeyInj_incl; [|apply KeyInj_nodup, Hk]. intros x. apply Hlt.
Qed.

(** the stages at which the passive copy exists, the index entry is written, the segment is published *)
Definition has_passive (st : stage) : bool :=
  match st with StQueued | StBegun | StIndexed | StPublished => true | _ => false end.
Definition written (st : stage) : bool :=
  match st with StQueued | StBegun => false | _ => true end.
Definition published (st : stage) : bool :=
  match st with StPublished | StCleared | StWalCleaned => true | _ => false end.

Definition is_crash (l : label) : bool := match l with LCrash | LRestart => true | _ => false end.
Definition no_crash (ls : list label) : Prop := forallb (fun l => negb (is_crash l)) ls = true.

Fixpoint applied (ls : list label) : list event :=
  match ls with
  | [] => []
  | LStore e :: r => e :: applied r
  | _ :: r => applied r
  end.

Lemma applied_app a b : applied (a ++ b) = applied a ++ applied b.
Proof.
  induction a as [|l a IH]; cbn [app applied]; [reflexivity|].
  destruct l; rewrite IH; reflexivity.
Qed.

(** * Every event anywhere in the state was stored (all histories, crashes included) *)

Lemma wal_touch_rows files id : prows (wal_touch files id) = prows files.
Proof.
  unfold prows. induction files as [|[i es] r IH]; cbn [wal_touch]; [reflexivity|].
  destruct (i =? id); [|destruct (id <? i)]; cbn [map concat snd app]; rewrite ?IH; reflexivity.
Qed.

Lemma wal_append_perm files id e : Permutation (prows (wal_append files id e)) (e :: prows files).
Proof.
  unfold prows. induction files as [|[i es] r IH]; cbn [wal_append]; [reflexivity|].
  destruct (i =? id); [|destruct (id <? i)]; cbn [map concat snd app]; [|reflexivity|].
  - rewrite <- app_assoc. symmetry. apply Permutation_middle.
  - rewrite IH. symmetry. apply Permutation_middle.
Qed.

Lemma wal_append_rows x files id e : In x (prows (wal_append files id e)) <-> In x (prows files) \/ x = e.
Proof.
  split; intros H.
  - apply (Permutation_in x (wal_append_perm files id e)) in H as [<-|H]; auto.
  - apply (Permutation_in x (Permutation_sym (wal_append_perm files id e))). destruct H as [H| ->]; [right; exact H | left; reflexivity].
Qed.

Lemma fw_passives s l e : In e (prows (passives (fw_step s l))) -> In e (prows (passives s)).
Proof.
  destruct (fw_step_cases s l) as [->|(j & rest & _ & C)]; [tauto|].
  destruct C; proj; try tauto. destruct (is_empty (jevs j)); [tauto|apply clear_passive_sub].
Qed.

Definition jrows (js : list job) : list event := concat (map jevs js).

Lemma jrows_snoc js j : jrows (js ++ [j]) = jrows js ++ jevs j.
Proof. unfold jrows. rewrite map_app, concat_app. cbn [map concat]. rewrite app_nil_r. reflexivity. Qed.

Lemma fw_jobs s l e : In e (jrows (jobs (fw_step s l))) -> In e (jrows (jobs s)).
Proof.
  destruct (fw_queue s l) as [->|(j & rest & -> & [->|(st & ->)])]; unfold jrows; cbn [map concat jevs]; rewrite ?in_app_iff; tauto.
Qed.

Definition all_events (s : shard) : list event :=
  mem s ++ prows (passives s) ++ jrows (jobs s) ++ walq s ++ prows (walfiles s) ++ all_rows (dirs s) ++ wlost s.

Lemma all_events_In s e : In e (all_events s) <->
  In e (mem s) \/ In e (prows (passives s)) \/ In e (jrows (jobs s)) \/ In e (walq s) \/
  In e (prows (walfiles s)) \/ In e (all_rows (dirs s)) \/ In e (wlost s).
Proof. unfold all_events; rewrite !in_app_iff; tauto. Qed.

Lemma step_all_events s l e : In e (all_events (step s l)) -> In e (all_events s) \/ In e (applied [l]).
Proof.
  rewrite !all_events_In. destruct l as [e0| | | |f| |]; cbn [step applied In].
  - destruct (store_cases s e0) as [[_ ->]|[_ ->]]; proj; rewrite ?prows_snoc, ?jrows_snoc; cbn [jevs];
      rewrite ?in_app_iff; cbn [In]; tauto.
  - proj. rewrite prows_snoc, jrows_snoc, !in_app_iff. tauto.
  - destruct (wal_write_cases s) as [[_ ->]|(e1 & q & -> & ->)]; [tauto|].
    proj. destruct (wunlinked s); rewrite ?in_app_iff, ?wal_append_rows; cbn [In]; intuition.
  - destruct (wal_rotate_cases s) as [[_ ->]|[_ ->]]; proj; rewrite ?wal_touch_rows; tauto.
  - destruct (fw_frame s f) as (_ & -> & -> & _). intros H.
    destruct H as [H|[H|[H|[H|[H|[H|H]]]]]]; [tauto|apply fw_passives in H; tauto|apply fw_jobs in H; tauto|tauto| | |].
    + destruct (fw_files s f) as [[E _]|[p [E _]]]; rewrite E in H; [tauto|]. apply in_concat_filter in H; tauto.
    + destruct (fw_dirs s f) as [E|[j [rest [rows [Ej [_ [Hincl E]]]]]]]; rewrite E in H; [tauto|].
      apply all_rows_add_in in H. destruct H as [H|H]; [tauto|]. left; right; right; left.
      rewrite Ej; unfold jrows; cbn [map concat]. apply in_app_iff; left. apply Hincl, H.
    + destruct (fw_files s f) as [[_ E]|[p [_ [E _]]]]; rewrite E in H; [tauto|].
      apply in_app_iff in H. destruct H as [H|H]; [tauto|]. apply filter_In in H as [H _].
      apply in_concat_filter in H. tauto.
  - proj. cbn [prows jrows map concat In]. tauto.
  - proj. rewrite wal_touch_rows. cbn [prows jrows map concat In]. tauto.
Qed.

Lemma events_stored c ls e : In e (all_events (run (init c) ls)) -> In e (applied ls).
Proof.
  revert e. induction ls as [|l ls IH] using rev_ind; intros e H; [destruct H|].
  rewrite run_snoc in H. rewrite applied_app, in_app_iff.
  destruct (step_all_events _ _ _ H) as [H1|H1]; [left; apply IH, H1|right; exact H1].
Qed.

(** * The shape of a crash-free state *)

Definition iota (n : nat) : list N := map N.of_nat (seq 0 n).

Lemma iota_S n : iota (S n) = iota n ++ [N.of_nat n].
Proof. unfold iota. rewrite seq_S, map_app. reflexivity. Qed.

Lemma iota_sorted n : StronglySorted N.lt (iota n).
Proof.
  induction n as [|n IH]; [constructor|]. rewrite iota_S. apply sorted_app; [exact IH | repeat constructor|].
  intros x y Hx [<-|[]]. apply in_map_of_nat_seq, Hx.
Qed.

(** the rows of a directory: the types [W] written so far, each as the flusher orders it *)
Definition typed_rows (E : list event) (W : list N) : list event :=
  concat (map (fun u => of_uid u (flush_order E)) W).

Lemma typed_rows_snoc E W u : typed_rows E (W ++ [u]) = typed_rows E W ++ of_uid u (flush_order E).
Proof. unfold typed_rows. rewrite map_app, concat_app. cbn [map concat]. rewrite app_nil_r. reflexivity. Qed.

Lemma in_typed_rows E W e : In e (typed_rows E W) <-> In e E /\ In (euid e) W.
Proof.
  unfold typed_rows. rewrite in_concat_map. split.
  - intros (u & Hu & He). apply of_uid_in in He as [He <-]. split; [apply flush_order_in, He | exact Hu].
  - intros [He Hu]. exists (euid e). split; [exact Hu|]. apply of_uid_in. split; [apply flush_order_in, He | reflexivity].
Qed.

Lemma typed_rows_nil W : typed_rows [] W = [].
Proof.
  destruct (typed_rows [] W) as [|e r] eqn:E; [reflexivity|].
  assert (H : In e (typed_rows [] W)) by (rewrite E; left; reflexivity). apply in_typed_rows in H as [[] _].
Qed.

Lemma typed_rows_nodup E W : NoDup E -> NoDup W -> NoDup (typed_rows E W).
Proof.
  intros HE HW. induction HW as [|u W Hu HW IH]; [constructor|]. unfold typed_rows. cbn [map concat]. apply nodup_app.
  split; [apply NoDup_filter; eapply Permutation_NoDup; [symmetry; apply flush_order_perm | exact HE]|].
  split; [exact IH|]. intros e H1 H2. apply of_uid_in in H1 as [_ <-]. apply in_typed_rows in H2 as [_ H2]. auto.
Qed.

(** A segment: its flush job (id, the memtable rotated into it, stage) and the types written to
    its directory so far, in the order they were written; [None]: the directory does not exist. *)
Record aseg := mkA { a_job : job; a_ws : option (list N) }.
Definition gid (g : aseg) : N := jseg (a_job g).
Definition gevs (g : aseg) : list event := jevs (a_job g).
Definition gst (g : aseg) : stage := jstage (a_job g).
Definition wlist (ws : option (list N)) : list N := match ws with Some W => W | None => [] end.

Definition begun (st : stage) : bool := match st with StQueued => false | _ => true end.
Definition jpas (j : job) : list event := if has_passive (jstage j) then jevs j else [].
Definition when {X} (b : bool) (x : X) : list X := if b then [x] else [].

(** what a segment contributes to the passive copies, the in-flight markers, the live list, the
    directories and the index *)
Definition g_pas (g : aseg) : N * list event := (gid g, jpas (a_job g)).
Definition g_infl (g : aseg) : list N := when (begun (gst g)) (gid g).
Definition g_live (g : aseg) : list N := when (published (gst g)) (gid g).
Definition grows (g : aseg) : list event := typed_rows (gevs g) (wlist (a_ws g)).
Definition gdir (g : aseg) : list segdir := match a_ws g with None => [] | Some _ => [mkSeg (gid g) (grows g)] end.
Definition g_idx (g : aseg) : list (N * list N) := when (written (gst g)) (gid g, uids_of (gevs g)).

(** every segment allocated so far, in allocation order: those whose job has left the queue, then
    the queue; and the memtable *)
Record abs := mkAbs { a_done : list aseg; a_queue : list aseg; a_mem : list event }.
Definition segs (a : abs) : list aseg := a_done a ++ a_queue a.

(** [core s], field by field *)
Record core_is (s : shard) m ps infl lv ds ix js al : Prop := {
  co_mem : mem s = m; co_pas : passives s = ps; co_infl : inflight s = infl; co_live : live s = lv;
  co_dirs : dirs s = ds; co_idx : index s = ix; co_jobs : jobs s = js; co_alloc : alloc0 s = al }.

Lemma core_is_core s s' m ps infl lv ds ix js al :
  core s' = core s -> core_is s m ps infl lv ds ix js al -> core_is s' m ps infl lv ds ix js al.
Proof. unfold core. intros [= E1 E2 E3 E4 E5 E6 E7 E8] []. split; congruence. Qed.

Definition shape (a : abs) (s : shard) : Prop :=
  core_is s (a_mem a) (map g_pas (segs a)) (flat_map g_infl (a_queue a)) (flat_map g_live (segs a))
          (flat_map gdir (segs a)) (flat_map g_idx (segs a)) (map a_job (a_queue a)) (len (segs a)).

Definition a_events (a : abs) : list event := concat (map gevs (segs a)) ++ a_mem a.

Record seg_ok (g : aseg) : Prop := {
  k_q : gst g = StQueued -> a_ws g = None;
  k_w : NoDup (wlist (a_ws g));
  (* the index entry is written once every type of a non-empty memtable is in the directory *)
  k_c : written (gst g) = true ->
        gevs g <> [] /\ a_ws g <> None /\ forall u, In u (uids_of (gevs g)) -> In u (wlist (a_ws g)) }.

(** a job leaves the queue after its last stage, or right after [StBegun] when its memtable was empty *)
Definition finished (g : aseg) : Prop := gst g = StWalCleaned \/ (gst g = StBegun /\ gevs g = []).
Definition waiting (g : aseg) : Prop := gst g = StQueued /\ a_ws g = None.

Record WFa (a : abs) : Prop := {
  wf_ids : map gid (segs a) = iota (length (segs a));
  wf_ok : Forall seg_ok (segs a);
  wf_done : Forall finished (a_done a);
  wf_tl : Forall waiting (tl (a_queue a)) }.

(** [A]: the events applied so far *)
Definition Reach (A : list event) (s : shard) : Prop := exists a, WFa a /\ shape a s /\ A = a_events a.

Lemma seg_ok_in a g : WFa a -> In g (segs a) -> seg_ok g.
Proof. intros W. apply Forall_forall, (wf_ok _ W). Qed.

Lemma waiting_nil post : Forall waiting post ->
  flat_map g_infl post = [] /\ flat_map g_live post = [] /\ flat_map gdir post = [] /\ flat_map g_idx post = [].
Proof.
  intros H. repeat split; apply flat_map_nil_on; intros g Hg; rewrite Forall_forall in H; destruct (H g Hg) as [Hq Hw];
    unfold g_infl, g_live, gdir, g_idx; rewrite ?Hq, ?Hw; reflexivity.
Qed.

(** the state with [g] at the head of the queue, the finished segments [done] before it and waiting ones behind *)
Definition head_is (s : shard) done g post m : Prop :=
  core_is s m (map g_pas done ++ g_pas g :: map g_pas post) (g_infl g) (flat_map g_live done ++ g_live g)
          (flat_map gdir done ++ gdir g) (flat_map g_idx done ++ g_idx g) (a_job g :: map a_job post)
          (len done + (len post + 1)).

Lemma shape_head done g post m s : Forall waiting post ->
  shape (mkAbs done (g :: post) m) s <-> head_is s done g post m.
Proof.
  intros Hq. destruct (waiting_nil post Hq) as (E1 & E2 & E3 & E4).
  unfold shape, head_is, segs. cbn [a_done a_queue a_mem]. rewrite !flat_map_app, map_app. cbn [flat_map map].
  rewrite E1, E2, E3, E4, !app_nil_r, len_app, len_cons. reflexivity.
Qed.

Lemma ids_head done g post n : map gid (done ++ g :: post) = iota n ->
  (forall g0, In g0 done -> gid g0 < gid g) /\ (forall g0, In g0 post -> gid g < gid g0).
Proof.
  intros E. pose proof (iota_sorted n) as Hs. rewrite <- E, map_app in Hs. cbn [map] in Hs. split; intros g0 H0.
  - eapply sorted_app_inv; [exact Hs | apply in_map, H0 | left; reflexivity].
  - change (map gid done ++ gid g :: map gid post) with (map gid done ++ [gid g] ++ map gid post) in Hs.
    rewrite app_assoc in Hs. eapply sorted_app_inv; [exact Hs | apply in_app_iff; right; left; reflexivity | apply in_map, H0].
Qed.

Lemma in_gdirs l d : In d (flat_map gdir l) <-> exists g, In g l /\ a_ws g <> None /\ d = mkSeg (gid g) (grows g).
Proof.
  rewrite in_flat_map. unfold gdir. split; intros (g & Hg & H); exists g; (split; [exact Hg|]); destruct (a_ws g).
  - destruct H as [<-|[]]. split; [discriminate | reflexivity].
  - destruct H.
  - left. symmetry. apply H.
  - destruct H as [H _]. contradiction.
Qed.

(** the guards of FwWrite and FwIndex read the directory of the head job: it holds the types written so far *)
Lemma head_has_uid s done g u :
  dirs s = flat_map gdir done ++ gdir g -> (forall g0, In g0 done -> gid g0 < gid g) ->
  dir_has_uid s (gid g) u = true <-> In u (wlist (a_ws g)) /\ In u (uids_of (gevs g)).
Proof.
  intros Ed Hlt. rewrite dir_has_uid_spec, uids_of_iff. split.
  - intros (e & He & Hu). apply in_rows_of_iff in He as (d & Hd & Hs & He). rewrite Ed in Hd. apply in_app_iff in Hd as [Hd|Hd].
    + apply in_gdirs in Hd as (g0 & H0 & _ & ->). apply Hlt in H0. cbn [sid] in Hs. lia.
    + unfold gdir in Hd. destruct (a_ws g) as [W|] eqn:EW; [|destruct Hd]. destruct Hd as [<-|[]].
      cbn [srows] in He. apply in_typed_rows in He as [He HW]. rewrite EW, Hu in HW. eauto.
  - intros (HW & e & He & Hu). exists e. split; [|exact Hu]. apply in_rows_of_iff.
    exists (mkSeg (gid g) (grows g)). rewrite Ed, in_app_iff. split; [right|].
    + unfold gdir. destruct (a_ws g); [left; reflexivity | destruct HW].
    + split; [reflexivity|]. apply in_typed_rows. rewrite Hu. auto.
Qed.

Lemma add_gdir g r : dir_add_rows (gdir g) (gid g) r = [mkSeg (gid g) (grows g ++ r)].
Proof. unfold gdir, grows. destruct (a_ws g); cbn [dir_add_rows sid srows wlist]; rewrite ?N.eqb_refl; reflexivity. Qed.

Lemma clear_head (done post : list aseg) i E :
  (forall g0, In g0 (done ++ post) -> gid g0 <> i) ->
  clear_passive (map g_pas done ++ (i, E) :: map g_pas post) i = map g_pas done ++ (i, []) :: map g_pas post.
Proof.
  intros H.
  assert (K : forall l, (forall g0, In g0 l -> gid g0 <> i) -> clear_passive (map g_pas l) i = map g_pas l).
  { intros l Hl. unfold clear_passive. rewrite map_map. apply map_ext_in. intros g0 H0. cbn [g_pas fst].
    destruct (N.eqb_spec (gid g0) i) as [E0|_]; [destruct (Hl g0 H0 E0) | reflexivity]. }
  unfold clear_passive at 1. rewrite map_app. cbn [map fst]. rewrite N.eqb_refl.
  change (clear_passive (map g_pas done) i ++ (i, []) :: clear_passive (map g_pas post) i = map g_pas done ++ (i, []) :: map g_pas post).
  rewrite !K; [reflexivity | |]; intros g0 H0; apply H, in_app_iff; auto.
Qed.

(** the head of the queue is replaced by [g'] *)
Lemma reach_head s' done g g' post m :
  WFa (mkAbs done (g :: post) m) -> gid g' = gid g -> gevs g' = gevs g -> seg_ok g' ->
  head_is s' done g' post m -> Reach (a_events (mkAbs done (g :: post) m)) s'.
Proof.
  intros [Wi Wo Wp Wt] Ei Ee Hok E. exists (mkAbs done (g' :: post) m). unfold a_events, segs in *. cbn [a_done a_queue a_mem tl] in *.
  assert (Es : map gid (done ++ g' :: post) = map gid (done ++ g :: post)) by (rewrite !map_app; cbn [map]; rewrite Ei; reflexivity).
  assert (El : length (done ++ g' :: post) = length (done ++ g :: post)) by (rewrite !app_length; reflexivity).
  split; [split; unfold segs; cbn [a_done a_queue tl]; [rewrite Es, El; exact Wi | | exact Wp | exact Wt]|].
  - apply Forall_app in Wo as [W1 W2]. apply Forall_cons_iff in W2 as [_ W2].
    apply Forall_app. split; [exact W1 | constructor; assumption].
  - split; [apply (shape_head _ _ _ _ _ Wt), E|]. rewrite !map_app. cbn [map]. rewrite Ee. reflexivity.
Qed.

Lemma seg_ok_stage i E st st' ws :
  seg_ok (mkA (mkJob i E st) ws) -> st' <> StQueued -> (written st' = true -> written st = true) ->
  seg_ok (mkA (mkJob i E st') ws).
Proof.
  intros [K1 K2 K3] Hq Hw. unfold gst, gevs in *. cbn [a_job a_ws jstage jevs] in *.
  split; unfold gst, gevs; cbn [a_job a_ws jstage jevs]; [intros H; destruct (Hq H) | exact K2 | intros H; apply K3, Hw, H].
Qed.

Lemma reach_fw A s l : Reach A s -> Reach A (fw_step s l).
Proof.
  intros R. destruct (fw_step_cases s l) as [->|(j & rest & Hj & C)]; [exact R|].
  destruct R as ([done queue m0] & W & E & ->).
  assert (Hq : exists g post, queue = g :: post /\ a_job g = j /\ map a_job post = rest).
  { pose proof (co_jobs _ _ _ _ _ _ _ _ _ E) as Ej. cbn [a_queue] in Ej. rewrite Hj in Ej.
    destruct queue as [|g post]; [discriminate|]. injection Ej as -> ->. eauto. }
  destruct Hq as (g & post & -> & <- & <-).
  pose proof (wf_tl _ W) as Hq. cbn [a_queue tl] in Hq. pose proof E as E0.
  apply (shape_head _ _ _ _ _ Hq) in E. destruct E as [Em Ep Ei El Ed Ex _ Ea].
  destruct (ids_head _ _ _ _ (wf_ids _ W)) as [Hlt Hgt].
  assert (Hfresh : forall d, In d (flat_map gdir done) -> sid d <> gid g).
  { intros d Hd Es. apply in_gdirs in Hd as (g0 & H0 & _ & ->). apply Hlt in H0. cbn [sid] in Es. lia. }
  assert (Hok : seg_ok g) by (apply (seg_ok_in _ g W), in_app_iff; right; left; reflexivity).
  assert (Hhas := fun u => head_has_uid s done g u Ed Hlt).
  destruct g as [[i Ev st] ws]. unfold gid, gevs, gst in *. cbn [a_job a_ws jseg jevs jstage] in *.
  (* in every case but the last the head [g] becomes some [g']; the fields of the new state that the step
     leaves alone are those of [s] *)
  destruct C as [Hst|Hst|u Hst Hu Hd|Hst Hne Hall|Hst|Hst|id Hst _ _|Hst He|Hst _|Hd]; cbn [jseg jevs jstage] in *;
    try subst st.
  - (* FwBegin: the only in-flight marker is the head's *)
    apply (reach_head _ done _ (mkA (mkJob i Ev StBegun) ws) post m0 W eq_refl eq_refl).
    + apply (seg_ok_stage _ _ _ _ _ Hok); discriminate.
    + split; proj; try assumption; [|reflexivity]. rewrite Ei. reflexivity.
  - (* FwMkdir: the directory is the last one, or new *)
    apply (reach_head _ done _ (mkA (mkJob i Ev StBegun) (Some (wlist ws))) post m0 W eq_refl eq_refl).
    + destruct Hok as [K1 K2 K3]. split; [discriminate | exact K2 | discriminate].
    + split; proj; try assumption.
      rewrite Ed, (dir_add_rows_app _ _ _ _ Hfresh), (add_gdir (mkA (mkJob i Ev StBegun) ws)), app_nil_r. reflexivity.
  - (* FwWrite u: the guard says that [u] is a type of the memtable not yet written *)
    apply (reach_head _ done _ (mkA (mkJob i Ev StBegun) (Some (wlist ws ++ [u]))) post m0 W eq_refl eq_refl).
    + destruct Hok as [K1 K2 K3]. apply memb_true in Hu. split; [discriminate | | discriminate]. cbn [a_ws wlist].
      apply nodup_snoc; [exact K2|]. intros Hin. rewrite (proj2 (Hhas u)) in Hd by auto. discriminate.
    + split; proj; try assumption.
      change (filter (fun e => euid e =? u) (flush_order Ev)) with (of_uid u (flush_order Ev)).
      rewrite Ed, (dir_add_rows_app _ _ _ _ Hfresh), (add_gdir (mkA (mkJob i Ev StBegun) ws)). unfold grows.
      rewrite <- typed_rows_snoc. reflexivity.
  - (* FwIndex: the guard says that every type of the memtable is written *)
    apply (reach_head _ done _ (mkA (mkJob i Ev StIndexed) ws) post m0 W eq_refl eq_refl).
    + destruct Hok as [K1 K2 K3]. split; [discriminate | exact K2 |]. intros _. cbn [gevs a_job jevs a_ws].
      rewrite forallb_forall in Hall.
      assert (HW : forall u, In u (uids_of Ev) -> In u (wlist ws)) by (intros u Hin; apply Hall, Hhas in Hin; tauto).
      split; [exact Hne|]. split; [|exact HW]. destruct ws; [discriminate|]. destruct Ev as [|e0 r]; [contradiction|].
      destruct (HW (euid e0)). apply uids_of_iff. exists e0. split; [left|]; reflexivity.
    + split; proj; try assumption; [|reflexivity].
      rewrite Ex. cbn [g_idx gst a_job jstage written when]. rewrite app_nil_r. reflexivity.
  - (* FwPublish: an indexed memtable is not empty, and no finished segment has the head's id *)
    destruct (k_c _ Hok eq_refl) as [Hne _]. cbn [gevs a_job jevs] in Hne.
    apply (reach_head _ done _ (mkA (mkJob i Ev StPublished) ws) post m0 W eq_refl eq_refl).
    + apply (seg_ok_stage _ _ _ _ _ Hok); [discriminate | reflexivity].
    + split; proj; try assumption; [|reflexivity].
      destruct Ev; [contradiction|]. cbn [is_empty orb]. rewrite El. cbn [g_live gst a_job jstage published when].
      rewrite app_nil_r, (proj2 (memb_false _ _)); [reflexivity|]. intros Hin. apply in_flat_map in Hin as (g0 & H0 & Hin).
      unfold g_live, when in Hin. destruct (published (gst g0)); [destruct Hin as [E|[]] | destruct Hin]. apply Hlt in H0. unfold gid in E. lia.
  - (* FwClear: the passive copy with the head's id is the head's *)
    destruct (k_c _ Hok eq_refl) as [Hne _]. cbn [gevs a_job jevs] in Hne.
    apply (reach_head _ done _ (mkA (mkJob i Ev StCleared) ws) post m0 W eq_refl eq_refl).
    + apply (seg_ok_stage _ _ _ _ _ Hok); [discriminate | reflexivity].
    + split; proj; try assumption; [|reflexivity].
      destruct Ev; [contradiction|]. cbn [is_empty]. rewrite Ep. unfold g_pas at 2 5. cbn [jpas gid a_job jseg jevs jstage has_passive].
      rewrite (clear_head done post); [reflexivity|].
      intros g0 H0 E. apply in_app_iff in H0 as [H0|H0]; [apply Hlt in H0 | apply Hgt in H0]; unfold gid in *; lia.
  - (* FwWalDel: only log files change *)
    apply (reach_head _ done _ _ post m0 W eq_refl eq_refl Hok). split; proj; try assumption. reflexivity.
  - (* FwWalClean of an empty memtable: a cleared job was indexed, its memtable is not empty *)
    destruct (k_c _ Hok eq_refl) as [Hne _]. destruct (Hne He).
  - (* FwWalClean: only log files and the stage change *)
    apply (reach_head _ done _ (mkA (mkJob i Ev StWalCleaned) ws) post m0 W eq_refl eq_refl).
    + apply (seg_ok_stage _ _ _ _ _ Hok); [discriminate | reflexivity].
    + split; proj; try assumption. reflexivity.
  - (* FwDone: the head moves to the finished segments, [segs] stays; the next head is waiting *)
    set (g := mkA (mkJob i Ev st) ws) in *. exists (mkAbs (done ++ [g]) post m0).
    assert (Es : segs (mkAbs (done ++ [g]) post m0) = segs (mkAbs done (g :: post) m0))
      by (unfold segs; cbn [a_done a_queue]; rewrite <- app_assoc; reflexivity).
    split; [|split].
    + destruct W as [Wi Wo Wp Wt]. split; rewrite ?Es; cbn [a_done a_queue tl] in *; auto.
      * apply Forall_app. split; [exact Wp | constructor; [exact Hd | constructor]].
      * destruct post; [constructor | apply Forall_cons_iff in Hq; apply Hq].
    + destruct E0 as [Fm Fp _ Fl Fd Fx _ Fa]. unfold shape. rewrite Es. cbn [a_queue a_mem]. split; proj; try assumption; [|reflexivity].
      destruct (waiting_nil post Hq) as (E1 & _). rewrite Ei, E1.
      assert (Eb : begun st = true) by (destruct Hd as [->|[-> _]]; reflexivity).
      unfold g_infl, gst, gid. cbn [g a_job jstage jseg]. rewrite Eb. cbn [when remove_n]. rewrite N.eqb_refl. reflexivity.
    + unfold a_events. rewrite Es. reflexivity.
Qed.

Lemma reach_core A s s' : core s' = core s -> Reach A s -> Reach A s'.
Proof. intros E (a & W & Ec & Ea). exists a. split; [exact W|]. split; [exact (core_is_core _ _ _ _ _ _ _ _ _ _ E Ec) | exact Ea]. Qed.

Lemma reach_init c : Reach [] (init c).
Proof. exists (mkAbs [] [] []). split; [split; constructor|]. repeat split. Qed.

Lemma reach_ins A s e : Reach A s -> Reach (A ++ [e]) (ins s e).
Proof.
  intros ([done queue m0] & [Wi Wo Wp Wt] & [Em Ep Ei El Ed Ex Ej Ea] & ->). exists (mkAbs done queue (m0 ++ [e])).
  split; [split; assumption|]. split; [|symmetry; apply app_assoc]. cbn [a_mem] in Em. split; proj; try assumption. cbn [a_mem]. rewrite Em. reflexivity.
Qed.

(** the memtable becomes a segment; it takes the next id, which is the number of segments so far *)
Lemma reach_rotate A s : Reach A s -> Reach A (rotate s).
Proof.
  intros ([done queue m0] & [Wi Wo Wp Wt] & [Em Ep Ei El Ed Ex Ej Ea] & ->).
  set (g := mkA (mkJob (alloc0 s) (mem s) StQueued) None). exists (mkAbs done (queue ++ [g]) []).
  unfold a_events, segs in *. cbn [a_done a_queue a_mem] in *.
  assert (Es : done ++ queue ++ [g] = (done ++ queue) ++ [g]) by apply app_assoc.
  split; [split|]; unfold segs; cbn [a_done a_queue a_mem tl]; rewrite ?Es.
  - rewrite app_length, map_app. cbn [length map]. rewrite PeanoNat.Nat.add_1_r, iota_S, <- Wi. unfold gid at 2. cbn [g a_job jseg].
    rewrite Ea. reflexivity.
  - apply Forall_app. split; [exact Wo|]. constructor; [|constructor].
    split; unfold gst; cbn [g a_ws wlist a_job jstage written]; [reflexivity | constructor | discriminate].
  - exact Wp.
  - destruct queue; cbn [app tl] in *; [constructor|]. apply Forall_app. split; [exact Wt | constructor; [split; reflexivity | constructor]].
  - set (S := done ++ queue) in *. split; [|rewrite map_app, concat_app; unfold gevs at 2, g; cbn [map concat a_job jevs]; rewrite Em, !app_nil_r; reflexivity].
    unfold shape, segs. cbn [a_done a_queue a_mem]. rewrite Es.
    split; unfold rotate; proj; rewrite ?map_app, ?flat_map_app; cbn [map flat_map]; rewrite ?app_nil_r.
    + reflexivity.
    + rewrite Ep. reflexivity.
    + exact Ei.
    + exact El.
    + exact Ed.
    + exact Ex.
    + rewrite Ej. reflexivity.
    + rewrite len_app, len_cons, Ea. change (len []) with 0. lia.
Qed.

Lemma reach_step A s l : is_crash l = false -> Reach A s -> Reach (A ++ applied [l]) (step s l).
Proof.
  intros Hl R. destruct l; try discriminate; cbn [applied step]; rewrite ?app_nil_r.
  - destruct (store_cases s e) as [[_ ->]|[_ ->]]; [|apply reach_rotate]; apply reach_ins, R.
  - apply reach_rotate, R.
  - exact (reach_core _ _ _ (wal_write_core s) R).
  - exact (reach_core _ _ _ (wal_rotate_core s) R).
  - apply reach_fw, R.
Qed.

Theorem reach_run c ls : no_crash ls -> Reach (applied ls) (run (init c) ls).
Proof.
  unfold no_crash. induction ls as [|l ls IH] using rev_ind; intros Hc; [apply reach_init|].
  rewrite forallb_app in Hc. apply andb_true_iff in Hc as [Hc Hl]. cbn [forallb] in Hl.
  rewrite andb_true_r in Hl. apply negb_true_iff in Hl.
  rewrite run_snoc, applied_app. apply reach_step; auto.
Qed.

(** ** What the state holds, read off its shape *)

Lemma grows_sub g e : In e (grows g) -> In e (gevs g).
Proof. intros H. apply in_typed_rows in H. tauto. Qed.

Lemma grows_complete g e : seg_ok g -> written (gst g) = true -> In e (gevs g) -> In e (grows g).
Proof.
  intros K Hw He. destruct (k_c _ K Hw) as (_ & _ & HW). apply in_typed_rows.
  split; [exact He|]. apply HW, uids_of_iff. eauto.
Qed.

Lemma grows_nodup g : seg_ok g -> NoDup (gevs g) -> NoDup (grows g).
Proof. intros K Hn. apply typed_rows_nodup; [exact Hn | apply (k_w _ K)]. Qed.

Lemma jpas_sub j e : In e (jpas j) -> In e (jevs j).
Proof. unfold jpas. destruct (has_passive (jstage j)); [auto | intros []]. Qed.

Section Views.
  Variables (a : abs) (s : shard).
  Hypothesis W : WFa a.
  Hypothesis E : shape a s.

  Lemma v_mem : mem s = a_mem a.
  Proof. exact (co_mem _ _ _ _ _ _ _ _ _ E). Qed.

  Lemma v_passives : prows (passives s) = concat (map (fun g => jpas (a_job g)) (segs a)).
  Proof. unfold prows. rewrite (co_pas _ _ _ _ _ _ _ _ _ E), map_map. reflexivity. Qed.

  Lemma v_mem_rows : mem_rows s = a_mem a ++ concat (map (fun g => jpas (a_job g)) (segs a)).
  Proof. rewrite <- v_mem, <- v_passives. reflexivity. Qed.

  Lemma v_all_rows : all_rows (dirs s) = concat (map grows (segs a)).
  Proof.
    destruct E as [_ _ _ _ Ed _ _ _]. rewrite Ed. clear. unfold all_rows.
    induction (segs a) as [|g l IH]; [reflexivity|].
    cbn [flat_map map concat]. rewrite map_app, concat_app, IH. f_equal. unfold gdir, grows.
    destruct (a_ws g); [apply app_nil_r | reflexivity].
  Qed.

  (** a directory that holds rows is read: its segment is live, or it is the one being flushed *)
  Lemma v_seg_rows : seg_rows s = all_rows (dirs s).
  Proof.
    apply seg_rows_all. intros d Hd Hp.
    destruct E as [_ _ Ei El Ed _ _ _]. rewrite Ed in Hd. apply in_gdirs in Hd as (g & Hg & Hw & ->).
    cbn [sid srows] in *. rewrite Ei, El in Hp. apply orb_false_iff in Hp as [H1 H2]. apply memb_false in H1, H2.
    pose proof (seg_ok_in a g W Hg) as K. unfold segs in *. apply in_app_iff in Hg as [Hg|Hg].
    - pose proof (wf_done _ W) as Hf. rewrite Forall_forall in Hf. destruct (Hf g Hg) as [Hst|[_ He]].
      + destruct H1. apply in_flat_map. exists g. split; [apply in_app_iff; left; exact Hg|]. unfold g_live. rewrite Hst. left. reflexivity.
      + unfold grows. rewrite He. apply typed_rows_nil.
    - destruct (a_queue a) as [|g0 post] eqn:Er; [destruct Hg|]. pose proof (wf_tl _ W) as Hq. rewrite Er in Hq. cbn [tl] in Hq.
      destruct Hg as [->|Hg]; [|rewrite Forall_forall in Hq; destruct (Hq g Hg); contradiction].
      destruct H2. cbn [flat_map]. apply in_app_iff. left. unfold g_infl.
      destruct (gst g) eqn:Hst; try (left; reflexivity). destruct Hw. apply (k_q _ K Hst).
  Qed.

  Lemma v_rows e : In e (mem_rows s ++ seg_rows s) <-> In e (a_events a).
  Proof.
    rewrite v_mem_rows, v_seg_rows, v_all_rows. unfold a_events. rewrite !in_app_iff, !in_concat_map. split.
    - intros [[H|(g & Hg & H)]|(g & Hg & H)]; [right; exact H | left; exists g; split; [exact Hg | apply jpas_sub, H]
                                                | left; exists g; split; [exact Hg | apply grows_sub, H]].
    - intros [(g & Hg & H)|H]; [|auto]. unfold jpas. destruct (has_passive (jstage (a_job g))) eqn:Hp.
      + left. right. exists g. rewrite Hp. auto.
      + (* the passive copy is released after the index entry is written *)
        right. exists g. split; [exact Hg|]. apply grows_complete; [apply (seg_ok_in a g W Hg) | | exact H].
        unfold gst. destruct (jstage (a_job g)); try discriminate; reflexivity.
  Qed.

  Lemma v_nodup : NoDup (a_events a) -> NoDup (mem_rows s) /\ NoDup (seg_rows s).
  Proof.
    unfold a_events. intros Hn. apply nodup_app in Hn as (H1 & H2 & H3). rewrite v_mem_rows, v_seg_rows, v_all_rows. split.
    - apply nodup_app. split; [exact H2|]. split.
      + eapply nodup_concat_sub; [exact H1|]. intros g _ Hg. unfold jpas.
        destruct (has_passive _); [split; [exact Hg | apply incl_refl] | split; [constructor | intros e []]].
      + intros e He He2. apply (H3 e); [|exact He]. apply in_concat_map in He2 as (g & Hg & He2). apply in_concat_map. exists g.
        split; [exact Hg | apply jpas_sub, He2].
    - eapply nodup_concat_sub; [exact H1|]. intros g Hg Hgn.
      split; [apply grows_nodup; [apply (seg_ok_in a g W Hg) | exact Hgn] | intros e; apply grows_sub].
  Qed.

  Lemma ids_sorted_segs : StronglySorted N.lt (map gid (segs a)).
  Proof. rewrite (wf_ids _ W). apply iota_sorted. Qed.

  Lemma gid_inj g g' : In g (segs a) -> In g' (segs a) -> gid g = gid g' -> g = g'.
  Proof.
    apply nodup_map_inj_on. rewrite (wf_ids _ W). apply nodup_map_of_nat_seq.
  Qed.

  Lemma v_dirs_sorted : StronglySorted N.lt (map sid (dirs s)).
  Proof.
    destruct E as [_ _ _ _ Ed _ _ _]. rewrite Ed. apply (sorted_flat_map _ _ _ gid); [|exact ids_sorted_segs].
    intros g. unfold gdir. destruct (a_ws g); [right | left]; reflexivity.
  Qed.

  Lemma v_index_sorted : StronglySorted N.lt (map fst (index s)).
  Proof.
    destruct E as [_ _ _ _ _ Ex _ _]. rewrite Ex. apply (sorted_flat_map _ _ _ gid); [|exact ids_sorted_segs].
    intros g. unfold g_idx. destruct (written (gst g)); [right | left]; reflexivity.
  Qed.

  Lemma v_sids i : In i (map sid (dirs s)) <-> exists g, In g (segs a) /\ gid g = i /\ a_ws g <> None.
  Proof.
    destruct E as [_ _ _ _ Ed _ _ _]. rewrite in_sids, Ed. split.
    - intros (d & Hd & Hs). apply in_gdirs in Hd as (g & Hg & Hw & ->). eauto.
    - intros (g & Hg & Hi & Hw). exists (mkSeg (gid g) (grows g)). split; [apply in_gdirs; eauto | exact Hi].
  Qed.

  Lemma v_rows_of i e : In e (Compaction.rows_of (dirs s) i) <-> exists g, In g (segs a) /\ gid g = i /\ a_ws g <> None /\ In e (grows g).
  Proof.
    destruct E as [_ _ _ _ Ed _ _ _]. rewrite in_rows_of_iff, Ed. split.
    - intros (d & Hd & Hs & He). apply in_gdirs in Hd as (g & Hg & Hw & ->). eauto.
    - intros (g & Hg & Hi & Hw & He). exists (mkSeg (gid g) (grows g)). split; [apply in_gdirs; eauto | auto].
  Qed.

  Lemma v_live i : In i (live s) <-> exists g, In g (segs a) /\ gid g = i /\ published (gst g) = true.
  Proof.
    destruct E as [_ _ _ El _ _ _ _]. rewrite El, in_flat_map. unfold g_live.
    split; intros (g & Hg & H); exists g; (split; [exact Hg|]).
    - destruct (published (gst g)); [destruct H as [<-|[]]; auto | destruct H].
    - destruct H as [<- ->]. left. reflexivity.
  Qed.

  Lemma v_index i us :
    In (i, us) (index s) <-> exists g, In g (segs a) /\ gid g = i /\ us = uids_of (gevs g) /\ written (gst g) = true.
  Proof.
    destruct E as [_ _ _ _ _ Ex _ _]. rewrite Ex, in_flat_map. unfold g_idx.
    split; intros (g & Hg & H); exists g; (split; [exact Hg|]).
    - destruct (written (gst g)); [destruct H as [[= <- <-]|[]]; auto | destruct H].
    - destruct H as (<- & -> & ->). left. reflexivity.
  Qed.
End Views.

Lemma run_rows c ls : no_crash ls ->
  forall e, In e (mem_rows (run (init c) ls) ++ seg_rows (run (init c) ls)) <-> In e (applied ls).
Proof. intros Hc e. destruct (reach_run c ls Hc) as (a & W & E & ->). apply v_rows; assumption. Qed.

Lemma restart_mem t : mem_rows (restart t) = prows (walfiles t).
Proof. unfold mem_rows. proj. apply app_nil_r. Qed.

Lemma restart_seg_rows t : seg_rows (restart t) = all_rows (dirs t).
Proof.
  apply (seg_rows_all (restart t)). cbn [restart live inflight dirs]. intros d Hd Hp. apply orb_false_iff in Hp as [Hp _].
  apply memb_false in Hp. destruct Hp. apply sort_n_in, in_map, Hd.
Qed.

Lemma rows_all_events s e : In e (mem_rows s ++ seg_rows s) -> In e (all_events s).
Proof.
  intros H. apply all_events_In. unfold mem_rows in H. rewrite !in_app_iff in H.
  destruct H as [[H|H]|H]; [left; exact H | right; left; exact H | do 5 right; left; apply seg_rows_sub_all, H].
Qed.

Theorem select_exact : forall c ls u,
  no_crash ls -> NoDup (map ek (applied ls)) ->
  Permutation (select (run (init c) ls) u) (of_uid u (applied ls)).
Proof.
  intros c ls u Hc Hk. pose proof (run_rows c ls Hc) as Hrows.
  apply dedup_perm; [|apply nodup_map_filter, Hk].
  intros e. rewrite in_scan, of_uid_in, Hrows. reflexivity.
Qed.

Theorem read_your_writes : forall c ls e,
  no_crash ls -> NoDup (map ek (applied ls)) ->
  In e (applied ls) -> In e (select (run (init c) ls) (euid e)).
Proof.
  intros c ls e Hc Hk He. eapply Permutation_in; [symmetry; apply select_exact; assumption|].
  apply filter_In. split; [exact He | apply N.eqb_refl].
Qed.

(** a read for type [u] while some in-flight segment has no files for [u] *)
Definition ReadDuringFlushDropsSegmentFlow (s : shard) (u : N) : bool := fragile s u.
Definition CountDuringFlush (s : shard) : bool :=
  existsb (fun e => existsb (ev_eqb e) (seg_rows s)) (mem_rows s).

Lemma CountDuringFlush_false s :
  CountDuringFlush s = false <-> forall e, In e (mem_rows s) -> ~ In e (seg_rows s).
Proof.
  unfold CountDuringFlush. split.
  - intros H e Hm Hs. assert (T : existsb (fun e => existsb (ev_eqb e) (seg_rows s)) (mem_rows s) = true); [|congruence].
    apply existsb_exists. exists e. split; [exact Hm|]. apply existsb_exists. exists e. split; [exact Hs | apply ev_eqb_eq; reflexivity].
  - intros H. destruct (existsb _ (mem_rows s)) eqn:E; [|reflexivity]. exfalso.
    apply existsb_exists in E as (e & Hm & E). apply existsb_exists in E as (e' & Hs & E).
    apply ev_eqb_eq in E. subst e'. exact (H e Hm Hs).
Qed.

Theorem outcomes_exact_outside_known : forall c ls u,
  no_crash ls -> NoDup (map ek (applied ls)) ->
  let s := run (init c) ls in
  ReadDuringFlushDropsSegmentFlow s u = false ->
  select_outcomes s u = [select s u] /\
  forall r, In r (select_outcomes s u) -> Permutation r (of_uid u (applied ls)).
Proof.
  intros c ls u Hc Hk s Hf. unfold ReadDuringFlushDropsSegmentFlow in Hf.
  unfold select_outcomes. rewrite Hf. split; [reflexivity|].
  intros r [<-|[]]. apply select_exact; assumption.
Qed.

(** COUNT filters the in-memory rows by event type like the segment rows: [Params.agg_mem_filters_type]
    is true (sneldb commit dc170f4).  [count] reads the regenerated flag, so this stops checking if the
    memtable read paths lose the condition. *)
Lemma count_typed : forall s u, count s u = len (of_uid u (mem_rows s)) + len (of_uid u (seg_rows s)).
Proof. reflexivity. Qed.

Lemma count_scan s u : count s u = len (scan s u).
Proof. rewrite count_typed, scan_app, len_app. reflexivity. Qed.

Lemma count_select s u : NoDup (map ek (scan s u)) -> count s u = len (select s u).
Proof. intros Hn. rewrite count_scan. unfold select. rewrite dedup_id; [reflexivity | exact Hn | reflexivity]. Qed.

Theorem count_exact_outside_known : forall c ls u,
  no_crash ls -> NoDup (map ek (applied ls)) ->
  let s := run (init c) ls in
  CountDuringFlush s = false ->
  count s u = len (select s u).
Proof.
  intros c ls u Hc Hk s H2. destruct (reach_run c ls Hc) as (a & W & E & EA). fold s in E.
  destruct (v_nodup a s W E) as [Nm Ns]; [rewrite <- EA; apply (NoDup_map_inv ek), Hk|].
  rewrite CountDuringFlush_false in H2. apply count_select, nodup_map_inj.
  - rewrite scan_app. apply nodup_app. split; [apply NoDup_filter, Nm|]. split; [apply NoDup_filter, Ns|].
    intros x Hx Hx2. apply of_uid_in in Hx as [Hx _]. apply of_uid_in in Hx2 as [Hx2 _]. exact (H2 x Hx Hx2).
  - eapply KeyInj_incl; [|apply KeyInj_nodup, Hk]. intros x Hx. apply in_scan in Hx as [Hx _]. apply (run_rows c ls Hc), Hx.
Qed.

Definition flush_all (us : list N) : list label :=
  [LFw FwBegin; LFw FwMkdir] ++ map (fun u => LFw (FwWrite u)) us
  ++ [LFw FwIndex; LFw FwPublish; LFw FwClear; LFw FwWalClean; LFw FwDone].

(** segment 0 (type 0) is complete and published, segment 1 (type 1 only) has just begun its
    flush: a read for type 0 may return the in-memory rows only, without event 0 *)
Definition ls_fragile : list label :=
  [LStore (mkEv 0 0 0)] ++ flush_all [0] ++ [LStore (mkEv 1 0 1); LFw FwBegin].

Lemma fragile_outcome_refuted :
  exists c ls u e,
    let s := run (init c) ls in
    no_crash ls /\ NoDup (map ek (applied ls)) /\
    ReadDuringFlushDropsSegmentFlow s u = true /\
    In e (applied ls) /\ euid e = u /\
    In (select_mem_only s u) (select_outcomes s u) /\ ~ In e (select_mem_only s u).
Proof.
  exists 1, ls_fragile, 0, (mkEv 0 0 0). cbv zeta. do 5 eval_split.
  split; [vm_compute; auto | vm_compute; intros []].
Qed.

(** [ls_count_b] stops between FwPublish and FwClear: the rotated event is in the passive copy and
    in the published segment *)
Definition ls_count_a : list label := [LStore (mkEv 0 0 1)].
Definition ls_count_b : list label :=
  [LStore (mkEv 0 0 0); LFw FwBegin; LFw FwMkdir; LFw (FwWrite 0); LFw FwIndex; LFw FwPublish].

Lemma count_refuted :
  exists c ls u, let s := run (init c) ls in
     no_crash ls /\ NoDup (map ek (applied ls)) /\
     CountDuringFlush s = true /\
     jobs s = [mkJob 0 (applied ls) StPublished] /\
     count s u = 2 /\ len (select s u) = 1.
Proof.
  exists 1, ls_count_b, 0. by_eval.
Qed.

Example count_other_type_exact :
  let s := run (init 2) ls_count_a in
  no_crash ls_count_a /\ NoDup (map ek (applied ls_count_a)) /\ mem_rows s = [mkEv 0 0 1] /\
  CountDuringFlush s = false /\ count s 0 = 0 /\ select s 0 = [] /\ count s 1 = 1.
Proof.
  by_eval.
Qed.

(** three rotations (capacity 2): segment 0 complete, segment 1 in flight with both of its types
    written, segment 2 queued behind it, one event in the active memtable *)
Definition ls_ex : list label :=
  [LStore (mkEv 0 1 0); LStore (mkEv 1 0 1)] ++ flush_all [1; 0]
  ++ [LStore (mkEv 2 0 0); LWalWrite; LStore (mkEv 3 1 1); LFw FwBegin; LFw FwMkdir; LFw (FwWrite 0);
      LStore (mkEv 4 0 0); LFlushCmd; LFw (FwWrite 1); LStore (mkEv 5 2 1)].

Example select_exact_example :
  let s := run (init 2) ls_ex in
  no_crash ls_ex /\ NoDup (map ek (applied ls_ex)) /\
  map jstage (jobs s) = [StBegun; StQueued] /\ live s = [0] /\ inflight s = [1] /\
  select s 0 = [mkEv 2 0 0; mkEv 4 0 0; mkEv 0 1 0] /\
  select s 1 = [mkEv 5 2 1; mkEv 3 1 1; mkEv 1 0 1].
Proof.
  by_eval.
Qed.

Example outcomes_exact_example :
  let s := run (init 2) ls_ex in
  no_crash ls_ex /\ NoDup (map ek (applied ls_ex)) /\ inflight s = [1] /\
  ReadDuringFlushDropsSegmentFlow s 0 = false /\ ReadDuringFlushDropsSegmentFlow s 1 = false.
Proof.
  by_eval.
Qed.

(** three rotations (one of an empty memtable), events of two types: segment 0
    complete and released, segments 1 and 2 queued, one event in the memtable *)
Definition ls_ex_count : list label :=
  [LStore (mkEv 0 1 0); LStore (mkEv 1 0 1)] ++ flush_all [0; 1]
  ++ [LStore (mkEv 2 0 0); LWalWrite; LStore (mkEv 3 1 1); LFlushCmd; LStore (mkEv 4 0 0)].

Example count_exact_example :
  let s := run (init 2) ls_ex_count in
  no_crash ls_ex_count /\ NoDup (map ek (applied ls_ex_count)) /\
  map jstage (jobs s) = [StQueued; StQueued] /\ live s = [0] /\
  CountDuringFlush s = false /\ count s 0 = 3 /\ count s 1 = 2 /\ len (mem_rows s) = 3.
Proof.
  by_eval.
Qed.
