(** Token validation and trimming on printed text: a text whose characters outside string
    literals are token characters, and whose string literals contain no backslash, yields no
    [<INVALID>] token and no out-of-domain token; a text that starts and ends with a non-blank
    ASCII character is left alone by [str::trim]; a text that starts with a word has it as first token;
    so [parse_command] hands such a text that begins with QUERY to the QUERY grammar as it is. *)
From Coq Require Import NArith Arith List Bool Lia.
From Coq Require Import ZifyBool ZifyNat ZifyN.
From Snel Require Import Base.Bytes Gen.Params Model.Tokenizer Model.Parser Model.Command Model.Printer Proofs.BytesFacts Proofs.TokenizerProofs Proofs.ParserBasics.
Import ListNotations.
Open Scope N_scope.

(** characters that are tokens by themselves or parts of words / numbers *)
Definition outc (c : N) : bool :=
  is_tws c || (c =? 123) || (c =? 125) || (c =? 59) || is_digit c || (c =? 45) || is_symchar c
  || (c =? 91) || (c =? 93) || (c =? 40) || (c =? 41) || is_wordchar c.

(** what the proofs below use of a symbol character; checked on the regenerated symbol set by computation *)
Definition sym_side (k : N) : bool := negb (is_alpha k) && negb (k =? 34).

Lemma sym_side_all : forallb sym_side tokenizer_symbol_chars = true.
Proof. vm_compute. reflexivity. Qed.

Lemma symchar_side : forall c, is_symchar c = true -> sym_side c = true.
Proof.
  intros c H. unfold is_symchar in H. apply existsb_exists in H as (k & Hin & E). apply N.eqb_eq in E. subst k.
  pose proof sym_side_all as A. rewrite forallb_forall in A. auto.
Qed.

(** a letter falls through every test of [next_token] down to the word case *)
Lemma alpha_class : forall c, is_alpha c = true ->
  is_tws c = false /\ is_digit c = false /\ is_symchar c = false /\ (128 <=? c) = false /\ is_wordchar c = true.
Proof.
  intros c Hc. pose proof (symchar_side c) as Sy. destruct (is_symchar c).
  - specialize (Sy eq_refl). unfold sym_side in Sy. rewrite Hc in Sy. discriminate Sy.
  - unfold is_tws, is_digit, is_wordchar, is_alnum, is_alpha, is_digit in *. lia.
Qed.

Lemma alpha_neq : forall c k, is_alpha c = true -> is_alpha k = false -> (c =? k) = false.
Proof. intros c k Hc Hk. apply N.eqb_neq. intros ->. congruence. Qed.

Lemma next_token_alpha : forall c r, is_alpha c = true ->
  next_token c r = let '(a, r') := span is_wordchar r in (Some (TWord (c :: a)), r').
Proof.
  intros c r Hc. destruct (alpha_class c Hc) as (T & D & S & H & W). unfold next_token.
  rewrite !(alpha_neq c) by (exact Hc || reflexivity). rewrite T, D, S, H, W. reflexivity.
Qed.

Lemma tokenize_word : forall w r, word w = true -> head_is is_wordchar r = false ->
  exists ts, tokenize (w ++ r) = TWord w :: ts.
Proof.
  intros [|c w] r Hw Hr; [discriminate|]. cbn [word] in Hw. unfold all_alpha in Hw. cbn [forallb] in Hw. apply andb_prop in Hw as [Hc Hw].
  assert (Hww : forallb is_wordchar w = true).
  { rewrite forallb_forall in *. intros x Hx. apply alpha_class, Hw, Hx. }
  unfold tokenize. cbn [app length tokenize_fuel]. rewrite (next_token_alpha c _ Hc), (span_app is_wordchar w r Hww Hr).
  eexists. reflexivity.
Qed.

Lemma printer_symbols : forallb is_symchar [46; 44; 61; 62; 60; 33] = true.
Proof. vm_compute. reflexivity. Qed.

(** the two-state scan: outside / inside a string literal (backslash escapes one char) *)
Fixpoint lex_ok (instr : bool) (s : bytes) : bool :=
  match s with
  | [] => true
  | c :: r =>
      if instr then
        if c =? 34 then lex_ok false r
        else if c =? 92 then match r with [] => true | _ :: r' => lex_ok true r' end
        else lex_ok true r
      else
        if c =? 34 then lex_ok true r
        else outc c && lex_ok false r
  end.

Definition tok_clean (t : token) : bool := negb (is_invalid t) && negb (is_nonascii t).

Definition neutral (t : bytes) : Prop := forall b, lex_ok false (t ++ b) = lex_ok false b.

Lemma neutral_nil : neutral [].
Proof. intro b. reflexivity. Qed.
Lemma neutral_app : forall a b, neutral a -> neutral b -> neutral (a ++ b).
Proof. intros a b Ha Hb c. rewrite <- app_assoc, Ha, Hb. reflexivity. Qed.
Lemma outc_noquote : forall c, outc c = true -> (c =? 34) = false.
Proof.
  intros c Hc. destruct (is_symchar c) eqn:S.
  - apply symchar_side in S. unfold sym_side in S. lia.
  - unfold outc in Hc. rewrite S in Hc. unfold is_tws, is_digit, is_wordchar, is_alnum, is_alpha, is_digit in Hc. lia.
Qed.

Lemma neutral_cons : forall c t, outc c = true -> neutral t -> neutral (c :: t).
Proof.
  intros c t Hc Ht b. cbn [app lex_ok]. rewrite (outc_noquote c Hc), Hc. apply Ht.
Qed.
Lemma neutral_plain : forall t, forallb outc t = true -> neutral t.
Proof.
  induction t as [|c t IH]; intro H; [apply neutral_nil|]. cbn [forallb] in H. apply andb_prop in H as [Hc H].
  apply neutral_cons; auto.
Qed.

Lemma lex_in_string : forall s acc str r, scan_string s acc = (str, r) -> lex_ok true s = lex_ok false r.
Proof.
  fix IH 1. intros [|c s] acc str r H; cbn [scan_string] in H; cbn [lex_ok].
  - inversion H; subst. reflexivity.
  - destruct (c =? 34); [inversion H; subst; reflexivity|].
    destruct (c =? 92).
    + destruct s as [|e s']; [inversion H; subst; reflexivity|]. eapply IH; eauto.
    + eapply IH; eauto.
Qed.

Lemma numchar_outc : forall c, is_numchar c = true -> outc c = true.
Proof.
  intros c H. destruct (c =? 46) eqn:E; [apply N.eqb_eq in E; subst c; reflexivity|].
  unfold is_numchar in H. unfold outc. lia.
Qed.
Lemma wordchar_outc : forall c, is_wordchar c = true -> outc c = true.
Proof. intros c H. unfold outc. rewrite H. apply orb_true_r. Qed.

Lemma lex_span : forall p s a r, span p s = (a, r) -> (forall c, p c = true -> outc c = true) ->
  lex_ok false s = lex_ok false r.
Proof.
  intros p s a r H Hp. apply span_spec in H as (-> & Ha & _). apply neutral_plain.
  rewrite forallb_forall in *. auto.
Qed.

Lemma clean_cons : forall t ts, tok_clean t = true -> forallb tok_clean ts = true -> forallb tok_clean (t :: ts) = true.
Proof. intros t ts H1 H2. cbn [forallb]. rewrite H1, H2. reflexivity. Qed.

Lemma tokens_clean : forall f s, lex_ok false s = true -> forallb tok_clean (tokenize_fuel f s) = true.
Proof.
  induction f as [|f IH]; intros s L; [reflexivity|]. destruct s as [|c r]; [reflexivity|].
  cbn [tokenize_fuel]. cbn [lex_ok] in L. unfold next_token.
  destruct (c =? 34) eqn:T5.
  { (* a string literal: the quote is none of the characters tested before it *)
    apply N.eqb_eq in T5. subst c. change (is_tws 34) with false. change (34 =? 123) with false.
    change (34 =? 125) with false. change (34 =? 59) with false. cbv iota.
    destruct (scan_string r []) as [str r'] eqn:S. apply clean_cons; [reflexivity|].
    apply IH. rewrite <- (lex_in_string _ _ _ _ S). exact L. }
  apply andb_prop in L as [Lc L].
  destruct (is_tws c) eqn:T1; [auto|].
  destruct (c =? 123) eqn:T2; [apply clean_cons; auto|].
  destruct (c =? 125) eqn:T3; [apply clean_cons; auto|].
  destruct (c =? 59) eqn:T4; [apply clean_cons; auto|].
  destruct (is_digit c || (c =? 45)) eqn:T6.
  { destruct (span is_numchar r) as [a r'] eqn:S. apply clean_cons; [reflexivity|].
    apply IH. rewrite <- (lex_span _ _ _ _ S numchar_outc). exact L. }
  destruct (is_symchar c) eqn:T7; [apply clean_cons; auto|].
  destruct (c =? 91) eqn:T8; [apply clean_cons; auto|].
  destruct (c =? 93) eqn:T9; [apply clean_cons; auto|].
  destruct (c =? 40) eqn:T10; [apply clean_cons; auto|].
  destruct (c =? 41) eqn:T11; [apply clean_cons; auto|].
  (* what is left of [outc c] *)
  assert (Hw : is_wordchar c = true).
  { unfold outc in Lc. rewrite T1, T2, T3, T4, T7, T8, T9, T10, T11 in Lc.
    apply orb_false_elim in T6 as [T6a T6b]. rewrite T6a, T6b in Lc. exact Lc. }
  destruct (128 <=? c) eqn:T12.
  { exfalso. unfold is_wordchar, is_alnum, is_alpha, is_digit in Hw. lia. }
  rewrite Hw. destruct (span is_wordchar r) as [a r'] eqn:S. apply clean_cons; [reflexivity|].
  apply IH. rewrite <- (lex_span _ _ _ _ S wordchar_outc). exact L.
Qed.

Lemma clean_valid : forall ts, forallb tok_clean ts = true -> tokens_valid ts = true /\ tokens_in_domain ts = true.
Proof.
  induction ts as [|t ts IH]; intro H; [split; reflexivity|]. cbn [forallb] in H. apply andb_prop in H as [Ht H].
  destruct (IH H) as [I1 I2]. unfold tok_clean in Ht. apply andb_prop in Ht as [H1 H2].
  unfold tokens_valid, tokens_in_domain in *. cbn [existsb].
  apply negb_true_iff in H1, H2. rewrite H1, H2. cbn [orb]. auto.
Qed.

Lemma neutral_flat_map : forall A (t : A -> bytes) xs, Forall (fun x => neutral (t x)) xs -> neutral (flat_map t xs).
Proof. induction 1; cbn [flat_map]; auto using neutral_nil, neutral_app. Qed.

Lemma lex_instr_clean : forall s b, no_quote s = true -> no_backslash s = true ->
  lex_ok true (s ++ 34 :: b) = lex_ok false b.
Proof.
  induction s as [|c s IH]; intros b Hq Hb; cbn [app lex_ok].
  - reflexivity.
  - cbn [no_quote no_backslash forallb] in Hq, Hb. apply andb_prop in Hq as [Hq1 Hq2]. apply andb_prop in Hb as [Hb1 Hb2].
    apply negb_true_iff in Hq1, Hb1. rewrite Hq1, Hb1. apply IH; auto.
Qed.

Lemma neutral_quoted : forall s, no_quote s = true -> no_backslash s = true -> neutral (34 :: s ++ [34]).
Proof. intros s Hq Hb b. cbn [app lex_ok]. rewrite <- app_assoc. cbn [app]. apply lex_instr_clean; auto. Qed.

Definition edge_ok (c : N) : bool := negb (is_ascii_ws c) && (c <? 128).

(** the sequences that [str::trim] strips besides ASCII white space start and end with bytes >= 128 *)
Lemma strip_any_high : forall ps c r,
  forallb (fun p => match p with x :: _ => 128 <=? x | [] => false end) ps = true -> c <? 128 = true ->
  strip_any ps (c :: r) = None.
Proof.
  induction ps as [|[|x p] ps IH]; intros c r H Hc; cbn [forallb strip_any strip_prefix] in *; [reflexivity|discriminate|].
  apply andb_prop in H as [Hx H]. replace (x =? c) with false by lia. apply IH; assumption.
Qed.

Lemma strip_any_ascii : forall c r, c <? 128 = true -> strip_any uws_seqs (c :: r) = None.
Proof. intros c r H. apply strip_any_high; [reflexivity|exact H]. Qed.

Lemma strip_any_ascii_rev : forall c r, c <? 128 = true -> strip_any (map (@frev N) uws_seqs) (c :: r) = None.
Proof. intros c r H. apply strip_any_high; [reflexivity|exact H]. Qed.

Definition endok (t : bytes) : Prop := exists body c, t = body ++ [c] /\ edge_ok c = true.

Lemma utrim_id : forall t, head_is edge_ok t = true -> endok t -> utrim t = t.
Proof.
  intros [|c0 r] H0 (body & c & E & Hc); [discriminate|]. cbn [head_is] in H0. unfold edge_ok in *. apply andb_prop in H0 as [H0a H0b]. apply andb_prop in Hc as [Hca Hcb].
  apply negb_true_iff in H0a, Hca.
  assert (E1 : utrim_start (c0 :: r) = c0 :: r).
  { unfold utrim_start. cbn [length utrim_start_fuel]. rewrite H0a, (strip_any_ascii c0 r H0b). reflexivity. }
  unfold utrim. rewrite E1. unfold utrim_e. rewrite !frev_rev, E, rev_app_distr. cbn [rev app].
  rewrite app_length. cbn [length]. rewrite Nat.add_1_r. cbn [utrim_end_fuel].
  rewrite Hca, (strip_any_ascii_rev c (rev body) Hcb). cbn [rev]. rewrite rev_involutive. reflexivity.
Qed.

Lemma endok_app : forall a b, endok b -> endok (a ++ b).
Proof. intros a b (body & c & -> & H). exists (a ++ body), c. rewrite app_assoc. auto. Qed.
Lemma endok_last : forall body c, edge_ok c = true -> endok (body ++ [c]).
Proof. intros. exists body, c. auto. Qed.
Lemma endok_nonempty_all : forall t, t <> [] -> forallb edge_ok t = true -> endok t.
Proof.
  intros t Hne H. destruct (exists_last Hne) as (body & c & ->). exists body, c. split; auto.
  rewrite forallb_app in H. apply andb_prop in H as [_ H]. cbn in H. apply andb_prop in H. tauto.
Qed.

(** a text the lexer passes over outside a string literal, and whose last byte [utrim] keeps *)
Definition piece (t : bytes) : Prop := neutral t /\ endok t.

Lemma identchar_outc : forall c, is_ident_char c = true -> outc c = true /\ edge_ok c = true.
Proof.
  intros c H. unfold is_ident_char, is_alpha, is_digit in H.
  unfold outc, edge_ok, is_tws, is_digit, is_symchar, is_wordchar, is_alnum, is_alpha, is_digit, is_ascii_ws. lia.
Qed.

Lemma alpha_outc : forall c, is_alpha c = true -> outc c = true /\ edge_ok c = true.
Proof. intros c H. apply identchar_outc. unfold is_ident_char. rewrite H. reflexivity. Qed.

Lemma digit_outc : forall c, is_digit c = true -> outc c = true /\ edge_ok c = true.
Proof. intros c H. apply identchar_outc. unfold is_ident_char. rewrite H, orb_true_r. reflexivity. Qed.

Lemma forallb_outc_edge : forall (p : N -> bool) t, (forall c, p c = true -> outc c = true /\ edge_ok c = true) ->
  forallb p t = true -> forallb outc t = true /\ forallb edge_ok t = true.
Proof.
  intros p t H. induction t as [|c t IH]; intro Hp; [split; reflexivity|]. cbn [forallb] in *.
  apply andb_prop in Hp as [Hc Hp]. destruct (H c Hc) as [H1 H2]. destruct (IH Hp) as [I1 I2]. rewrite H1, H2, I1, I2. auto.
Qed.

Lemma piece_of_chars : forall t, t <> [] -> forallb outc t = true -> forallb edge_ok t = true -> piece t.
Proof. intros t Hne H1 H2. split; [apply neutral_plain; auto|apply endok_nonempty_all; auto]. Qed.

Lemma piece_app : forall a b, neutral a -> piece b -> piece (a ++ b).
Proof. intros a b Ha [Hb1 Hb2]. split; [apply neutral_app; auto|apply endok_app; auto]. Qed.
Lemma piece_cons : forall c b, outc c = true -> piece b -> piece (c :: b).
Proof. intros c b Hc [Hb1 Hb2]. split; [apply neutral_cons; auto|apply (endok_app [c]); auto]. Qed.

Lemma piece_blank : forall a b, piece a -> piece b -> piece (a ++ 32 :: b).
Proof. intros a b [Ha _] Hb. apply piece_app; auto. apply piece_cons; [reflexivity|exact Hb]. Qed.

Lemma piece_wrap : forall o c t, outc o = true -> outc c = true -> edge_ok c = true -> neutral t -> piece (o :: t ++ [c]).
Proof.
  intros o c t Ho Hc He Ht. split.
  - apply neutral_cons; auto. apply neutral_app; auto. apply neutral_plain. cbn [forallb]. rewrite Hc. reflexivity.
  - apply (endok_last (o :: t)), He.
Qed.

Lemma piece_flat_map : forall A (t : A -> bytes) xs a,
  piece a -> Forall (fun x => piece (t x)) xs -> piece (a ++ flat_map t xs).
Proof.
  intros A t xs a Pa H. revert a Pa. induction H as [|x xs Hx _ IH]; intros a Pa; cbn [flat_map].
  - rewrite app_nil_r. exact Pa.
  - rewrite app_assoc. apply IH, piece_app; [apply Pa|exact Hx].
Qed.

Lemma parse_command_query : forall fx t w r,
  piece t -> t = w ++ r -> word w = true -> head_is is_wordchar r = false -> ci_eqb w K_QUERY = true ->
  parse_command fx t = of_res CQuery (parse_query fx t).
Proof.
  intros fx t w r [Hn He] Et Hw Hr Eq.
  assert (Htrim : utrim t = t).
  { apply utrim_id; [|exact He]. subst t. destruct w as [|c0 w']; [discriminate|]. cbn [word all_alpha forallb] in Hw.
    apply andb_prop in Hw as [Hc _]. apply (alpha_outc c0 Hc). }
  assert (Hlex : lex_ok false t = true) by (rewrite <- (app_nil_r t), Hn; reflexivity).
  destruct (clean_valid _ (tokens_clean (length t) _ Hlex)) as [Hv Hd]. fold (tokenize t) in Hv, Hd.
  destruct (tokenize_word w r Hw Hr) as [ts Et']. rewrite <- Et in Et'.
  unfold parse_command, parse_command_with. rewrite Htrim, Hd, Hv, Et'. cbn [negb].
  (* [w] is QUERY up to letter case, so the switch tests QUERY itself *)
  apply bytes_eqb_eq in Eq. unfold ci_eqb. rewrite Eq. reflexivity.
Qed.
