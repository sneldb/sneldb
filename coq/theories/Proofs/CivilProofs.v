(** Proofs about Base/Civil.v: Hinnant's [days_from_civil] / [civil_from_days]
    are mutually inverse on the whole proleptic Gregorian calendar (all of Z).

    Both functions count days from 0000-03-01 in years that begin on 1 March, so
    that the leap day comes last.  [march1 y] is the day on which the March-based
    year [y] begins and [month_start mp] the day of that year on which its month
    [mp] (0 = March) begins.  [days_from_civil] adds the two; [civil_from_days]
    finds the [y] with [march1 y <= z < march1 (y + 1)] and then the [mp] with
    [month_start mp <= doy < month_start (mp + 1)].  Every step is linear
    arithmetic over quotients by constants, which [lia] decides.  That valid dates
    come back from their day number, and the bounds on the month and the year of a
    day, follow from [days_from_civil] increasing along the calendar ([dfc_month_lt]). *)
From Coq Require Import ZArith Bool Lia.
From Snel Require Import Base.Civil.
Open Scope Z_scope.
Section Calendar.
(* this hook is what makes every [lia] of the file take [/] and [mod] by constants apart
   (ZifyN and ZifyNat, whose loading has the same effect, are not required here) *)
Local Ltac Zify.zify_post_hook ::= Z.div_mod_to_equations.

Definition march1 (y : Z) : Z := 365 * y + y / 4 - y / 100 + y / 400.
Definition month_start (mp : Z) : Z := (153 * mp + 2) / 5.
Definition march_year (y m : Z) : Z := if m <=? 2 then y - 1 else y.
Definition march_month (m : Z) : Z := if 2 <? m then m - 3 else m + 9.

Lemma dfc_march : forall y m d,
  days_from_civil y m d
  = march1 (march_year y m) + month_start (march_month m) + d - 1 - 719468.
Proof. intros. unfold days_from_civil, march1, month_start, march_year, march_month. lia. Qed.

Lemma march_index : forall y m, 1 <= m <= 12 ->
  0 <= march_month m <= 11 /\ 12 * march_year y m + march_month m = 12 * y + m - 3.
Proof. intros y m Hm. unfold march_year, march_month. destruct (Z.leb_spec m 2), (Z.ltb_spec 2 m); lia. Qed.

Lemma march_inverse : forall y mp, 0 <= mp <= 11 ->
  let m := if mp <? 10 then mp + 3 else mp - 9 in
  1 <= m <= 12 /\ march_month m = mp /\ march_year (if m <=? 2 then y + 1 else y) m = y.
Proof.
  intros y mp H. cbv zeta. unfold march_year, march_month. destruct (Z.ltb_spec mp 10).
  - destruct (Z.leb_spec (mp + 3) 2), (Z.ltb_spec 2 (mp + 3)); lia.
  - destruct (Z.leb_spec (mp - 9) 2), (Z.ltb_spec 2 (mp - 9)); lia.
Qed.

Lemma year_length : forall y, march1 (y + 1) - march1 y = if is_leap (y + 1) then 366 else 365.
Proof. intros. destruct (is_leap (y + 1)) eqn:L; unfold is_leap in L; unfold march1; lia. Qed.

Lemma march1_lt : forall a b, march1 a < march1 b -> a < b.
Proof. intros a b. unfold march1. lia. Qed.

Lemma march1_shift : forall y e, march1 (y + e * 400) = march1 y + e * 146097.
Proof. intros. unfold march1. lia. Qed.

(** the year-of-era formula of [civil_from_days] *)
Lemma year_of_doe : forall doe, 0 <= doe < 146097 ->
  let yoe := (doe - doe / 1460 + doe / 36524 - doe / 146096) / 365 in
  0 <= yoe <= 399 /\ march1 yoe <= doe < march1 (yoe + 1).
Proof.
  (* the bounds first: with them in the context each inequality is a far smaller problem for [lia] than the conjunction *)
  intros doe H yoe. assert (B : 0 <= yoe <= 399) by (subst yoe; lia). split; [exact B|].
  split; subst yoe; unfold march1; lia.
Qed.

Lemma month_of_doy : forall doy, 0 <= doy <= 365 ->
  let mp := (5 * doy + 2) / 153 in 0 <= mp <= 11 /\ month_start mp <= doy < month_start (mp + 1).
Proof. intros doy H mp. subst mp. unfold month_start. lia. Qed.

Lemma valid_ymd_bounds : forall y m d,
  valid_ymd y m d = true <-> 1 <= m <= 12 /\ 1 <= d <= days_in_month y m.
Proof. intros. unfold valid_ymd. lia. Qed.

(** A month lasts as long as the table says, unless the year ends first: February ([mp = 11],
    30 days by the table) is the one month that the end of the year cuts off. *)
Lemma month_days : forall y m, 1 <= m <= 12 ->
  days_in_month y m
  = Z.min (month_start (march_month m + 1) - month_start (march_month m))
          (march1 (march_year y m + 1) - march1 (march_year y m) - month_start (march_month m)).
Proof.
  intros y m Hm. rewrite year_length. destruct (Z.eq_dec m 2) as [->|N2].
  - change (march_year y 2 + 1) with (y - 1 + 1). replace (y - 1 + 1) with y by lia.
    change (days_in_month y 2) with (if is_leap y then 29 else 28). destruct (is_leap y); reflexivity.
  - assert (C : m = 1 \/ m = 3 \/ m = 4 \/ m = 5 \/ m = 6 \/ m = 7 \/ m = 8 \/ m = 9 \/ m = 10
                \/ m = 11 \/ m = 12) by lia.
    repeat destruct C as [->|C]; try subst m; destruct (is_leap _); reflexivity.
Qed.

Lemma days_in_month_le_31 : forall y m, days_in_month y m <= 31.
Proof.
  intros y m. unfold days_in_month.
  destruct (m =? 2); [destruct (is_leap y); lia|].
  destruct ((m =? 4) || (m =? 6) || (m =? 9) || (m =? 11)); lia.
Qed.

Lemma civil_from_days_spec : forall z,
  let '(y, m, d) := civil_from_days z in
  1 <= m <= 12 /\
  march1 (march_year y m) <= z + 719468 < march1 (march_year y m + 1) /\
  z + 719468 = march1 (march_year y m) + month_start (march_month m) + d - 1 /\
  1 <= d <= month_start (march_month m + 1) - month_start (march_month m).
Proof.
  intros z.
  pose (z' := z + 719468). pose (era := z' / 146097). pose (doe := z' - era * 146097).
  assert (Hdoe : z + 719468 = era * 146097 + doe /\ 0 <= doe < 146097) by (subst doe era z'; lia).
  pose (yoe := (doe - doe / 1460 + doe / 36524 - doe / 146096) / 365).
  pose (doy := doe - (365 * yoe + yoe / 4 - yoe / 100)). pose (mp := (5 * doy + 2) / 153).
  change (civil_from_days z) with
    (let m := if mp <? 10 then mp + 3 else mp - 9 in
     (if m <=? 2 then yoe + era * 400 + 1 else yoe + era * 400, m, doy - (153 * mp + 2) / 5 + 1)).
  cbv zeta. fold (month_start mp).
  (* from here each quantity keeps only the facts the next step needs: [lia] expands every quotient it sees *)
  clearbody doe era. clear z'.
  destruct (year_of_doe doe (proj2 Hdoe)) as [Hy Hys]. fold yoe in Hy, Hys. clearbody yoe.
  assert (Edoy : doy = doe - march1 yoe) by (subst doy; unfold march1; lia). clearbody doy.
  pose proof (year_length yoe) as YL.
  assert (Hdoy : 0 <= doy <= 365) by (destruct (is_leap (yoe + 1)); lia).
  destruct (month_of_doy doy Hdoy) as [Hmp Hms]. fold mp in Hmp, Hms. clearbody mp.
  pose proof (march1_shift yoe era) as S0. pose proof (march1_shift (yoe + 1) era) as S1.
  replace (yoe + 1 + era * 400) with (yoe + era * 400 + 1) in S1 by lia.
  destruct (march_inverse (yoe + era * 400) mp Hmp) as (Hm & Em & Ey). rewrite Em, Ey. lia.
Qed.

Theorem civil_roundtrip_valid : forall z,
  let '(y, m, d) := civil_from_days z in
  days_from_civil y m d = z /\ valid_ymd y m d = true.
Proof.
  intros z. pose proof (civil_from_days_spec z) as H.
  destruct (civil_from_days z) as [[y m] d]. destruct H as (Hm & Hy & Hz & Hd).
  split; [rewrite dfc_march; clear - Hz; lia|].
  apply valid_ymd_bounds. rewrite (month_days y m Hm). lia.
Qed.

Theorem civil_roundtrip : forall z,
  let '(y, m, d) := civil_from_days z in days_from_civil y m d = z.
Proof.
  intros z. pose proof (civil_roundtrip_valid z) as H.
  destruct (civil_from_days z) as [[y m] d]. exact (proj1 H).
Qed.

Theorem civil_from_days_valid : forall z,
  let '(y, m, d) := civil_from_days z in valid_ymd y m d = true.
Proof.
  intros z. pose proof (civil_roundtrip_valid z) as H.
  destruct (civil_from_days z) as [[y m] d]. exact (proj2 H).
Qed.

Lemma dfc_day : forall y m d, days_from_civil y m d = days_from_civil y m 1 + d - 1.
Proof. intros. rewrite !dfc_march. lia. Qed.

(** [days_from_civil] increases along the calendar: a valid date comes before the first of every later month.
    [12 * y + m] counts the months. *)
Lemma dfc_month_lt : forall y1 m1 d1 y2 m2,
  valid_ymd y1 m1 d1 = true -> 1 <= m2 <= 12 -> 12 * y1 + m1 < 12 * y2 + m2 ->
  days_from_civil y1 m1 d1 < days_from_civil y2 m2 1.
Proof.
  intros y1 m1 d1 y2 m2 Hv Hm2 L. rewrite !dfc_march.
  apply valid_ymd_bounds in Hv. destruct Hv as [Hm1 Hd]. rewrite month_days in Hd by exact Hm1.
  destruct (march_index y1 m1 Hm1) as [M1 I1], (march_index y2 m2 Hm2) as [M2 I2].
  assert (0 <= month_start (march_month m2)) by (unfold month_start; lia).
  destruct (Z.lt_trichotomy (march_year y1 m1) (march_year y2 m2)) as [Y|[Y|Y]]; [| |lia].
  - pose proof (march1_lt (march_year y2 m2) (march_year y1 m1 + 1)). lia.
  - assert (month_start (march_month m1 + 1) <= month_start (march_month m2)) by (unfold month_start; lia).
    rewrite Y in *. lia.
Qed.

Corollary days_from_civil_inj : forall y1 m1 d1 y2 m2 d2,
  valid_ymd y1 m1 d1 = true -> valid_ymd y2 m2 d2 = true ->
  days_from_civil y1 m1 d1 = days_from_civil y2 m2 d2 -> (y1, m1, d1) = (y2, m2, d2).
Proof.
  intros y1 m1 d1 y2 m2 d2 H1 H2 E.
  destruct (proj1 (valid_ymd_bounds _ _ _) H1) as [B1 D1], (proj1 (valid_ymd_bounds _ _ _) H2) as [B2 D2].
  pose proof (dfc_month_lt y1 m1 d1 y2 m2 H1 B2) as L12. pose proof (dfc_month_lt y2 m2 d2 y1 m1 H2 B1) as L21.
  rewrite (dfc_day y1 m1 d1), (dfc_day y2 m2 d2) in *.
  assert (y1 = y2 /\ m1 = m2) as [-> ->] by lia. assert (d1 = d2) as -> by lia. reflexivity.
Qed.

Theorem civil_of_days_from_civil : forall y m d,
  valid_ymd y m d = true -> civil_from_days (days_from_civil y m d) = (y, m, d).
Proof.
  intros y m d Hv. pose proof (civil_roundtrip_valid (days_from_civil y m d)) as H.
  destruct (civil_from_days (days_from_civil y m d)) as [[y' m'] d']. destruct H as [E Hv'].
  exact (days_from_civil_inj _ _ _ _ _ _ Hv' Hv E).
Qed.

Lemma month_interval : forall z,
  let '(y, m, _) := civil_from_days z in
  days_from_civil y m 1 <= z
  < (if m =? 12 then days_from_civil (y + 1) 1 1 else days_from_civil y (m + 1) 1).
Proof.
  intros z. pose proof (civil_roundtrip_valid z) as H.
  destruct (civil_from_days z) as [[y m] d]. destruct H as [<- Hv].
  destruct (proj1 (valid_ymd_bounds _ _ _) Hv) as [Hm Hd].
  split; [rewrite (dfc_day y m d); lia|].
  destruct (Z.eqb_spec m 12); apply dfc_month_lt; (exact Hv || lia).
Qed.

Lemma year_interval : forall z,
  let '(y, _, _) := civil_from_days z in days_from_civil y 1 1 <= z < days_from_civil (y + 1) 1 1.
Proof.
  intros z. pose proof (civil_roundtrip_valid z) as H.
  destruct (civil_from_days z) as [[y m] d]. destruct H as [<- Hv].
  destruct (proj1 (valid_ymd_bounds _ _ _) Hv) as [Hm Hd].
  split; [|apply dfc_month_lt; (exact Hv || lia)].
  rewrite (dfc_day y m d). destruct (Z.eq_dec m 1) as [->|N1]; [lia|].
  pose proof (dfc_month_lt y 1 1 y m eq_refl Hm). lia.
Qed.

(** -719528 is 0000-01-01, 2932896 is 9999-12-31 *)
Theorem four_digit_year : forall z,
  -719528 <= z <= 2932896 ->
  let '(y, m, d) := civil_from_days z in 0 <= y <= 9999.
Proof.
  intros z Hz. pose proof (civil_roundtrip_valid z) as H.
  destruct (civil_from_days z) as [[y m] d]. destruct H as [<- Hv].
  destruct (proj1 (valid_ymd_bounds _ _ _) Hv) as [Hm Hd].
  pose proof (dfc_month_lt y m d 0 1 Hv) as L. change (days_from_civil 0 1 1) with (-719528) in L.
  pose proof (dfc_month_lt 9999 12 31 y m eq_refl Hm) as U.
  change (days_from_civil 9999 12 31) with 2932896 in U. pose proof (dfc_day y m d). lia.
Qed.

End Calendar.

Example day_0000_01_01 : days_from_civil 0 1 1 = -719528. Proof. reflexivity. Qed.
Example day_9999_12_31 : days_from_civil 9999 12 31 = 2932896. Proof. reflexivity. Qed.
Example day_1970_01_01 : days_from_civil 1970 1 1 = 0. Proof. reflexivity. Qed.
Example civil_leap_day_2000 : civil_from_days 11016 = (2000, 2, 29). Proof. reflexivity. Qed.
Example civil_1900_not_leap : civil_from_days (-25508) = (1900, 3, 1)
  /\ civil_from_days (-25509) = (1900, 2, 28). Proof. split; reflexivity. Qed.
Example civil_before_epoch : civil_from_days (-1) = (1969, 12, 31). Proof. reflexivity. Qed.
