(** Proofs about Model/EnumBitmap.v (C08 part B).  The index is a zone map of per-zone bitsets ([build_zones_eq]),
    so a zone is reported ([ZoneSelProofs.zone_map_sound]) once its bitsets pass the operator's test; the bitset of
    a variant is non-empty iff a row of the zone holds that variant ([zone_marks]). *)
From Coq Require Import NArith ZArith List Bool Lia.
From Snel Require Import Base.Bytes Gen.Params Model.ZoneSel Model.EnumBitmap Proofs.BytesFacts Proofs.ZoneSelProofs.
Import ListNotations.
Open Scope N_scope.

Lemma position_nth : forall vs v k, position vs v = Some k -> nth_error vs k = Some v.
Proof.
  induction vs as [|x r IH]; intros v k; cbn [position]; [discriminate|].
  destruct (bytes_eqb x v) eqn:E.
  - intros [= <-]. apply bytes_eqb_eq in E. now subst.
  - destruct (position r v) as [j|] eqn:P; [|discriminate].
    intros [= <-]. cbn [nth_error]. now apply IH.
Qed.

Lemma position_in : forall vs v, In v vs -> exists k, position vs v = Some k.
Proof.
  induction vs as [|x r IH]; intros v Hin; [contradiction|].
  cbn [position]. destruct (bytes_eqb x v) eqn:E; [now exists O|].
  destruct Hin as [->|Hin]; [now rewrite bytes_eqb_refl in E|].
  destruct (IH v Hin) as [k ->]. now eexists.
Qed.

Lemma position_none : forall vs v, position vs v = None -> ~ In v vs.
Proof.
  intros vs v P Hin. destruct (position_in vs v Hin) as [k E]. congruence.
Qed.

Lemma not_in_position_none : forall vs v, ~ In v vs -> position vs v = None.
Proof.
  intros vs v H. destruct (position vs v) as [k|] eqn:P; [|reflexivity].
  exfalso. apply H. apply position_nth in P. eapply nth_error_In; eassumption.
Qed.

Lemma position_lt : forall vs v k, position vs v = Some k -> (k < length vs)%nat.
Proof.
  intros vs v k P. apply position_nth in P. apply nth_error_Some. congruence.
Qed.

Lemma position_inj : forall vs v w k, position vs v = Some k -> position vs w = Some k -> v = w.
Proof.
  intros vs v w k Pv Pw. apply position_nth in Pv. apply position_nth in Pw. congruence.
Qed.

Lemma set_bit_nonzero : forall b bit, N.lor b (N.shiftl 1 bit) <> 0.
Proof. intros b bit H. apply N.lor_eq_0_iff in H as [_ H]. rewrite N.shiftl_1_l in H. now apply N.pow_nonzero in H. Qed.

Lemma nth_error_upd_same : forall (A : Type) k (x : A) l, (k < length l)%nat -> nth_error (upd_nth k x l) k = Some x.
Proof.
  intros A k x l. revert k. induction l as [|y r IH]; intros k Hk; cbn [length] in Hk; [lia|].
  destruct k as [|k]; cbn [upd_nth nth_error]; [reflexivity|]. apply IH. lia.
Qed.
Lemma nth_error_upd_other : forall (A : Type) k j (x : A) l, k <> j -> nth_error (upd_nth k x l) j = nth_error l j.
Proof.
  intros A k j x l. revert k j. induction l as [|y r IH]; intros k j Hne.
  - destruct k; reflexivity.
  - destruct k as [|k], j as [|j]; cbn [upd_nth nth_error]; try reflexivity; try congruence.
    apply IH. congruence.
Qed.

Lemma upd_nth_length : forall (A : Type) k (x : A) l, length (upd_nth k x l) = length l.
Proof.
  intros A k x l. revert k. induction l as [|y r IH]; intros k; destruct k; cbn [upd_nth length]; try reflexivity.
  now rewrite IH.
Qed.

Lemma set_bit_at_upd : forall bs k bit,
  set_bit_at bs k bit = option_map (fun b => upd_nth k (N.lor b (N.shiftl 1 bit)) bs) (nth_error bs k).
Proof.
  induction bs as [|b r IH]; intros [|k] bit; cbn [set_bit_at nth_error upd_nth option_map]; try reflexivity.
  rewrite IH. now destruct (nth_error r k).
Qed.

Lemma has_any_zeros : forall k, has_any (repeat 0 k) = false.
Proof. induction k as [|k IH]; [reflexivity | exact IH]. Qed.

Lemma has_any_upd : forall bs k x, (k < length bs)%nat -> x <> 0 -> has_any (upd_nth k x bs) = true.
Proof.
  intros bs k x Hk Hx. apply existsb_exists. exists x. split; [|now destruct (N.eqb_spec x 0)].
  eapply nth_error_In, nth_error_upd_same, Hk.
Qed.

Lemma set_bit_has_any : forall bs i bs', set_bit bs i = Some bs' -> has_any bs' = true.
Proof.
  intros bs i bs'. unfold set_bit. rewrite set_bit_at_upd. destruct (nth_error bs _) as [b|] eqn:Hn; [|discriminate].
  intros [= <-]. apply has_any_upd; [apply nth_error_Some; congruence | apply set_bit_nonzero].
Qed.

(** the bitset of [vid] is non-empty: the test of [=] *)
Definition marked (bitsets : list (list N)) (vid : nat) : Prop := zone_included OEq vid bitsets = true.

Lemma marked_upd : forall B j bs vid, (j < length B)%nat -> has_any bs = true ->
  (marked (upd_nth j bs B) vid <-> j = vid \/ marked B vid).
Proof.
  intros B j bs vid Hj Hany. unfold marked. cbn [zone_included]. destruct (Nat.eq_dec j vid) as [->|Hne].
  - rewrite nth_error_upd_same by exact Hj. split; [now left | intros _; exact Hany].
  - rewrite nth_error_upd_other by exact Hne. tauto.
Qed.

Lemma add_rows_marked : forall variants vals i B B' vid,
  add_rows variants vals i B = Some B' ->
  (marked B' vid <-> marked B vid \/ Exists (fun v => position variants v = Some vid) vals).
Proof.
  intros variants vals. induction vals as [|x r IH]; intros i B B' vid; cbn [add_rows].
  - intros [= <-]. rewrite Exists_nil. tauto.
  - rewrite Exists_cons. destruct (position variants x) as [j|].
    + destruct (nth_error B j) as [bs|] eqn:Hn; [|discriminate]. destruct (set_bit bs i) as [bs'|] eqn:Hs; [|discriminate].
      intros H. rewrite (IH _ _ _ vid H), marked_upd by (apply nth_error_Some; congruence) || exact (set_bit_has_any _ _ _ Hs).
      split; [intros [[->|Hm]|E] | intros [Hm|[[= ->]|E]]]; auto.
    + intros H. rewrite (IH _ _ _ vid H). split; [intros [Hm|E] | intros [Hm|[[=]|E]]]; auto.
Qed.

Theorem zone_marks : forall variants rpz vals B vid,
  add_zone_values variants rpz vals = Some B ->
  (marked B vid <-> exists v, In v vals /\ position variants v = Some vid).
Proof.
  intros variants rpz vals B vid H. rewrite (add_rows_marked _ _ _ _ _ vid H), Exists_exists.
  split; [intros [Hm|E]; [|exact E] | now right]. unfold marked in Hm. cbn [zone_included] in Hm.
  destruct (nth_error _ vid) as [bs|] eqn:Hn; [|discriminate]. apply nth_error_In, repeat_spec in Hn. subst bs.
  unfold alloc_bitmap in Hm. now rewrite has_any_zeros in Hm.
Qed.

Lemma any_other_iff : forall B i vid,
  any_other B i vid = true <-> exists j, (i + j)%nat <> vid /\ marked B j.
Proof.
  induction B as [|b r IH]; intros i vid; cbn [any_other].
  - split; [discriminate | intros (j & _ & Hm); now destruct j].
  - rewrite orb_true_iff, andb_true_iff, negb_true_iff, Nat.eqb_neq, IH. split.
    + intros [[Hne Hany]|(j & Hne & Hm)]; [exists O | exists (S j)]; (split; [lia | assumption]).
    + intros ([|j] & Hne & Hm); [left | right; exists j]; (split; [lia | exact Hm]).
Qed.

Lemma build_zones_eq : forall variants rpz zones acc,
  build_zones variants rpz zones acc =
  if forallb (fun z => if add_zone_values variants rpz (snd z) then true else false) zones
  then Some (am_fill (add_zone_values variants rpz) zones acc) else None.
Proof.
  intros variants rpz. induction zones as [|[z vs] r IH]; intros acc; [reflexivity|].
  cbn [build_zones forallb snd]. rewrite am_fill_cons. destruct (add_zone_values variants rpz vs); [apply IH | reflexivity].
Qed.

Lemma build_all_inv : forall variants zones ix,
  build_all variants zones = Some ix ->
  e_variants ix = variants /\
  build_zones variants (e_rpz ix) zones [] = Some (e_zones ix).
Proof.
  intros variants zones ix. unfold build_all, build_with.
  match goal with |- context [build_zones variants ?r zones []] => destruct (build_zones variants r zones []) as [zs|] eqn:E end;
    [|discriminate].
  intros [= <-]. cbn. split; [reflexivity|exact E].
Qed.

(** The selector theorems of this file hold for these values of Gen/Params.v: the pruner answers [!=], and [None]
    for a literal that is not a declared variant; the selector asks the pruner whatever the operator, and takes
    every zone when the answer is [None] and the operator is not [=]. *)
Lemma enum_handles_neq_flag : zidx_enum_handles_neq = true. Proof. reflexivity. Qed.
Lemma enum_undeclared_none_flag : zidx_enum_undeclared_none = true. Proof. reflexivity. Qed.
Lemma enum_noneq_bypass_flag : zidx_sel_enum_noneq_bypass = false. Proof. reflexivity. Qed.
Lemma enum_none_noneq_all_flag : zidx_sel_enum_none_noneq_all = true. Proof. reflexivity. Qed.

Lemma bypass_enum : forall op, bypass SEnum op = false.
Proof. intros op. exact (bypass_off SEnum op enum_noneq_bypass_flag). Qed.

Lemma select_enum_none : forall ix all op lit,
  op <> OEq -> attempt ix op lit = None -> select_enum ix all op lit = all.
Proof.
  intros ix all op lit Hop Ha. unfold select_enum. rewrite Ha. apply select_none_op_all; [apply bypass_enum|].
  unfold none_op_all, none_noneq_all. rewrite enum_none_noneq_all_flag. destruct op; [congruence | reflexivity ..].
Qed.

Lemma enum_zone_reported : forall variants zones ix zid vals lit all op,
  build_all variants zones = Some ix -> NoDup (map fst zones) -> In (zid, vals) zones -> In lit variants ->
  op_answered op = true ->
  (forall vid B, position variants lit = Some vid -> add_zone_values variants (e_rpz ix) vals = Some B ->
                 zone_included op vid B = true) ->
  In zid (select_enum (Some ix) all op lit).
Proof.
  intros variants zones ix zid vals lit all op Hb Hnd Hin Hdecl Hans Hinc.
  destruct (build_all_inv _ _ _ Hb) as [Hvar Hz]. rewrite build_zones_eq in Hz.
  destruct (forallb _ zones) eqn:Hall; [|discriminate]. injection Hz as Ez.
  apply (proj1 (forallb_forall _ _)) with (x := (zid, vals)) in Hall; [|exact Hin]. cbn [snd] in Hall.
  destruct (position_in _ _ Hdecl) as [vid P].
  unfold select_enum, attempt. rewrite Hans, Hvar, P. cbn [negb]. rewrite select_some by apply bypass_enum.
  unfold prune. rewrite <- Ez.
  destruct (add_zone_values variants (e_rpz ix) vals) as [B|] eqn:Ha; [|discriminate].
  exact (zone_map_sound _ (zone_included op vid) zones [] zid vals B Hnd Hin Ha (Hinc vid B P eq_refl)).
Qed.

Theorem enum_eq_sound : forall variants zones ix zid vals lit all,
  build_all variants zones = Some ix ->
  NoDup (map fst zones) ->
  In (zid, vals) zones ->
  In lit variants ->
  (exists v, In v vals /\ row_matches OEq v lit = true) ->
  In zid (select_enum (Some ix) all OEq lit).
Proof.
  intros variants zones ix zid vals lit all Hb Hnd Hin Hdecl [v [Hv Hm]].
  cbn [row_matches] in Hm. apply bytes_eqb_eq in Hm. subst v.
  apply (enum_zone_reported variants zones ix zid vals); try assumption; [reflexivity|].
  intros vid B P Ha. apply (zone_marks _ _ _ _ vid Ha). now exists lit.
Qed.

Theorem enum_neq_sound : forall variants zones ix zid vals lit all,
  build_all variants zones = Some ix ->
  NoDup (map fst zones) ->
  In (zid, vals) zones ->
  In lit variants ->
  (exists v, In v vals /\ In v variants /\ row_matches ONeq v lit = true) ->
  In zid (select_enum (Some ix) all ONeq lit).
Proof.
  intros variants zones ix zid vals lit all Hb Hnd Hin Hdecl [v [Hv [Hvd Hm]]].
  cbn [row_matches] in Hm. apply negb_true_iff in Hm.
  apply (enum_zone_reported variants zones ix zid vals); try assumption; [exact enum_handles_neq_flag|].
  intros vid B P Ha. destruct (position_in _ _ Hvd) as [j Pj]. apply any_other_iff. exists j.
  split; [|apply (zone_marks _ _ _ _ j Ha); now exists v].
  cbn. intros ->. pose proof (position_inj _ _ _ _ Pj P) as ->.
  rewrite bytes_eqb_refl in Hm. discriminate.
Qed.

Example enum_sound_hyps_ok :
  let variants := [[97]; [98]] in
  let zones := [(0, [[97]; [97]]); (1, [[98]; [97]])] in
  exists ix, build_all variants zones = Some ix /\ NoDup (map fst zones) /\
             In (1, [[98]; [97]]) zones /\ In [98] variants /\
             row_matches OEq [98] [98] = true /\ row_matches ONeq [97] [98] = true /\
             select_enum (Some ix) [0; 1] OEq [98] = [1] /\
             select_enum (Some ix) [0; 1] ONeq [98] = [0; 1].
Proof.
  eexists. split; [vm_compute; reflexivity|].
  repeat split; try (cbn; tauto).
  repeat constructor; cbn; intuition discriminate.
Qed.

(** the pruner answers [None] and the selector falls back to every zone of the segment (sneldb commit
    f801704): every stored row differs from such a literal *)
Theorem enum_neq_undeclared_sound : forall ix variants lit all zid,
  (match ix with Some x => e_variants x = variants | None => True end) ->
  ~ In lit variants ->
  In zid all ->
  In zid (select_enum ix all ONeq lit).
Proof.
  intros ix variants lit all zid Hv Hnd Hall. rewrite select_enum_none; [exact Hall | discriminate |].
  unfold attempt. destruct ix as [x|]; [|now destruct (op_answered ONeq)].
  rewrite Hv, (not_in_position_none variants lit Hnd), enum_undeclared_none_flag. now destruct (op_answered ONeq).
Qed.

(** the witness of class [EnumNeqUndeclaredLiteral] (known/C08.json, status fixed) keeps its zone *)
Example enum_neq_undeclared_witness_passes :
  exists ix, build_all [[97]; [98]] [(0, [[97]])] = Some ix /\
             select_enum (Some ix) [0] ONeq [122; 122; 122] = [0].
Proof. eexists. split; vm_compute; reflexivity. Qed.

(** the pruner answers [None] and the selector falls back to every zone of the segment (sneldb commit
    01eee7e) *)
Theorem enum_unserved_op_all_zones : forall ix all op lit,
  op <> OEq -> op <> ONeq -> select_enum ix all op lit = all.
Proof.
  intros ix all op lit H1 H2. apply select_enum_none; [exact H1|].
  unfold attempt. destruct op; try congruence; reflexivity.
Qed.

(** the witness of class [EnumRangeOp] (known/C08.json, status fixed) keeps its zone *)
Example enum_range_op_witness_passes :
  exists ix, build_all [[97]; [98]] [(0, [[98]])] = Some ix /\
             select_enum (Some ix) [0] OGt [97] = [0].
Proof. eexists. split; vm_compute; reflexivity. Qed.

(** [rows_per_zone] is cast to u16: a first zone of 65536 rows gives 0, the bitmaps are empty and the first
    row that holds a declared variant panics ([None]) (class [EnumZoneLongerThanBitmap], status known). *)
Lemma add_zone_values_rpz0 : forall variants v r,
  In v variants -> add_zone_values variants 0 (v :: r) = None.
Proof.
  intros variants v r Hin. unfold add_zone_values. cbn [add_rows].
  destruct (position_in _ _ Hin) as [vid P]. rewrite P.
  change (alloc_bitmap 0) with (@nil N).
  destruct (nth_error (repeat [] (length variants)) vid) as [bs|] eqn:Hn; [|reflexivity].
  apply nth_error_In, repeat_spec in Hn. subst bs. reflexivity.
Qed.

Theorem enum_rows_per_zone_wrap_refuted :
  exists n, 0 < n /\ rows_per_zone_of n = 0 /\
    forall variants v r, In v variants -> add_zone_values variants (rows_per_zone_of n) (v :: r) = None.
Proof.
  exists 65536. split; [lia|]. split; [vm_compute; reflexivity|].
  intros variants v r Hin. change (rows_per_zone_of 65536) with 0. now apply add_zone_values_rpz0.
Qed.

(** That the rows hold declared variants only is what STORE admits (C06); [all] is the list of all zones of the
    segment. *)
Theorem enum_sound_all_operators : forall variants zones ix zid vals op lit all,
  build_all variants zones = Some ix ->
  NoDup (map fst zones) ->
  In (zid, vals) zones ->
  In zid all ->
  (forall v, In v vals -> In v variants) ->
  (exists v, In v vals /\ row_matches op v lit = true) ->
  In zid (select_enum (Some ix) all op lit).
Proof.
  intros variants zones ix zid vals op lit all Hb Hnd Hin Hall Hdecl [v [Hv Hm]].
  destruct op; try (rewrite enum_unserved_op_all_zones by discriminate; exact Hall).
  - assert (v = lit) by (now apply bytes_eqb_eq). subst v.
    eapply enum_eq_sound; eauto.
  - destruct (in_dec (list_eq_dec N.eq_dec) lit variants) as [Hd|Hu].
    + eapply enum_neq_sound; eauto.
    + eapply enum_neq_undeclared_sound with (variants := variants); eauto.
      destruct (build_all_inv _ _ _ Hb) as [Hvar _]. exact Hvar.
Qed.

Lemma upd_nth_forall : forall (A : Type) (P : A -> Prop) k x l, Forall P l -> P x -> Forall P (upd_nth k x l).
Proof.
  intros A P k x l. revert k. induction l as [|y r IH]; intros k HF Hx; destruct k; cbn [upd_nth]; try assumption.
  - inversion HF; subst. now constructor.
  - inversion HF; subst. constructor; [assumption|now apply IH].
Qed.

Lemma add_rows_ok : forall variants vals i B nb,
  length B = length variants -> Forall (fun bs => length bs = nb) B ->
  i + N.of_nat (length vals) <= 8 * N.of_nat nb ->
  add_rows variants vals i B <> None.
Proof.
  intros variants vals. induction vals as [|v r IH]; intros i B nb HL HF Hb; cbn [add_rows]; [discriminate|].
  cbn [length] in Hb.
  destruct (position variants v) as [vid|] eqn:P.
  - pose proof (position_lt _ _ _ P) as Hlt.
    destruct (nth_error B vid) as [bs|] eqn:Hn; [|apply nth_error_None in Hn; lia].
    assert (Hbs : length bs = nb).
    { rewrite Forall_forall in HF. apply HF. eapply nth_error_In; eassumption. }
    unfold set_bit. rewrite set_bit_at_upd.
    destruct (nth_error bs (N.to_nat (i / 8))) as [b|] eqn:Hb8.
    2: { apply nth_error_None in Hb8. assert (i / 8 < N.of_nat nb) by (apply N.div_lt_upper_bound; lia). lia. }
    cbn [option_map]. apply (IH (i + 1) _ nb).
    + now rewrite upd_nth_length.
    + apply upd_nth_forall; [assumption | now rewrite upd_nth_length].
    + lia.
  - apply (IH (i + 1) B nb); [assumption|assumption|lia].
Qed.

Lemma add_zone_values_ok : forall variants rpz vals,
  N.of_nat (length vals) <= rpz -> add_zone_values variants rpz vals <> None.
Proof.
  intros variants rpz vals Hlen. unfold add_zone_values.
  apply (add_rows_ok variants vals 0 _ (N.to_nat ((rpz + 7) / 8))).
  - apply repeat_length.
  - apply Forall_forall. intros bs Hin. apply repeat_spec in Hin. subst bs.
    unfold alloc_bitmap. apply repeat_length.
  - rewrite N2Nat.id. pose proof (N.div_mod (rpz + 7) 8 ltac:(lia)) as D.
    pose proof (N.mod_lt (rpz + 7) 8 ltac:(lia)). lia.
Qed.

(** The flush planner's zones (the first zone is the longest) can always be indexed as
    long as a zone has fewer than 2^16 rows. *)
Theorem enum_build_ok : forall variants z0 vals0 rest,
  N.of_nat (length vals0) < 2 ^ zidx_rpz_bits ->
  (forall zid vals, In (zid, vals) rest -> (length vals <= length vals0)%nat) ->
  build_all variants ((z0, vals0) :: rest) <> None.
Proof.
  intros variants z0 vals0 rest Hsmall Hlen. unfold build_all, build_with.
  unfold rows_per_zone_of. rewrite N.mod_small, build_zones_eq by assumption.
  match goal with |- context [forallb ?p ?l] => replace (forallb p l) with true; [discriminate|] end.
  symmetry. apply forallb_forall. intros [zid vals] Hin. cbn [snd].
  destruct (add_zone_values _ _ vals) eqn:E; [reflexivity|]. exfalso. revert E. apply add_zone_values_ok.
  destruct Hin as [[= <- <-]|Hin]; [lia|]. specialize (Hlen zid vals Hin). lia.
Qed.
