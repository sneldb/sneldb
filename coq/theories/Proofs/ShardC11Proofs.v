(** Proofs about Model/Shard.v + Model/Compaction.v for C11: published segments
    are immutable and appear or disappear as a whole.

    Histories are guarded ([hist_ok]: the side conditions under which the engine takes
    a step).  [CI] relates the names in the live list, the index, the directories and
    the flush queue.  [dir_cases] says what one guarded step does to the directory of
    one name; the theorems about single steps and about the rows of a live segment are
    read off it.  Within a process lifetime the planner's bookkeeping is a function of
    the labels ([prun_lab_mono], [prun_routs]), and a level-0 name that has had a
    directory is used up ([Closed]) and gets none again. *)
From Coq Require Import NArith List Bool Lia.
From Snel Require Import Gen.Params Model.Shard Proofs.ShardC03Proofs Proofs.ShardC04Proofs Model.Compaction
  Proofs.CompactionProofs.
Import ListNotations.
Open Scope N_scope.

Definition has_dirb (ds : list segdir) (i : N) : bool := existsb (fun d => sid d =? i) ds.

Lemma has_dirb_true ds i : has_dirb ds i = true <-> has_dir ds i.
Proof.
  unfold has_dirb, has_dir. rewrite existsb_exists. split; intros (d & Hd & E); exists d; split; auto;
    apply N.eqb_eq; exact E.
Qed.

Lemma has_dirb_false ds i : has_dirb ds i = false <-> forall d, In d ds -> sid d <> i.
Proof.
  split.
  - intros H d Hd E. assert (T : has_dirb ds i = true) by (apply has_dirb_true; exists d; auto). congruence.
  - intros H. destruct (has_dirb ds i) eqn:E; [|reflexivity]. apply has_dirb_true in E as (d & Hd & E).
    exfalso. exact (H d Hd E).
Qed.

Lemma has_dirb_false_not ds i : has_dirb ds i = false -> ~ has_dir ds i.
Proof. intros H Hd. apply has_dirb_true in Hd. congruence. Qed.

(** A directory is complete unless a flush job of that segment has not reached
    the index entry yet (the directory of a compaction output is written by the
    single step [CWrite]). *)
Definition CompleteC (ds : list segdir) (js : list job) (i : N) : Prop :=
  has_dir ds i /\ forall j, In j js -> jseg j = i -> written (jstage j) = true.
Definition Complete (s : shard) (i : N) : Prop := CompleteC (dirs s) (jobs s) i.

Definition cstep_ok (s : shard) (l : clabel) : bool :=
  match l with
  | CBase x => negb (is_crash x) && (alloc0 (step s x) <=? level_span)
  | CWrite b => (level_span <=? b_out b) && negb (has_dirb (dirs s) (b_out b))
  | CIndex b => (level_span <=? b_out b) && has_dirb (dirs s) (b_out b)
  | CLive b dr => (level_span <=? b_out b) && has_dirb (dirs s) (b_out b)
  | CReclaim dr =>
      forallb (fun i => negb (memb i (live s)) && negb (memb i (index_labels (index s)))
                        && negb (memb i (map jseg (jobs s)))) dr
  end.

Fixpoint hist_ok (s : shard) (ls : list clabel) : bool :=
  match ls with
  | [] => true
  | l :: r => cstep_ok s l && hist_ok (cstep s l) r
  end.

Lemma hist_ok_app s a : forall b, hist_ok s (a ++ b) = hist_ok s a && hist_ok (crun s a) b.
Proof.
  revert s. induction a as [|l a IH]; intros s b; cbn [app hist_ok crun fold_left]; [reflexivity|].
  rewrite IH, andb_assoc. reflexivity.
Qed.

Lemma crun_app s a b : crun s (a ++ b) = crun (crun s a) b.
Proof. unfold crun. apply fold_left_app. Qed.

Lemma cstep_ok_cases s l :
  cstep_ok s l = true ->
  match l with
  | CBase x => is_crash x = false /\ alloc0 (step s x) <= level_span
  | CWrite b => level_span <= b_out b /\ forall d, In d (dirs s) -> sid d <> b_out b
  | CIndex b | CLive b _ => level_span <= b_out b /\ has_dir (dirs s) (b_out b)
  | CReclaim dr => forall i, In i dr -> ~ In i (live s) /\ ~ In i (index_labels (index s)) /\ ~ In i (map jseg (jobs s))
  end.
Proof.
  destruct l as [x|b|b|b dr|dr]; cbn [cstep_ok]; rewrite ?andb_true_iff, ?negb_true_iff, ?N.leb_le, ?has_dirb_true, ?has_dirb_false;
    try exact (fun H => H).
  rewrite forallb_forall. intros G i Hi. apply G in Hi. rewrite !andb_true_iff, !negb_true_iff, !memb_false in Hi. tauto.
Qed.

Record CIC (lv : list N) (ds : list segdir) (ix : list (N * list N)) (js : list job) (al : N) : Prop := {
  c_al : al <= level_span;
  c_jlt : forall j, In j js -> jseg j < al;
  c_jnd : NoDup (map jseg js);
  c_dlt : forall d, In d ds -> sid d < al \/ level_span <= sid d;
  c_dnd : NoDup (map sid ds);
  c_live : forall i, In i lv -> CompleteC ds js i;
  c_idx : forall i, In i (index_labels ix) -> CompleteC ds js i;
  c_wr : forall j, In j js -> written (jstage j) = true -> has_dir ds (jseg j) }.

Definition CI (s : shard) : Prop := CIC (live s) (dirs s) (index s) (jobs s) (alloc0 s).

(** the fields of [CIC], in order *)
Ltac dC C := destruct C as [Cal Cjlt Cjnd Cdlt Cdnd Clive Cidx Cwr].

Lemma ci_init c : CI (init c).
Proof.
  unfold CI, init. cbn [live dirs index jobs alloc0].
  split; cbn [index_labels map In]; try (intros; contradiction); try constructor. unfold level_span. lia.
Qed.

Lemma cic_rotate lv ds ix js al m :
  CIC lv ds ix js al -> N.succ al <= level_span ->
  CIC lv ds ix (js ++ [mkJob al m StQueued]) (N.succ al).
Proof.
  intros C Hal. dC C.
  assert (Hfresh : forall i, has_dir ds i -> i <> al).
  { intros i (d & Hd & E) ->. apply Cdlt in Hd. lia. }
  assert (Hc : forall i, CompleteC ds js i -> CompleteC ds (js ++ [mkJob al m StQueued]) i).
  { intros i [H1 H2]. split; [exact H1|]. intros j Hj E. apply in_app_iff in Hj as [Hj|[<-|[]]]; [auto|].
    cbn [jseg] in E. exfalso. exact (Hfresh i H1 (eq_sym E)). }
  split; auto. (* [c_live], [c_idx] by [Hc] *)
  - intros j Hj. apply in_app_iff in Hj as [Hj|[<-|[]]]; [apply Cjlt in Hj; lia | cbn [jseg]; lia].
  - rewrite map_app. cbn [map jseg]. apply nodup_snoc; [exact Cjnd|].
    intros Hx. apply in_map_iff in Hx as (j & E & Hj). apply Cjlt in Hj. lia.
  - intros d Hd. destruct (Cdlt d Hd); [left; lia | right; assumption].
  - (* c_wr *) intros j Hj Hw. apply in_app_iff in Hj as [Hj|[<-|[]]]; [auto | discriminate].
Qed.

Lemma cic_adv lv ds ix j rest al st' :
  CIC lv ds ix (j :: rest) al ->
  (written (jstage j) = true -> written st' = true) ->
  (written st' = true -> written (jstage j) = true \/ has_dir ds (jseg j)) ->
  CIC lv ds ix (mkJob (jseg j) (jevs j) st' :: rest) al.
Proof.
  intros C H1 H2. dC C.
  assert (Hc : forall i, CompleteC ds (j :: rest) i -> CompleteC ds (mkJob (jseg j) (jevs j) st' :: rest) i).
  { intros i [Hd Hj]. split; [exact Hd|]. intros j0 [<-|Hj0] E; cbn [jseg jstage] in *.
    - apply H1, (Hj j); [left; reflexivity | exact E].
    - apply Hj; [right; exact Hj0 | exact E]. }
  split; auto. (* [c_live], [c_idx] by [Hc] *)
  - intros j0 [<-|Hj0]; [apply (Cjlt j); left; reflexivity | apply Cjlt; right; exact Hj0].
  - intros j0 [<-|Hj0] Hw; cbn [jseg jstage] in *.
    + destruct (H2 Hw) as [H|H]; [apply (Cwr j); [left; reflexivity | exact H] | exact H].
    + apply Cwr; [right; exact Hj0 | exact Hw].
Qed.

Lemma cic_dirs lv ds ds' ix js al :
  CIC lv ds ix js al ->
  (forall i, has_dir ds i -> In i lv \/ In i (index_labels ix) \/ In i (map jseg js) -> has_dir ds' i) ->
  (forall d, In d ds' -> sid d < al \/ level_span <= sid d) -> NoDup (map sid ds') ->
  CIC lv ds' ix js al.
Proof.
  intros C H1 H2 H3. dC C. split; auto.
  - intros i Hi. destruct (Clive i Hi) as [Hd Hj]. split; [apply H1; auto | exact Hj].
  - intros i Hi. destruct (Cidx i Hi) as [Hd Hj]. split; [apply H1; auto | exact Hj].
  - intros j Hj Hw. apply H1; [apply Cwr; assumption|]. right. right. apply in_map, Hj.
Qed.

Lemma cic_index lv ds ix ix' js al :
  CIC lv ds ix js al ->
  (forall i, In i (index_labels ix') -> In i (index_labels ix) \/ CompleteC ds js i) ->
  CIC lv ds ix' js al.
Proof. intros C H. dC C. split; auto. intros i Hi. destruct (H i Hi); auto. Qed.

Lemma cic_live lv lv' ds ix js al :
  CIC lv ds ix js al -> (forall i, In i lv' -> In i lv \/ CompleteC ds js i) -> CIC lv' ds ix js al.
Proof. intros C H. dC C. split; auto. intros i Hi. destruct (H i Hi); auto. Qed.

Lemma cic_done lv ds ix j rest al : CIC lv ds ix (j :: rest) al -> CIC lv ds ix rest al.
Proof.
  intros C. dC C.
  assert (Hc : forall i, CompleteC ds (j :: rest) i -> CompleteC ds rest i).
  { intros i [Hd Hj]. split; [exact Hd|]. intros j0 Hj0. apply Hj. right. exact Hj0. }
  split; auto. (* [c_live], [c_idx] by [Hc] *)
  - intros j0 Hj0. apply Cjlt. right. exact Hj0.
  - cbn [map] in Cjnd. apply NoDup_cons_iff in Cjnd. tauto.
  - intros j0 Hj0. apply Cwr. right. exact Hj0.
Qed.

Lemma cic_add_rows lv ds ix j rest al r :
  CIC lv ds ix (j :: rest) al -> CIC lv (dir_add_rows ds (jseg j) r) ix (j :: rest) al.
Proof.
  intros C. eapply cic_dirs; [exact C | | |].
  - intros i Hi _. apply has_dir_add, Hi.
  - intros d Hd. apply add_sid in Hd as [E|Hd]; [|apply (c_dlt _ _ _ _ _ C), Hd].
    left. rewrite E. apply (c_jlt _ _ _ _ _ C). left. reflexivity.
  - rewrite add_rows_sids. destruct (memb (jseg j) (map sid ds)) eqn:E; [apply (c_dnd _ _ _ _ _ C)|].
    apply nodup_snoc; [apply (c_dnd _ _ _ _ _ C) | apply memb_false, E].
Qed.

Lemma ci_fw s l : CI s -> CI (fw_step s l).
Proof.
  intros C. destruct (fw_step_cases s l) as [->|(j & rest & Hj & K)]; [exact C|].
  unfold CI in *. rewrite Hj in C.
  assert (Hrest : forall j0, In j0 rest -> jseg j0 <> jseg j).
  { intros j0 Hj0 E. pose proof (c_jnd _ _ _ _ _ C) as Hn. cbn [map] in Hn. apply NoDup_cons_iff in Hn as [Hn _].
    apply Hn. rewrite <- E. apply in_map, Hj0. }
  destruct K as [Hst|Hst|u Hst _ _|Hst Hne Hall|Hst|Hst|id Hst _ _|Hst _|Hst _|Hd]; proj; rewrite ?Hj.
  - apply cic_adv; [exact C | rewrite Hst; discriminate | discriminate].
  - apply cic_add_rows, C.
  - apply cic_add_rows, C.
  - pose proof (index_guard_dir s j Hne Hall) as Hd.
    eapply cic_index; [apply cic_adv; [exact C | reflexivity | intros _; right; exact Hd]|].
    intros i Hi. unfold index_labels in Hi. rewrite map_app, in_app_iff in Hi.
    destruct Hi as [Hi|[<-|[]]]; [left; exact Hi|]. right. cbn [fst]. split; [exact Hd|].
    intros j0 [<-|Hj0] E; [reflexivity | destruct (Hrest j0 Hj0 E)].
  - eapply cic_live; [apply cic_adv; [exact C | reflexivity | rewrite Hst; left; reflexivity]|].
    intros i Hi. destruct (_ || _); [left; exact Hi|].
    apply in_app_iff in Hi as [Hi|[<-|[]]]; [left; exact Hi|]. right. split.
    + apply (c_wr _ _ _ _ _ C j); [left; reflexivity | rewrite Hst; reflexivity].
    + intros j0 [<-|Hj0] E; [reflexivity | destruct (Hrest j0 Hj0 E)].
  - apply cic_adv; [exact C | reflexivity | rewrite Hst; left; reflexivity].
  - apply cic_adv; [exact C | reflexivity | rewrite Hst; left; reflexivity].
  - apply cic_adv; [exact C | reflexivity | rewrite Hst; left; reflexivity].
  - apply cic_adv; [exact C | reflexivity | rewrite Hst; left; reflexivity].
  - eapply cic_done, C.
Qed.

(** the fields [CI] and [Closed] read *)
Definition names (s : shard) := (live s, dirs s, index s, jobs s, alloc0 s).

Lemma base_cases s x :
  is_crash x = false ->
  names (step s x) = names s \/
  (exists m, names (step s x) = (live s, dirs s, index s, jobs s ++ [mkJob (alloc0 s) m StQueued], N.succ (alloc0 s))) \/
  exists l, step s x = fw_step s l.
Proof.
  assert (Hcore : forall s', core s' = core s -> names s' = names s) by (unfold core, names; congruence).
  intros Hx. destruct x; try discriminate; cbn [step].
  - destruct (store_cases s e) as [[_ ->]|[_ ->]]; [left; reflexivity | right; left; eexists; reflexivity].
  - right. left. eexists. reflexivity.
  - left. apply Hcore, wal_write_core.
  - left. apply Hcore, wal_rotate_core.
  - right. right. eauto.
Qed.

Lemma ci_base s x : CI s -> is_crash x = false -> alloc0 (step s x) <= level_span -> CI (step s x).
Proof.
  unfold CI. intros C Hx. destruct (base_cases s x Hx) as [E|[(m & E)|(l & ->)]].
  - injection E as -> -> -> -> ->. intros _. exact C.
  - injection E as -> -> -> -> ->. apply cic_rotate, C.
  - intros _. apply ci_fw, C.
Qed.

Lemma out_complete s o : CI s -> level_span <= o -> has_dir (dirs s) o -> Complete s o.
Proof.
  intros C Ho Hd. split; [exact Hd|]. intros j Hj E. exfalso.
  apply (c_jlt _ _ _ _ _ C) in Hj. pose proof (c_al _ _ _ _ _ C). lia.
Qed.

Lemma ci_cstep s l : CI s -> cstep_ok s l = true -> CI (cstep s l).
Proof.
  intros C G. apply cstep_ok_cases in G. destruct l as [x|b|b|b dr|dr]; cbn [cstep].
  - apply ci_base; tauto.
  - destruct G as [G1 G2].
    eapply cic_dirs; [exact C | intros i Hi _; apply cp_write_has_dir; left; exact Hi | |];
      rewrite (cp_write_dirs_fresh _ _ G2).
    + intros d Hd. apply in_app_iff in Hd as [Hd|[<-|[]]]; [apply (c_dlt _ _ _ _ _ C), Hd | right; exact G1].
    + rewrite map_app. cbn [map sid]. apply nodup_snoc; [apply (c_dnd _ _ _ _ _ C)|].
      intros Hx. apply in_map_iff in Hx as (d & E & Hd). exact (G2 d Hd E).
  - destruct G as [G1 G2]. eapply cic_index; [exact C|].
    intros i Hi. apply cp_index_labels in Hi as [->|Hi]; [right | left; exact Hi]. apply (out_complete s); assumption.
  - destruct G as [G1 G2]. eapply cic_live; [exact C|].
    intros i Hi. apply in_cp_live in Hi as [->|[Hi _]]; [right | left; exact Hi]. apply (out_complete s); assumption.
  - eapply cic_dirs; [exact C | | |].
    + intros i Hd Hi. apply cp_reclaim_has_dir. split; [exact Hd|]. intros Hdr. apply G in Hdr. tauto.
    + intros d Hd. apply filter_In in Hd as [Hd _]. apply (c_dlt _ _ _ _ _ C), Hd.
    + apply nodup_map_filter, (c_dnd _ _ _ _ _ C).
Qed.

Lemma ci_crun ls : forall s, CI s -> hist_ok s ls = true -> CI (crun s ls).
Proof.
  induction ls as [|l r IH]; intros s C H; cbn [hist_ok crun fold_left] in *; [exact C|].
  apply andb_true_iff in H as [H1 H2]. apply IH; [apply ci_cstep; assumption | exact H2].
Qed.

Lemma step_dirs s x :
  is_crash x = false ->
  dirs (step s x) = dirs s \/
  exists j rest r, jobs s = j :: rest /\ jstage j = StBegun /\ dirs (step s x) = dir_add_rows (dirs s) (jseg j) r.
Proof.
  intros Hx. destruct (base_cases s x Hx) as [E|[(m & E)|(l & ->)]]; [left; injection E; auto ..|].
  destruct (fw_dirs s l) as [E|(j & rest & r & Hj & Hst & _ & E)]; [left; exact E | right; eauto 8].
Qed.

Lemma cstep_queue s l :
  cstep_ok s l = true ->
  alloc0 s <= alloc0 (cstep s l) /\
  forall i, In i (map jseg (jobs (cstep s l))) -> In i (map jseg (jobs s)) \/ alloc0 s <= i.
Proof.
  intros G. destruct l as [x| | | |]; try (split; [apply N.le_refl | auto]). apply cstep_ok_cases in G as [Hx _]. cbn [cstep].
  destruct (base_cases s x Hx) as [E|[(m & E)|(l & ->)]].
  - injection E as _ _ _ -> ->. split; [apply N.le_refl | auto].
  - injection E as _ _ _ -> ->. rewrite map_app. cbn [map jseg]. split; [lia|].
    intros i Hi. apply in_app_iff in Hi as [Hi|[<-|[]]]; [auto | right; apply N.le_refl].
  - destruct (fw_frame s l) as (_ & _ & _ & _ & _ & ->). split; [apply N.le_refl|]. intros i Hi. left.
    destruct (fw_queue s l) as [E|(j & rest & Hj & [E|(st & E)])]; rewrite E in Hi; rewrite ?Hj; cbn [map jseg In] in *; auto.
Qed.

(** what a guarded step does to the directory named [i]; [ds'] are the directories after the step *)
Inductive dir_case (s : shard) (l : clabel) (ds' : list segdir) (i : N) : Prop :=
| dc_same : rows_of ds' i = rows_of (dirs s) i -> (has_dir ds' i <-> has_dir (dirs s) i) -> dir_case s l ds' i
| dc_removed : ~ has_dir ds' i -> ~ In i (live s) -> ~ In i (index_labels (index s)) -> ~ In i (map jseg (jobs s)) ->
    dir_case s l ds' i
| dc_flush j rest extra : jobs s = j :: rest -> jseg j = i -> jstage j = StBegun ->
    rows_of ds' i = rows_of (dirs s) i ++ extra -> has_dir ds' i -> dir_case s l ds' i
| dc_output b : l = CWrite b -> b_out b = i -> level_span <= i -> ~ has_dir (dirs s) i ->
    rows_of ds' i = batch_rows (dirs s) b -> has_dir ds' i -> dir_case s l ds' i.

Theorem dir_cases s l i : CI s -> cstep_ok s l = true -> dir_case s l (dirs (cstep s l)) i.
Proof.
  intros C G. apply cstep_ok_cases in G. destruct l as [x|b|b|b dr|dr]; cbn [cstep]; try (apply dc_same; reflexivity).
  - destruct (step_dirs s x (proj1 G)) as [->|(j & rest & r & Hj & Hst & ->)]; [apply dc_same; reflexivity|].
    pose proof (rows_of_add_eq _ (jseg j) r i (c_dnd _ _ _ _ _ C)) as Er. pose proof (has_dir_add_iff (dirs s) (jseg j) r i) as Eh.
    destruct (N.eqb_spec (jseg j) i) as [Ei|Ei].
    + apply (dc_flush _ _ _ _ j rest r); auto. apply Eh. auto.
    + apply dc_same; [exact Er | rewrite Eh; intuition congruence].
  - destruct G as [G1 G2]. pose proof (cp_write_rows s b i) as Er. pose proof (cp_write_has_dir s b i) as Eh.
    destruct (N.eqb_spec (b_out b) i) as [Ei|Ei].
    + rewrite <- Ei in *. rewrite (rows_of_no_dir _ _ G2) in Er.
      apply (dc_output _ _ _ _ b); auto; [intros (d & Hd & E); exact (G2 d Hd E) | apply Eh; auto].
    + apply dc_same; [exact Er | rewrite Eh; intuition congruence].
  - pose proof (cp_reclaim_rows s dr i) as Er. pose proof (cp_reclaim_has_dir s dr i) as Eh.
    destruct (memb i dr) eqn:Hm.
    + apply memb_true in Hm. destruct (G i Hm) as (H1 & H2 & H3). apply dc_removed; auto. rewrite Eh. tauto.
    + apply memb_false in Hm. apply dc_same; [exact Er | rewrite Eh; tauto].
Qed.

(** [dir_cases] for a directory that exists: it is never replaced *)
Theorem dirs_step : forall s l i,
  CI s -> cstep_ok s l = true -> has_dir (dirs s) i ->
  let s' := cstep s l in
  rows_of (dirs s') i = rows_of (dirs s) i /\ has_dir (dirs s') i
  \/ (~ has_dir (dirs s') i /\ ~ In i (live s) /\ ~ In i (index_labels (index s)))
  \/ (exists extra j rest, rows_of (dirs s') i = rows_of (dirs s) i ++ extra /\ has_dir (dirs s') i /\
        jobs s = j :: rest /\ jseg j = i /\ jstage j = StBegun /\ ~ Complete s i).
Proof.
  intros s l i C G Hd s'. unfold s'.
  destruct (dir_cases s l i C G) as [Er Eh|Hn Hl Hx _|j rest extra Hj Ei Hst Er Hh|b _ _ _ Hn _ _]; [| | |contradiction].
  - left. split; [exact Er | apply Eh, Hd].
  - right. left. auto.
  - right. right. exists extra, j, rest. repeat (split; [assumption|]).
    intros [_ Hc]. specialize (Hc j). rewrite Hj, Hst in Hc. specialize (Hc (or_introl eq_refl) Ei). discriminate.
Qed.

Theorem dir_created_fresh : forall s l i,
  CI s -> cstep_ok s l = true -> ~ has_dir (dirs s) i -> has_dir (dirs (cstep s l)) i ->
  (exists b, l = CWrite b /\ b_out b = i /\ rows_of (dirs (cstep s l)) i = batch_rows (dirs s) b)
  \/ (exists j rest, jobs s = j :: rest /\ jseg j = i /\ jstage j = StBegun /\ ~ In i (live s) /\
        ~ In i (index_labels (index s))).
Proof.
  intros s l i C G Hn Hd.
  destruct (dir_cases s l i C G) as [_ Eh|Hn' _ _ _|j rest extra Hj Ei Hst _ _|b El Eb _ _ Er _].
  - destruct (Hn (proj1 Eh Hd)).
  - contradiction.
  - right. exists j, rest. repeat (split; [assumption|]).
    split; intros H; [apply (c_live _ _ _ _ _ C) in H | apply (c_idx _ _ _ _ _ C) in H]; destruct H as [H _]; auto.
  - left. exists b. auto.
Qed.

Theorem ci_reachable : forall c ls, hist_ok (init c) ls = true -> CI (crun (init c) ls).
Proof. intros c ls H. apply ci_crun; [apply ci_init | exact H]. Qed.

Theorem live_names_complete : forall c ls i,
  hist_ok (init c) ls = true -> In i (live (crun (init c) ls)) -> Complete (crun (init c) ls) i.
Proof. intros c ls i H Hi. exact (c_live _ _ _ _ _ (ci_reachable c ls H) i Hi). Qed.

Theorem index_names_complete : forall c ls i,
  hist_ok (init c) ls = true -> In i (index_labels (index (crun (init c) ls))) -> Complete (crun (init c) ls) i.
Proof. intros c ls i H Hi. exact (c_idx _ _ _ _ _ (ci_reachable c ls H) i Hi). Qed.

Lemma live_rows_immutable_from ls : forall s i,
  CI s -> hist_ok s ls = true ->
  (forall n, In i (live (crun s (firstn n ls)))) ->
  rows_of (dirs (crun s ls)) i = rows_of (dirs s) i.
Proof.
  induction ls as [|l r IH]; intros s i C H Hl; [reflexivity|].
  cbn [hist_ok] in H. apply andb_true_iff in H as [H1 H2]. cbn [crun fold_left].
  pose proof (Hl 0%nat) as L0. cbn [firstn crun fold_left] in L0.
  pose proof (c_live _ _ _ _ _ C i L0) as Hc.
  change (fold_left cstep r (cstep s l)) with (crun (cstep s l) r).
  rewrite (IH (cstep s l) i (ci_cstep s l C H1) H2); [|intros n; exact (Hl (S n))].
  destruct (dirs_step s l i C H1 (proj1 Hc)) as [[E _]|[(_ & Hnl & _)|(x & j & rest & _ & _ & _ & _ & _ & Hnc)]].
  - exact E.
  - contradiction.
  - contradiction.
Qed.

Theorem live_rows_immutable_no_crash : forall c ls1 ls2 i,
  hist_ok (init c) (ls1 ++ ls2) = true ->
  (forall n, In i (live (crun (init c) (ls1 ++ firstn n ls2)))) ->
  rows_of (dirs (crun (init c) (ls1 ++ ls2))) i = rows_of (dirs (crun (init c) ls1)) i.
Proof.
  intros c ls1 ls2 i H Hl. rewrite hist_ok_app in H. apply andb_true_iff in H as [H1 H2].
  rewrite crun_app. apply live_rows_immutable_from; [apply ci_reachable, H1 | exact H2|].
  intros n. rewrite <- crun_app. apply Hl.
Qed.

(** * A whole batch of the policy satisfies the guards *)

Lemma batch_ok_level ix k b : batch_ok ix k b = true -> level_span <= b_out b.
Proof.
  intros H. destruct (batch_ok_spec _ _ _ H) as (_ & _ & lvl & _ & Hl & _).
  destruct (N.le_gt_cases level_span (b_out b)) as [Hle|Hlt]; [exact Hle|].
  unfold level_of in Hl. rewrite (N.div_small _ _ Hlt) in Hl. lia.
Qed.

(** the reclaim step of a batch touches only the directories; no step touches the flush queue *)
Lemma before_reclaim s b :
  let t := crun s (batch_steps s b) in
  live t = live (run_batch s b) /\ index t = index (run_batch s b) /\ jobs t = jobs s.
Proof. repeat split. Qed.

Lemma batch_hist_ok k s b :
  WF s -> BatchPre k s b -> (forall i, In i (b_inputs b) -> ~ In i (map jseg (jobs s))) ->
  hist_ok s (batch_labels s b) = true.
Proof.
  intros W P Hj. pose proof (batch_ok_level _ _ _ (bp_ok _ _ _ P)) as Hl. apply N.leb_le in Hl.
  assert (Hd : has_dirb (dirs (cstep s (CWrite b))) (b_out b) = true).
  { apply has_dirb_true, cp_write_has_dir. right. reflexivity. }
  rewrite batch_labels_steps, hist_ok_app. apply andb_true_iff. split.
  { unfold batch_steps. cbn [hist_ok cstep_ok]. rewrite Hl, andb_true_r. cbn [andb].
    apply andb_true_iff. split; [apply negb_true_iff, has_dirb_false, (bp_fresh _ _ _ P)|].
    (* [CIndex] leaves the directories alone *)
    apply andb_true_iff. split; exact Hd. }
  cbn [hist_ok cstep_ok]. rewrite andb_true_r. apply forallb_forall. intros i Hi.
  destruct (before_reclaim s b) as (-> & -> & ->).
  pose proof (ob_out_not_dr k s b W P) as Ho.
  apply andb_true_iff. split; [apply andb_true_iff; split|]; apply negb_true_iff, memb_false.
  - intros H. apply in_live_after in H as [->|[_ H]]; contradiction.
  - intros H. apply (index_after_labels _ _ _ (w_nd _ W)) in H as [->|[_ H]]; contradiction.
  - apply Hj, (ob_dr_input s b), Hi.
Qed.

(** * Output ids within one process lifetime

    [PStart] marks the start of a planning round (the token [cs] that the harness, tools/shardlib.py,
    records when it issues the compaction command).  The state carries the planner's
    bookkeeping of Model/Compaction.v ([p_lab], [p_routs]) and [p_rix], the index of the
    current round start, against which the batches of the round are planned; a crash or
    restart label resets all three.  [p_ok] accumulates [cstep_ok] of every non-crash step
    and, for every [CWrite b], [batch_ok_fresh] w.r.t. [p_routs ++ p_lab]. *)
Inductive plabel := PStart | PStep (c : clabel).

Record pst := mkP { p_s : shard; p_lab : list N; p_routs : list N; p_rix : list (N * list N); p_ok : bool }.

Definition is_crash_c (c : clabel) : bool := match c with CBase x => is_crash x | _ => false end.

Definition pstep (k : N) (p : pst) (l : plabel) : pst :=
  match l with
  | PStart => mkP (p_s p) (seen_round_start (p_lab p) (index (p_s p))) [] (index (p_s p)) (p_ok p)
  | PStep c =>
      if is_crash_c c then mkP (cstep (p_s p) c) [] [] [] (p_ok p)
      else match c with
           | CWrite b => mkP (cstep (p_s p) c) (p_lab p) (seen_batch (p_routs p) b) (p_rix p)
                             (p_ok p && cstep_ok (p_s p) c && batch_ok_fresh (p_routs p ++ p_lab p) (p_rix p) k b)
           | _ => mkP (cstep (p_s p) c) (p_lab p) (p_routs p) (p_rix p) (p_ok p && cstep_ok (p_s p) c)
           end
  end.

Definition prun (k : N) (p : pst) (ls : list plabel) : pst := fold_left (pstep k) ls p.
Definition pinit (c : N) : pst := mkP (init c) [] [] [] true.

Definition no_pcrash (ls : list plabel) : Prop :=
  forall c, In (PStep c) ls -> is_crash_c c = false.
Definition no_pstart (ls : list plabel) : Prop := ~ In PStart ls.

Lemma prun_app k p a b : prun k p (a ++ b) = prun k (prun k p a) b.
Proof. unfold prun. apply fold_left_app. Qed.

Lemma prun_snoc k p a l : prun k p (a ++ [l]) = pstep k (prun k p a) l.
Proof. rewrite prun_app. reflexivity. Qed.

Lemma fresh_flag : compaction_ids_fresh_in_lifetime = true.
Proof. reflexivity. Qed.

Lemma batch_ok_fresh_spec seen ix k b :
  batch_ok_fresh seen ix k b = true <-> batch_ok ix k b = true /\ ~ In (b_out b) seen.
Proof.
  unfold batch_ok_fresh. rewrite fresh_flag, andb_true_iff, negb_true_iff, memb_false. reflexivity.
Qed.

Lemma pstep_ok k p l : p_ok (pstep k p l) = true -> p_ok p = true.
Proof.
  destruct l as [|c]; cbn [pstep p_ok]; [auto|].
  destruct (is_crash_c c); cbn [p_ok]; [auto|].
  destruct c; cbn [p_ok]; intros H; repeat (apply andb_true_iff in H as [H _]); exact H.
Qed.

Lemma prun_ok_prefix k p a : forall b, p_ok (prun k p (a ++ b)) = true -> p_ok (prun k p a) = true.
Proof.
  intros b. induction b as [|l b IH] using rev_ind; [rewrite app_nil_r; auto|].
  rewrite app_assoc, prun_snoc. intros H. apply IH, (pstep_ok _ _ _ H).
Qed.

Lemma pstep_s k p l : p_s (pstep k p l) = match l with PStart => p_s p | PStep c => cstep (p_s p) c end.
Proof. destruct l as [|c]; [reflexivity|]. cbn [pstep]. destruct (is_crash_c c); [reflexivity|]. destruct c; reflexivity. Qed.

Lemma pstep_guard k p c : is_crash_c c = false -> p_ok (pstep k p (PStep c)) = true -> cstep_ok (p_s p) c = true.
Proof. intros Hc. cbn [pstep]. rewrite Hc. destruct c; cbn [p_ok]; rewrite !andb_true_iff; tauto. Qed.

Lemma pstep_fresh k p b : p_ok (pstep k p (PStep (CWrite b))) = true -> ~ In (b_out b) (p_routs p ++ p_lab p).
Proof. cbn [pstep is_crash_c is_crash p_ok]. rewrite andb_true_iff, batch_ok_fresh_spec. tauto. Qed.

Lemma no_pcrash_app a b : no_pcrash (a ++ b) <-> no_pcrash a /\ no_pcrash b.
Proof.
  unfold no_pcrash. split.
  - intros H. split; intros c Hc; apply H, in_app_iff; auto.
  - intros [H1 H2] c Hc. apply in_app_iff in Hc as [Hc|Hc]; auto.
Qed.

Lemma no_pstart_app a b : no_pstart (a ++ b) <-> no_pstart a /\ no_pstart b.
Proof. unfold no_pstart. rewrite in_app_iff. tauto. Qed.

Fixpoint outs (ls : list plabel) : list N :=
  match ls with
  | [] => []
  | PStep (CWrite b) :: r => b_out b :: outs r
  | _ :: r => outs r
  end.

Lemma outs_app a b : outs (a ++ b) = outs a ++ outs b.
Proof.
  induction a as [|l a IH]; [reflexivity|]. cbn [app outs]. destruct l as [|c]; [exact IH|].
  destruct c; cbn [app]; rewrite IH; reflexivity.
Qed.

Lemma prun_at k p l1 l l2 :
  no_pcrash (l1 ++ l :: l2) -> p_ok (prun k p (l1 ++ l :: l2)) = true ->
  no_pcrash l1 /\ p_ok (prun k p l1) = true /\ p_ok (pstep k (prun k p l1) l) = true /\
  forall c, l = PStep c -> is_crash_c c = false.
Proof.
  change (l1 ++ l :: l2) with (l1 ++ [l] ++ l2). rewrite app_assoc. intros Hc Hok.
  apply prun_ok_prefix in Hok. apply no_pcrash_app in Hc as [Hc _]. apply no_pcrash_app in Hc as [Hc1 Hc2].
  rewrite prun_snoc in Hok. split; [exact Hc1|]. split; [exact (pstep_ok _ _ _ Hok)|]. split; [exact Hok|].
  intros c ->. apply Hc2. left. reflexivity.
Qed.

(** The bookkeeping is a function of the labels alone, guards or not: the remembered labels
    only grow, and the ids taken in a round are the outputs written since its start. *)
Lemma pstep_lab k q c : is_crash_c c = false -> p_lab (pstep k q (PStep c)) = p_lab q.
Proof. intros H. cbn [pstep]. rewrite H. destruct c; reflexivity. Qed.

Lemma pstep_routs k q c : is_crash_c c = false -> p_routs (pstep k q (PStep c)) = rev (outs [PStep c]) ++ p_routs q.
Proof. intros H. cbn [pstep]. rewrite H. destruct c; reflexivity. Qed.

Lemma prun_lab_mono k p ls : no_pcrash ls -> incl (p_lab p) (p_lab (prun k p ls)).
Proof.
  induction ls as [|l ls IH] using rev_ind; intros Hc x Hx; [exact Hx|].
  apply no_pcrash_app in Hc as [Hc1 Hc2]. rewrite prun_snoc. specialize (IH Hc1 x Hx). destruct l as [|c].
  - apply in_app_iff. right. exact IH.
  - rewrite pstep_lab; [exact IH | apply Hc2; left; reflexivity].
Qed.

Lemma prun_routs k p ls : no_pcrash ls -> no_pstart ls -> p_routs (prun k p ls) = rev (outs ls) ++ p_routs p.
Proof.
  induction ls as [|l ls IH] using rev_ind; intros Hc Hs; [reflexivity|].
  apply no_pcrash_app in Hc as [Hc1 Hc2]. apply no_pstart_app in Hs as [Hs1 Hs2].
  destruct l as [|c]; [destruct Hs2; left; reflexivity|].
  rewrite prun_snoc, pstep_routs, (IH Hc1 Hs1), outs_app, rev_app_distr, app_assoc by (apply Hc2; left; reflexivity).
  reflexivity.
Qed.

Theorem ids_fresh_in_lifetime : forall k p ls,
  no_pcrash ls -> p_ok (prun k p ls) = true ->
  forall l1 b l2, ls = l1 ++ PStep (CWrite b) :: l2 ->
    ~ In (b_out b) (p_lab p) /\
    (forall a r, l1 = a ++ PStart :: r -> ~ In (b_out b) (index_labels (index (p_s (prun k p a))))) /\
    (forall a b' r, l1 = a ++ PStep (CWrite b') :: r -> no_pstart r -> b_out b' <> b_out b).
Proof.
  intros k p ls Hc Hok l1 b l2 ->. destruct (prun_at k p l1 _ l2 Hc Hok) as (Hc1 & _ & Hok1 & _).
  pose proof (pstep_fresh _ _ _ Hok1) as Hfresh. rewrite in_app_iff in Hfresh.
  split; [|split].
  - intros Hx. apply Hfresh. right. apply (prun_lab_mono k p l1 Hc1), Hx.
  - intros a r -> Hx. apply no_pcrash_app in Hc1 as [_ Hcr]. apply (no_pcrash_app [PStart]) in Hcr as [_ Hcr].
    apply Hfresh. right. rewrite prun_app. apply (prun_lab_mono k _ r Hcr). apply in_app_iff. left. exact Hx.
  - intros a b' r -> Hs E. apply no_pcrash_app in Hc1 as [_ Hcr]. apply (no_pcrash_app [PStep (CWrite b')]) in Hcr as [_ Hcr].
    apply Hfresh. left. rewrite prun_app. change (PStep (CWrite b') :: r) with ([PStep (CWrite b')] ++ r).
    rewrite prun_app, (prun_routs k _ r Hcr Hs), in_app_iff. right. left. exact E.
Qed.

Theorem round_outs_nodup : forall k p ls,
  no_pcrash ls -> no_pstart ls -> p_ok (prun k p ls) = true -> NoDup (outs ls).
Proof.
  intros k p ls. induction ls as [|l ls IH] using rev_ind; intros Hc Hs Hok; [constructor|].
  destruct (prun_at k p ls l [] Hc Hok) as (Hc1 & Hok0 & Hok1 & _). apply no_pstart_app in Hs as [Hs1 _].
  specialize (IH Hc1 Hs1 Hok0). rewrite outs_app.
  destruct l as [|c]; [|destruct c]; cbn [outs]; rewrite ?app_nil_r; try exact IH.
  apply nodup_snoc; [exact IH|]. intros Hx. apply (pstep_fresh _ _ _ Hok1).
  rewrite (prun_routs k p ls Hc1 Hs1), !in_app_iff, <- in_rev. auto.
Qed.

(** ** a published name is not created again in the lifetime *)

(** a level-0 name is used up.  A name that has a directory is used up ([closed_of_dir]); a used-up
    name stays so and gets no directory ([closed_step]). *)
Definition Closed (s : shard) (i : N) : Prop :=
  i < alloc0 s /\ (In i (map jseg (jobs s)) -> has_dir (dirs s) i).

Lemma closed_of_dir s i : CI s -> i < level_span -> has_dir (dirs s) i -> Closed s i.
Proof.
  intros C Hl (d & Hd & <-). split; [|intros _; exists d; auto]. destruct (c_dlt _ _ _ _ _ C d Hd); lia.
Qed.

Lemma closed_step s c i :
  CI s -> cstep_ok s c = true -> Closed s i ->
  Closed (cstep s c) i /\ (has_dir (dirs (cstep s c)) i -> has_dir (dirs s) i).
Proof.
  intros C G [Hlt Hj]. destruct (cstep_queue s c G) as [Hal Hq]. pose proof (c_al _ _ _ _ _ C) as Hsp.
  (* a batch output is no case: its name is above level 0, a used-up name below the allocator *)
  destruct (dir_cases s c i C G) as [_ Eh|Hn _ _ Hnj|j rest _ Ej <- _ _ Hh|b _ _ Hhi _ _ _]; [| | |lia].
  - split; [split; [lia|] | apply Eh]. intros Hin. apply Eh. destruct (Hq i Hin); [auto | lia].
  - split; [split; [lia|] | contradiction]. intros Hin. destruct (Hq i Hin); [contradiction | lia].
  - split; [split; [lia | auto]|]. intros _. apply Hj. rewrite Ej. left. reflexivity.
Qed.

Lemma closed_prun k q ls i :
  CI (p_s q) -> no_pcrash ls -> p_ok (prun k q ls) = true ->
  CI (p_s (prun k q ls)) /\ (Closed (p_s q) i -> Closed (p_s (prun k q ls)) i).
Proof.
  intros C. induction ls as [|l ls IH] using rev_ind; intros Hc Hok; [auto|].
  destruct (prun_at k q ls l [] Hc Hok) as (Hc1 & Hok0 & Hokl & Hcl). destruct (IH Hc1 Hok0) as [C1 K1].
  rewrite prun_snoc, pstep_s. destruct l as [|c]; [auto|]. pose proof (pstep_guard _ _ _ (Hcl c eq_refl) Hokl) as G.
  split; [apply ci_cstep; assumption|]. intros K. apply closed_step; auto.
Qed.

(** a directory created in the first lifetime: on level 0 by [Closed], above it by [ids_fresh_in_lifetime] *)
Theorem name_never_recreated : forall k c ls,
  no_pcrash ls -> p_ok (prun k (pinit c) ls) = true ->
  forall l1 l l2 i, ls = l1 ++ l :: l2 ->
    ~ has_dir (dirs (p_s (prun k (pinit c) l1))) i ->
    has_dir (dirs (p_s (prun k (pinit c) (l1 ++ [l])))) i ->
    (i < level_span -> forall n, ~ has_dir (dirs (p_s (prun k (pinit c) (firstn n l1)))) i) /\
    (level_span <= i ->
       (exists b, l = PStep (CWrite b) /\ b_out b = i) /\
       forall a r, l1 = a ++ PStart :: r -> ~ In i (index_labels (index (p_s (prun k (pinit c) a))))).
Proof.
  intros k c ls Hc Hok l1 l l2 i -> Hn Hd.
  destruct (prun_at k _ l1 l l2 Hc Hok) as (Hc1 & Hok1 & Hokl & Hcl).
  rewrite prun_snoc, pstep_s in Hd. destruct l as [|c0]; [contradiction|].
  pose proof (pstep_guard _ _ _ (Hcl c0 eq_refl) Hokl) as G.
  destruct (closed_prun k (pinit c) l1 i (ci_init c) Hc1 Hok1) as [Ci _].
  split.
  - (* the name was used up when it had a directory, and still is before the step *)
    intros Hlo n Hbefore. rewrite <- (firstn_skipn n l1) in Hc1, Hok1. apply no_pcrash_app in Hc1 as [Ha Hr].
    destruct (closed_prun k (pinit c) _ i (ci_init c) Ha (prun_ok_prefix _ _ _ _ Hok1)) as [Ca _].
    rewrite prun_app in Hok1. destruct (closed_prun k _ _ i Ca Hr Hok1) as [_ K].
    rewrite <- prun_app, firstn_skipn in K.
    apply Hn, (closed_step _ c0 i Ci G (K (closed_of_dir _ i Ca Hlo Hbefore))), Hd.
  - intros Hhi.
    destruct (dir_cases _ c0 i Ci G) as [_ Eh|Hn' _ _ _|j rest _ Hj <- _ _ _|b -> Eb _ _ _ _].
    + destruct (Hn (proj1 Eh Hd)).
    + contradiction.
    + (* the names of flush jobs are below the level-0 allocator *)
      pose proof (c_al _ _ _ _ _ Ci).
      assert (jseg j < alloc0 (p_s (prun k (pinit c) l1))) by (apply (c_jlt _ _ _ _ _ Ci); rewrite Hj; left; reflexivity). lia.
    + split; [eauto|]. intros a r Ea. rewrite <- Eb.
      exact (proj1 (proj2 (ids_fresh_in_lifetime k (pinit c) _ Hc Hok l1 b l2 eq_refl)) a r Ea).
Qed.

Fixpoint policy_ok (k : N) (s : shard) (ls : list clabel) : bool :=
  match ls with
  | [] => true
  | l :: r => match l with CWrite b => batch_ok (index s) k b | _ => true end && policy_ok k (cstep s l) r
  end.

(** [batch_labels] with the drained names given, for the closed histories below *)
Definition whole (b : batch) (dr : list N) : list clabel := [CWrite b; CIndex b; CLive b dr; CReclaim dr].

Lemma whole_drained s b : whole b (drained (index s) b) = batch_labels s b.
Proof. reflexivity. Qed.

(** one event of type 0 stored with capacity 1 and flushed completely *)
Definition seg1 (n : N) : list clabel := map CBase ([LStore (mkEv n 0 0)] ++ flush_all [0]).

(** Class SegmentLabelReused (sneldb commit a19e65f: [p_lab], [batch_ok_fresh]).  Capacity 1, k = 2,
    one type.  Segments 0..3; round 1: [0;1] -> 10000, [2;3] -> 10001; round 2: [10000;10001] -> 20000
    (10000 is retired and its directory reclaimed); segments 4, 5; round 3: an allocator seeded from
    the index labels {20000, 4, 5} alone would hand out 10000 again for [4;5].  [rb4] still satisfies
    [batch_ok] (a lower bound) but is rejected by [batch_ok_fresh], because [p_lab] holds 10000 from
    the second round start; the id the allocator hands out, 10002, is accepted. *)
Definition rb1 : batch := mkBatch 10000 [0; 1] [0].
Definition rb2 : batch := mkBatch 10001 [2; 3] [0].
Definition rb3 : batch := mkBatch 20000 [10000; 10001] [0].
Definition rb4 : batch := mkBatch 10000 [4; 5] [0].
Definition rb4' : batch := mkBatch 10002 [4; 5] [0].
Definition reuse1 : list clabel := seg1 0 ++ seg1 1 ++ seg1 2 ++ seg1 3 ++ whole rb1 [0; 1].
Definition reuse2 : list clabel := whole rb2 [2; 3] ++ whole rb3 [10000; 10001].
Definition reuse3 : list clabel := seg1 4 ++ seg1 5 ++ whole rb4 [4; 5].

Definition lift (ls : list clabel) : list plabel := map PStep ls.

(** the same history with the round starts marked, up to the start of round 3 *)
Definition reuse_p : list plabel :=
  lift (seg1 0 ++ seg1 1 ++ seg1 2 ++ seg1 3) ++ [PStart] ++ lift (whole rb1 [0; 1] ++ whole rb2 [2; 3])
  ++ [PStart] ++ lift (whole rb3 [10000; 10001]) ++ lift (seg1 4 ++ seg1 5) ++ [PStart].

Lemma no_pcrash_b ls :
  forallb (fun l => match l with PStep c => negb (is_crash_c c) | PStart => true end) ls = true -> no_pcrash ls.
Proof.
  intros H c Hc. rewrite forallb_forall in H. apply H in Hc. apply negb_true_iff in Hc. exact Hc.
Qed.

Example label_reuse_rejected_example :
  let p := prun 2 (pinit 1) reuse_p in
  hist_ok (init 1) (reuse1 ++ reuse2 ++ reuse3) = true /\ policy_ok 2 (init 1) (reuse1 ++ reuse2 ++ reuse3) = true /\
  no_pcrash reuse_p /\ p_ok p = true /\
  p_rix p = [(20000, [0]); (4, [0]); (5, [0])] /\ In 10000 (p_lab p) /\
  batch_ok (p_rix p) 2 rb4 = true /\ batch_ok_fresh (p_routs p ++ p_lab p) (p_rix p) 2 rb4 = false /\
  p_ok (prun 2 (pinit 1) (reuse_p ++ lift (whole rb4 [4; 5]))) = false /\
  batch_ok_fresh (p_routs p ++ p_lab p) (p_rix p) 2 rb4' = true /\
  p_ok (prun 2 (pinit 1) (reuse_p ++ lift (whole rb4' [4; 5]))) = true.
Proof.
  cbv zeta. do 2 eval_split. split; [apply no_pcrash_b; vm_compute; reflexivity | by_eval].
Qed.

(** Across a restart [p_lab] is reset (the engine's set of remembered labels lives in process
    memory) and a retired output id IS handed out again.  Capacity 1, k = 4, one type.  Lifetime A:
    segments 0..8; round 1: [0;1;2;3] -> 10000, [4;5;6;7] -> 10001 (8 is left over); round 2:
    [10000;10001] -> 20000, both reclaimed.  Crash, restart.  Lifetime B: segments 9, 10, 11;
    round 3: the index labels are {20000, 8..11}, so [8;9;10;11] -> 10000 satisfies
    [batch_ok_fresh] and every guard.  (Model-level.) *)
Fixpoint seg1_from (a : N) (n : nat) : list clabel :=
  match n with O => [] | S m => seg1 a ++ seg1_from (N.succ a) m end.
Definition xb1 : batch := mkBatch 10000 [0; 1; 2; 3] [0].
Definition xb2 : batch := mkBatch 10001 [4; 5; 6; 7] [0].
Definition xb3 : batch := mkBatch 20000 [10000; 10001] [0].
Definition xb4 : batch := mkBatch 10000 [8; 9; 10; 11] [0].
Definition lifeA1 : list plabel :=
  lift (seg1_from 0 9) ++ [PStart] ++ lift (whole xb1 [0; 1; 2; 3] ++ whole xb2 [4; 5; 6; 7]).
Definition lifeA2 : list plabel := [PStart] ++ lift (whole xb3 [10000; 10001]).
Definition lifeB : list plabel := lift (seg1_from 9 3) ++ [PStart] ++ lift (whole xb4 [8; 9; 10; 11]).

Lemma label_reuse_across_restart_refuted :
  exists k c lA1 lA2 lB i,
    let restart := [PStep (CBase LCrash); PStep (CBase LRestart)] in
    let p1 := prun k (pinit c) lA1 in
    let p2 := prun k (pinit c) (lA1 ++ lA2) in
    let p3 := prun k (pinit c) (lA1 ++ lA2 ++ restart) in
    let p4 := prun k (pinit c) (lA1 ++ lA2 ++ restart ++ lB) in
    no_pcrash (lA1 ++ lA2) /\ no_pcrash lB /\ p_ok p4 = true /\
    In i (live (p_s p1)) /\ rows_of (dirs (p_s p1)) i = [mkEv 0 0 0; mkEv 1 0 0; mkEv 2 0 0; mkEv 3 0 0] /\
    ~ In i (live (p_s p2)) /\ ~ has_dir (dirs (p_s p2)) i /\ In i (p_lab p2) /\
    p_lab p3 = [] /\ alloc0 (p_s p3) = 9 /\
    In (PStep (CWrite (mkBatch i [8; 9; 10; 11] [0]))) lB /\
    In i (live (p_s p4)) /\ rows_of (dirs (p_s p4)) i = [mkEv 8 0 0; mkEv 9 0 0; mkEv 10 0 0; mkEv 11 0 0].
Proof.
  exists 4, 1, lifeA1, lifeA2, lifeB, 10000. cbv zeta.
  split; [apply no_pcrash_b; vm_compute; reflexivity|]. split; [apply no_pcrash_b; vm_compute; reflexivity|].
  do 4 eval_split. split; [apply has_dirb_false_not; vm_compute; reflexivity|]. do 3 eval_split.
  split; [unfold lifeB, lift, whole; rewrite !in_app_iff; right; right; left; reflexivity | by_eval].
Qed.

(** Capacity 1, k = 3: [0;1] -> 10000 is written but not indexed (index save failed, no crash);
    segment 2; the next round plans [0;1;2] -> 10000 again: [batch_ok_fresh] accepts it, the
    guard of [CWrite] (no directory of that name) does not. *)
Definition failed_p : list plabel :=
  lift (seg1 0 ++ seg1 1) ++ [PStart; PStep (CWrite (mkBatch 10000 [0; 1] [0]))] ++ lift (seg1 2) ++ [PStart].

Example failed_batch_id_retaken_example :
  let p := prun 3 (pinit 1) failed_p in
  let b := mkBatch 10000 [0; 1; 2] [0] in
  no_pcrash failed_p /\ p_ok p = true /\ index (p_s p) = [(0, [0]); (1, [0]); (2, [0])] /\
  batch_ok_fresh (p_routs p ++ p_lab p) (p_rix p) 3 b = true /\
  has_dirb (dirs (p_s p)) 10000 = true /\ cstep_ok (p_s p) (CWrite b) = false /\
  ~ In 10000 (live (p_s p)) /\ outs (failed_p ++ [PStep (CWrite b)]) = [10000; 10000].
Proof.
  cbv zeta. split; [apply no_pcrash_b; vm_compute; reflexivity | by_eval].
Qed.

(** the C05 example history with its two rounds marked *)
Example ids_fresh_example :
  let h := lift (map CBase ls_3) ++ [PStart] ++ lift (whole b_31 [1]) ++ [PStart] ++ lift (whole b_32 [0; 2]) in
  no_pcrash h /\ p_ok (prun 2 (pinit 2) h) = true /\ outs h = [10000; 10001] /\
  map sid (dirs (p_s (prun 2 (pinit 2) h))) = [10000; 10001].
Proof.
  cbv zeta. split; [apply no_pcrash_b; vm_compute; reflexivity | by_eval].
Qed.

(** CrashLeftoverDirectoryBecomesLive.  (a) capacity 1: crash right after [FwMkdir];
    (b) capacity 2, types 0 and 1: crash after the files of type 0 were written. *)
Definition leftover_a : list clabel :=
  map CBase [LStore (mkEv 0 0 0); LFw FwBegin; LFw FwMkdir].
Definition leftover_b : list clabel :=
  map CBase [LStore (mkEv 0 0 0); LStore (mkEv 1 0 1); LWalWrite; LWalWrite;
             LFw FwBegin; LFw FwMkdir; LFw (FwWrite 0)].

Lemma crash_leftover_refuted :
  (exists c pre, let s0 := crun (init c) pre in
     let s := crun (init c) (pre ++ [CBase LCrash; CBase LRestart]) in
     hist_ok (init c) pre = true /\ ~ In 0 (live s0) /\ ~ Complete s0 0 /\
     jobs s0 = [mkJob 0 [mkEv 0 0 0] StBegun] /\
     In 0 (live s) /\ index s = [] /\ dirs s = [mkSeg 0 []]) /\
  (exists c pre, let s0 := crun (init c) pre in
     let s := crun (init c) (pre ++ [CBase LCrash; CBase LRestart]) in
     hist_ok (init c) pre = true /\ ~ In 0 (live s0) /\ ~ Complete s0 0 /\
     jobs s0 = [mkJob 0 [mkEv 0 0 0; mkEv 1 0 1] StBegun] /\
     In 0 (live s) /\ index s = [] /\ dirs s = [mkSeg 0 [mkEv 0 0 0]] /\
     mem s = [mkEv 0 0 0; mkEv 1 0 1]).
Proof.
  split.
  - exists 1, leftover_a. cbv zeta. do 2 eval_split.
    split; [intros [_ H]; specialize (H (mkJob 0 [mkEv 0 0 0] StBegun)); vm_compute in H;
            specialize (H (or_introl eq_refl) eq_refl); discriminate|].
    by_eval.
  - exists 2, leftover_b. cbv zeta. do 2 eval_split.
    split; [intros [_ H]; specialize (H (mkJob 0 [mkEv 0 0 0; mkEv 1 0 1] StBegun)); vm_compute in H;
            specialize (H (or_introl eq_refl) eq_refl); discriminate|].
    by_eval.
Qed.

(** L0IdReusedAfterCompactionAndRestart.  Capacity 1, k = 2: segments 0 and 1 are merged into
    10000 and reclaimed; [restart] seeds the level-0 allocator from the directory names that
    still exist ([alloc0_from [10000] = 0]), so the next flush publishes the name 0 again. *)
Definition l0r1 : list clabel := seg1 0 ++ seg1 1.
Definition l0r2 : list clabel := whole (mkBatch 10000 [0; 1] [0]) [0; 1].
Definition l0r3 : list clabel := [CBase LCrash; CBase LRestart] ++ seg1 2.

Lemma l0_reuse_after_restart_refuted :
  exists c k l1 l2 l3 i,
    let s1 := crun (init c) l1 in
    let s2 := crun (init c) (l1 ++ l2) in
    let s3 := crun (init c) (l1 ++ l2 ++ l3) in
    hist_ok (init c) (l1 ++ l2) = true /\ policy_ok k (init c) (l1 ++ l2) = true /\
    l3 = [CBase LCrash; CBase LRestart] ++ seg1 2 /\
    hist_ok (crun (init c) (l1 ++ l2 ++ [CBase LCrash; CBase LRestart])) (seg1 2) = true /\
    In i (live s1) /\ rows_of (dirs s1) i = [mkEv 0 0 0] /\
    ~ In i (live s2) /\ ~ has_dir (dirs s2) i /\ alloc0 s2 = 2 /\
    alloc0 (crun (init c) (l1 ++ l2 ++ [CBase LCrash; CBase LRestart])) = 0 /\
    In i (live s3) /\ In i (index_labels (index s3)) /\ rows_of (dirs s3) i = [mkEv 2 0 0].
Proof.
  exists 1, 2, l0r1, l0r2, l0r3, 0. cbv zeta.
  do 2 eval_split. split; [reflexivity|]. do 4 eval_split.
  split; [apply has_dirb_false_not; vm_compute; reflexivity | by_eval].
Qed.

(** The guard of [CReclaim] (no queued flush job refers to the directory) is needed
    in the model: a [batch_ok] batch that drains a segment whose flush job is between
    [FwIndex] and [FwPublish], followed by [FwPublish], leaves a live id without a
    directory.  (Model-level interleaving; not observed on the engine.) *)
Definition race : list clabel :=
  map CBase [LStore (mkEv 0 0 0); LFw FwBegin; LFw FwMkdir; LFw (FwWrite 0); LFw FwIndex]
  ++ whole (mkBatch 10000 [0] [0]) [0] ++ [CBase (LFw FwPublish)].

Example reclaim_guard_needed :
  let s := crun (init 1) race in
  policy_ok 2 (init 1) race = true /\ hist_ok (init 1) race = false /\
  live s = [10000; 0] /\ map sid (dirs s) = [10000].
Proof. by_eval. Qed.

(** the history of the C05 example (three segments, two event types, two batches): id 10000 is
    live from the end of the first batch on, throughout the second *)
Example live_rows_immutable_example :
  let pre := map CBase ls_3 ++ whole b_31 [1] in
  let post := whole b_32 [0; 2] in
  hist_ok (init 2) (pre ++ post) = true /\ policy_ok 2 (init 2) (pre ++ post) = true /\
  (forall n, In 10000 (live (crun (init 2) (pre ++ firstn n post)))) /\
  live (crun (init 2) pre) = [0; 2; 10000] /\ live (crun (init 2) (pre ++ post)) = [10000; 10001] /\
  index (crun (init 2) (pre ++ post)) = [(10000, [0]); (10001, [1])] /\
  rows_of (dirs (crun (init 2) (pre ++ post))) 10000 = [mkEv 0 0 0; mkEv 2 0 0; mkEv 3 1 0].
Proof.
  cbv zeta. do 2 eval_split.
  split; [intros n; apply memb_true_in; destruct n as [|[|[|[|[|n]]]]]; vm_compute; reflexivity | by_eval].
Qed.

Example guards_flush_example :
  hist_ok (init 2) (map CBase ls_ex) = true /\
  map jstage (jobs (crun (init 2) (map CBase ls_ex))) = [StBegun; StQueued] /\
  live (crun (init 2) (map CBase ls_ex)) = [0].
Proof. by_eval. Qed.
