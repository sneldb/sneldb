(** The FILTER expression grammar of PLOT (plotql.rs carries its own copy of the or / and / factor
    rules over its own leaves): printing a well-formed filter and parsing it with the PLOT grammar
    gives the filter back; NOT > AND > OR, parentheses and right-nesting as for QUERY. *)
From Coq Require Import NArith ZArith List Bool Lia.
From Coq Require Import ZifyBool ZifyNat ZifyN.
From Snel Require Import Base.Bytes Model.Tokenizer Model.Parser Model.PlotQL Model.Printer
  Proofs.ParserBasics Proofs.ExprRoundTrip Proofs.ExprRoundTripG Proofs.FuelProofs Proofs.PlotProofs
  Proofs.QueryRoundTrip Proofs.ParserProofs.
Import ListNotations.
Open Scope N_scope.

(** * well-formed PLOT filters: comparisons and non-empty IN lists over hyphen-free, non-keyword identifiers *)

Definition pid_syntax (i : bytes) : bool :=
  match i with c :: r => is_ident_start c && forallb is_pa r | [] => false end.
Definition wf_pident (i : bytes) : bool := pid_syntax i && negb (is_keyword (fst (span is_alpha i))).
Definition wf_pfield (f : bytes) : bool :=
  match split_dot f with
  | (a, None) => wf_pident a
  | (a, Some b2) => wf_pident a && pid_syntax b2
  end.

Definition wf_pleaf (e : expr) : bool :=
  match e with
  | ECmp f _ v => wf_pfield f && wf_val v
  | EIn f vs => wf_pfield f && negb (match vs with [] => true | _ => false end) && forallb wf_val vs
  | _ => false
  end.

Definition pstop (rest : bytes) : bool := negb (head_is (fun c => is_pa c || (c =? 45) || (c =? 46)) rest).

Lemma pa_identchar : forall c, is_pa c = true -> is_ident_char c = true.
Proof. intros c H. unfold is_pa, is_alpha, is_digit in H. unfold is_ident_char, is_alpha, is_digit. lia. Qed.

Lemma pid_ident_syntax : forall i, pid_syntax i = true -> ident_syntax i = true.
Proof.
  intros [|c r] H; [discriminate|]. cbn [pid_syntax ident_syntax] in *. apply andb_prop in H as [H1 H2]. rewrite H1. cbn [andb].
  clear H1. induction r as [|x r IH]; [reflexivity|]. cbn [forallb] in *. apply andb_prop in H2 as [Hx Hr].
  rewrite (pa_identchar x Hx), (IH Hr). reflexivity.
Qed.

Lemma wf_pident_ident : forall i, wf_pident i = true -> wf_ident i = true.
Proof. intros i H. unfold wf_pident in H. apply andb_prop in H as [H1 H2]. unfold wf_ident. rewrite (pid_ident_syntax i H1), H2. reflexivity. Qed.

Lemma wf_pfield_field : forall f, wf_pfield f = true -> wf_field f = true.
Proof.
  intros f H. unfold wf_pfield in H. unfold wf_field. destruct (split_dot f) as [a [b2|]].
  - apply andb_prop in H as [H1 H2]. rewrite (wf_pident_ident a H1), (pid_ident_syntax b2 H2). reflexivity.
  - apply wf_pident_ident; auto.
Qed.

Lemma p_ident_print : forall i rest, pid_syntax i = true -> head_is is_ident_char rest = false -> p_ident (i ++ rest) = Some (i, rest).
Proof.
  intros [|c r] rest Hi Hr; [discriminate|]. cbn [pid_syntax] in Hi. apply andb_prop in Hi as [Hc Hr'].
  unfold p_ident. cbn [app]. rewrite Hc.
  assert (Hh : head_is is_pa rest = false /\ pid_tail (length rest) rest = ([], rest)).
  { destruct rest as [|x y]; [split; reflexivity|]. cbn [head_is length pid_tail] in *. unfold is_ident_char in Hr. fold (is_pa x) in Hr.
    destruct (is_pa x); [discriminate|]. destruct (x =? 45); [discriminate|split; reflexivity]. }
  rewrite (span_app is_pa r rest Hr' (proj1 Hh)), (proj2 Hh), app_nil_r. reflexivity.
Qed.

Lemma p_field_print : forall f rest, wf_pfield f = true -> fld_stop rest = true -> p_field (f ++ rest) = Some (f, rest).
Proof.
  intros f rest Hf Hr. unfold wf_pfield in Hf.
  destruct (split_dot f) as [a o] eqn:S. apply split_dot_spec in S as [Hnd Hf'].
  unfold p_field. destruct o as [b2|].
  - apply andb_prop in Hf as [Ha Hb]. subst f. norm_app.
    unfold wf_pident in Ha. apply andb_prop in Ha as [Ha _].
    rewrite (p_ident_print a (46 :: b2 ++ rest) Ha eq_refl). cbn [N.eqb Pos.eqb].
    rewrite (p_ident_print b2 rest Hb (fld_stop_nonident _ Hr)). reflexivity.
  - subst f. unfold wf_pident in Hf. apply andb_prop in Hf as [Ha _].
    rewrite (p_ident_print a rest Ha (fld_stop_nonident _ Hr)). destruct rest as [|c r]; auto. rewrite (fld_stop_nodot _ _ Hr). auto.
Qed.

(** [pstop] is [fld_stop] unfolded: [is_ident_char] is [is_pa] or '-' *)
Lemma head_ok_pstop : forall rest, head_ok rest = true -> pstop rest = true.
Proof. exact head_ok_fld_stop. Qed.

Lemma p_value_print : forall v rest, wf_val v = true -> fld_stop rest = true -> p_value (print_val v ++ rest) = Ok (v, rest).
Proof. exact (value_alt_print true _). Qed.

Section PRT.
Variable sp : bytes -> bytes.
Hypothesis Hsp : speller_ok sp.

Lemma pfield_nows : forall f rest, wf_pfield f = true -> head_is is_tws (f ++ rest) = false.
Proof.
  intros f rest Hf. apply wf_field_nows, wf_pfield_field, Hf.
Qed.

Lemma p_leaf_field : forall s, p_leaf s =
  match p_field s with
  | Some (f, r) => match after_field p_value p_value_list f r with Err => p_exists_expr s | x => x end
  | None => p_exists_expr s
  end.
Proof.
  intros. unfold p_leaf, p_comparison, p_in_expr, p_fieldp. rewrite alt_lift_prefix. reflexivity.
Qed.

Lemma pleaf_cmp : forall f o v rest, wf_pfield f = true -> wf_val v = true -> head_ok rest = true ->
  p_leaf (f ++ 32 :: print_op o ++ 32 :: print_val v ++ rest) = Ok (ECmp f o v, rest).
Proof.
  intros f o v rest Hf Hv Hr. rewrite p_leaf_field, (p_field_print f (32 :: _) Hf eq_refl).
  rewrite after_field_cmp; auto using p_value_print, head_ok_fld_stop.
Qed.

Lemma p_vals_print : forall vs rest, vs <> [] -> forallb wf_val vs = true ->
  p_value_list (print_vals vs ++ 41 :: rest) = Ok (vs, 41 :: rest).
Proof. intros [|v vs] rest Hne Hv; [congruence|]. apply sep_list_cons, (vals_alt_print true _ (fun _ => eq_refl)), Hv. Qed.

Lemma pleaf_in : forall f vs rest, wf_pfield f = true -> vs <> [] -> forallb wf_val vs = true ->
  p_leaf (f ++ 32 :: sp K_IN ++ 32 :: 40 :: print_vals vs ++ 41 :: rest) = Ok (EIn f vs, rest).
Proof.
  intros f vs rest Hf Hne Hv. rewrite p_leaf_field, (p_field_print f (32 :: _) Hf eq_refl).
  rewrite (after_field_in sp Hsp); auto using p_vals_print.
Qed.

Lemma wf_pleaf_cmp_print : forall f o v lvl, wf_val v = true ->
  print_expr_at sp lvl (ECmp f o v) = f ++ 32 :: print_op o ++ 32 :: print_val v.
Proof. intros f o v lvl Hv. destruct v as [| | |[|]]; try discriminate; destruct o; reflexivity. Qed.

Lemma pleaf_ok : forall e lvl rest, is_leafe e = true -> wf_pleaf e = true -> fstop rest ->
  (ci K_NOT (print_expr_at sp lvl e ++ rest) = None /\ lit 40 (print_expr_at sp lvl e ++ rest) = None) /\
  p_leaf (print_expr_at sp lvl e ++ rest) = Ok (e, rest).
Proof.
  intros [f o v|f vs|x y|x y|x] lvl rest Hl Hw (Hh & _ & _); try discriminate; cbn [wf_pleaf] in Hw.
  - apply andb_prop in Hw as [Hf Hv]. rewrite (wf_pleaf_cmp_print f o v lvl Hv). norm_app.
    split; [apply leaf_front; auto using wf_pfield_field|apply pleaf_cmp; auto].
  - apply andb_prop in Hw as [Hw Hv]. apply andb_prop in Hw as [Hf Hne]. cbn [print_expr_at]. norm_app.
    split; [apply leaf_front; auto using wf_pfield_field|apply pleaf_in; auto]. destruct vs; [discriminate|congruence].
Qed.

Lemma pleaf_nows : forall e lvl rest, is_leafe e = true -> wf_pleaf e = true ->
  head_is is_tws (print_expr_at sp lvl e ++ rest) = false.
Proof.
  intros [f o v|f vs|x y|x y|x] lvl rest Hl Hw; try discriminate; cbn [wf_pleaf] in Hw.
  - apply andb_prop in Hw as [Hf Hv]. rewrite (wf_pleaf_cmp_print f o v lvl Hv). norm_app.
    apply pfield_nows, Hf.
  - apply andb_prop in Hw as [Hw Hv]. apply andb_prop in Hw as [Hf Hne]. cbn [print_expr_at]. norm_app.
    apply pfield_nows, Hf.
Qed.

Definition wf_pexpr : expr -> bool := wf_g wf_pleaf.

Lemma plot_print_at : forall e rest, wf_pexpr e = true -> ostop rest ->
  p_expression (print_expr sp e ++ rest) = Ok (e, rest).
Proof. exact (print_at_g p_leaf sp Hsp wf_pleaf pleaf_ok pleaf_nows p_leaf_c (p_leaf_a Fuel)). Qed.

End PRT.

Definition plot_filter (s : bytes) : res expr :=
  match p_expression s with
  | Ok (e, []) => Ok e
  | Ok (_, _ :: _) => Err
  | Err => Err | Panic k => Panic k | OOF => OOF
  end.

Theorem plot_parse_print_expr : forall sp e, speller_ok sp -> wf_pexpr e = true ->
  plot_filter (print_expr sp e) = Ok e.
Proof.
  intros sp e Hsp Hw. unfold plot_filter.
  pose proof (plot_print_at sp Hsp e [] Hw ostop_nil) as H. rewrite app_nil_r in H. rewrite H. auto.
Qed.

Lemma plot_precedence_all : forall sp, speller_ok sp -> forall a b c,
  wf_pexpr a = true -> wf_pexpr b = true -> wf_pexpr c = true ->
  is_factor a = true -> is_factor b = true -> is_factor c = true -> precedence plot_filter sp a b c.
Proof.
  intros sp Hsp. exact (precedence_g plot_filter wf_pexpr sp (fun e => plot_parse_print_expr sp e Hsp)
                          (fun _ _ => eq_refl) (fun _ _ => eq_refl) (fun _ => eq_refl)).
Qed.

Example plot_precedence_example :
  let a := ECmp [97] OpGt (VInt 1) in wf_pexpr a = true /\ is_factor a = true.
Proof. split; reflexivity. Qed.
