(** Proofs about Model/Temporal.v (C08 part B): the selector over the built index keeps every zone that holds
    a matching row, outside two classes ([temporal_known]); [temporal_core] has it from what the built index
    owes each zone ([serves]).
    Model/TimeSites.v models the same pruner (temporal_pruner.rs) a second time for C16; no lemma relates the two
    models. *)
From Coq Require Import ZArith List Bool Lia Sorted.
From Coq Require Import ZifyBool ZifyN.
From Snel Require Import Gen.Params Model.ZoneSel Model.Time Model.Temporal Proofs.ListFacts Proofs.ZoneSelProofs.
Import ListNotations.

Section Buckets.
Open Scope N_scope.

(** Read off Gen/Params.v: the loop steps by the bucket size ([zidx_hour_step] = [zidx_hour_secs],
    [zidx_day_step] = [zidx_day_secs]), and the sizes are positive. *)
Lemma gran_step_secs : forall g, gran_step g = gran_secs g.
Proof. destruct g; reflexivity. Qed.
Lemma gran_secs_pos : forall g, 0 < gran_secs g.
Proof. destruct g; vm_compute; reflexivity. Qed.

Lemma nb_aligned : forall g ts, naive_bucket_of g (naive_bucket_of g ts) = naive_bucket_of g ts.
Proof.
  intros g ts. unfold naive_bucket_of. pose proof (gran_secs_pos g).
  rewrite N.div_mul by lia. reflexivity.
Qed.
Lemma nb_mono : forall g a b, a <= b -> naive_bucket_of g a <= naive_bucket_of g b.
Proof.
  intros g a b Hab. unfold naive_bucket_of. pose proof (gran_secs_pos g).
  apply N.mul_le_mono_r. apply N.div_le_mono; lia.
Qed.
Lemma nb_le : forall g a, naive_bucket_of g a <= a.
Proof.
  intros g a. unfold naive_bucket_of. pose proof (gran_secs_pos g).
  rewrite N.mul_comm. apply N.mul_div_le. lia.
Qed.
Lemma bucket_id_aligned : forall g ts, bucket_id g (naive_bucket_of g ts) = bucket_id g ts.
Proof. intros g ts. unfold bucket_id. now rewrite nb_aligned. Qed.

Lemma iter_mark : forall g z t m n,
  let st := N.iter n (mark_body g z) (t, m) in
  fst st = t + n * gran_step g /\
  forall k, k < n -> in_bucket (snd st) (bucket_id g (t + k * gran_step g)) z.
Proof.
  intros g z t m n st. subst st. pattern n, (N.iter n (mark_body g z) (t, m)). apply N.iter_ind.
  - split; [cbn; lia | intros k Hk; lia].
  - clear n. intros n [t' m'] [Hf Hk]. cbn [fst snd mark_body] in *. subst t'. split; [lia|].
    intros k Hlt. destruct (N.eq_dec k n) as [->|Hne]; [apply in_bucket_add_same | apply in_bucket_add_mono, Hk; lia].
Qed.

Lemma mark_range_mono : forall g z lo hi m b z0,
  in_bucket m b z0 -> in_bucket (mark_range g z lo hi m) b z0.
Proof.
  intros g z lo hi m b z0 Hin. unfold mark_range.
  destruct (naive_bucket_of g hi <? naive_bucket_of g lo); [assumption|].
  apply N.iter_invariant; [intros st; apply in_bucket_add_mono | exact Hin].
Qed.

Lemma mark_range_spec : forall g z lo hi m ts,
  lo <= ts -> ts <= hi -> in_bucket (mark_range g z lo hi m) (bucket_id g ts) z.
Proof.
  intros g z lo hi m ts Hlo Hhi. rewrite <- (bucket_id_aligned g ts).
  unfold mark_range, naive_bucket_of. replace (gran_step g) with (gran_secs g) by (symmetry; apply gran_step_secs).
  pose proof (gran_secs_pos g) as Hs.
  assert (Hab : lo / gran_secs g <= ts / gran_secs g) by (apply N.div_le_mono; [lia | exact Hlo]).
  assert (Hbc : ts / gran_secs g <= hi / gran_secs g) by (apply N.div_le_mono; [lia | exact Hhi]).
  (* quotients and bucket size as variables from here on *)
  revert Hab Hbc. generalize (lo / gran_secs g) (ts / gran_secs g) (hi / gran_secs g). intros a b c Hab Hbc.
  destruct (N.ltb_spec (c * gran_secs g) (a * gran_secs g)) as [Hlt|_]; [nia|].
  rewrite <- N.mul_sub_distr_r, N.div_mul by lia.
  destruct (iter_mark g z (a * gran_secs g) m (c - a + 1)) as [_ Hk].
  specialize (Hk (b - a)). replace (gran_step g) with (gran_secs g) in Hk by (symmetry; apply gran_step_secs).
  rewrite <- N.mul_add_distr_r in Hk.
  replace (a + (b - a)) with b in Hk by lia. apply Hk. lia.
Qed.

Lemma zones_for_ts_in : forall c ts z,
  in_bucket (cal_hour c) (bucket_id GHour ts) z -> In z (zones_for_ts c ts).
Proof. intros c ts z [s [Hg Hin]]. unfold zones_for_ts. now rewrite Hg. Qed.

Lemma union_where_in : forall p m b z,
  in_bucket m b z -> p b = true -> In z (union_where p m).
Proof.
  intros p m b z [s [Hg Hz]] Hp. apply am_get_in in Hg. unfold union_where.
  induction m as [|[b' s'] r IH]; [contradiction|].
  cbn [fold_right fst snd]. destruct Hg as [[= -> ->]|Hin].
  - rewrite Hp. apply zs_union_in. now left.
  - destruct (p b'); [apply zs_union_in; right|]; now apply IH.
Qed.

Lemma zones_for_ge_in : forall c ts b z,
  in_bucket (cal_day c) b z -> bucket_id GDay ts <= b -> In z (zones_for_ge c ts).
Proof. intros c ts b z Hb Hle. apply (union_where_in _ _ b z Hb), N.leb_le, Hle. Qed.
Lemma zones_for_le_in : forall c ts b z,
  in_bucket (cal_day c) b z -> b <= bucket_id GDay ts -> In z (zones_for_le c ts).
Proof. intros c ts b z Hb Hle. apply (union_where_in _ _ b z Hb), N.leb_le, Hle. Qed.

Definition filed (c : calendar) (ts zid : N) : Prop :=
  in_bucket (cal_hour c) (bucket_id GHour ts) zid /\ in_bucket (cal_day c) (bucket_id GDay ts) zid.

Lemma add_zone_range_keeps : forall c z lo hi ts z0, filed c ts z0 -> filed (add_zone_range c z lo hi) ts z0.
Proof. intros c z lo hi ts z0 [Hh Hd]. split; cbn; now apply mark_range_mono. Qed.

Lemma add_zone_range_marks : forall c z lo hi ts, lo <= ts -> ts <= hi -> filed (add_zone_range c z lo hi) ts z.
Proof. intros. split; cbn; now apply mark_range_spec. Qed.
End Buckets.

Open Scope Z_scope.

(** The theorems below hold for these values of Gen/Params.v: the per-zone index keeps every instant (stride 1);
    the pruner does not answer [!=]; the selector asks the pruner whatever the operator, and takes every zone
    when the answer to [!=] or [IN] is [None]. *)
Lemma zidx_stride_flag : zidx_stride = 1. Proof. reflexivity. Qed.
Lemma temporal_handles_neq_flag : zidx_temporal_handles_neq = false. Proof. reflexivity. Qed.
Lemma temporal_noneq_bypass_flag : zidx_sel_temporal_noneq_bypass = false. Proof. reflexivity. Qed.
Lemma temporal_none_neq_all_flag : zidx_sel_temporal_none_neq_all = true. Proof. reflexivity. Qed.
Lemma temporal_none_in_all_flag : zidx_sel_temporal_none_in_all = true. Proof. reflexivity. Qed.

Lemma zins_in : forall t s x, In x (zins t s) <-> x = t \/ In x s.
Proof.
  intros t. apply insert_in; [reflexivity|]. intros x r. cbn [zins].
  destruct (Z.ltb_spec t x); [auto|]. destruct (Z.eqb_spec t x); auto.
Qed.
Lemma sort_dedup_in : forall l x, In x (sort_dedup l) <-> In x l.
Proof. intros l x. unfold sort_dedup. rewrite (fold_insert_in zins zins_in). cbn [In]. tauto. Qed.

Lemma zins_sorted : forall t s, StronglySorted Z.lt s -> StronglySorted Z.lt (zins t s).
Proof.
  intros t s Hs. induction Hs as [|y r Hr IH Hy]; cbn [zins]; [repeat constructor|].
  destruct (Z.ltb_spec t y) as [Hlt|Hge].
  - constructor; [now constructor|]. constructor; [exact Hlt|]. eapply Forall_impl; [|exact Hy]. intros x Hx. lia.
  - destruct (Z.eqb_spec t y) as [->|Hne]; [now constructor|]. constructor; [exact IH|].
    apply Forall_forall. intros x Hx. apply zins_in in Hx as [->|Hx]; [lia|]. exact (proj1 (Forall_forall _ _) Hy x Hx).
Qed.
Lemma sort_dedup_sorted : forall l, StronglySorted Z.lt (sort_dedup l).
Proof.
  intros l. unfold sort_dedup. induction l as [|y r IH]; cbn [fold_right]; [constructor|].
  now apply zins_sorted.
Qed.

Lemma sorted_hd_le : forall s x, StronglySorted Z.lt s -> In x s -> hd 0 s <= x.
Proof.
  intros s x Hs Hin. destruct Hs as [|y r _ Hy]; [contradiction|]. cbn [hd].
  destruct Hin as [->|Hin]; [lia|]. apply (proj1 (Forall_forall _ _) Hy) in Hin. lia.
Qed.
Lemma sorted_le_last : forall s x, StronglySorted Z.lt s -> In x s -> x <= last s 0.
Proof.
  intros s x Hs. revert x. induction Hs as [|y r Hr IH Hy]; intros x Hin; [contradiction|].
  destruct r as [|y2 r2]; [destruct Hin as [->|[]]; cbn; lia|].
  change (last (y :: y2 :: r2) 0) with (last (y2 :: r2) 0).
  destruct Hin as [->|Hin]; [|now apply IH].
  pose proof (IH y2 (or_introl eq_refl)). apply Forall_inv in Hy. lia.
Qed.

Lemma ft_min : forall ts, z_min (from_timestamps ts) = hd 0 (sort_dedup ts). Proof. reflexivity. Qed.
Lemma ft_max : forall ts, z_max (from_timestamps ts) = last (sort_dedup ts) 0. Proof. reflexivity. Qed.
Lemma ft_keys : forall ts, z_keys (from_timestamps ts) = map (key_of (hd 0 (sort_dedup ts))) (sort_dedup ts).
Proof. reflexivity. Qed.

Lemma ft_bounds : forall ts t, In t ts ->
  z_min (from_timestamps ts) <= t <= z_max (from_timestamps ts).
Proof.
  intros ts t Hin. rewrite ft_min, ft_max.
  pose proof (sort_dedup_sorted ts) as Hs. apply sort_dedup_in in Hin.
  split; [now apply sorted_hd_le|now apply sorted_le_last].
Qed.

(** No bound on the span of the zone is needed: the probe computes its key by the very expression [key_of]
    stores, the i64 wrap included.  (The code bisects where [contains_ts] tests membership: [keys_sorted],
    Props/C08.v.) *)
Lemma ft_contains : forall ts t, In t ts -> contains_ts (from_timestamps ts) t = true.
Proof.
  intros ts t Hin. pose proof (ft_bounds ts t Hin) as [Hlo Hhi].
  unfold contains_ts.
  destruct (Z.ltb_spec t (z_min (from_timestamps ts))) as [?|_]; [lia|].
  destruct (Z.gtb_spec t (z_max (from_timestamps ts))) as [?|_]; [lia|].
  cbn [orb]. replace (zidx_stride >? 1) with false by now rewrite zidx_stride_flag. cbn [andb].
  apply existsb_exists. rewrite ft_keys, ft_min.
  exists (key_of (hd 0 (sort_dedup ts)) t). split.
  - apply in_map. now apply sort_dedup_in.
  - unfold key_of. apply N.eqb_refl.
Qed.

Lemma to_i64_small : forall z, - 2 ^ 63 <= z < 2 ^ 63 -> to_i64 z = z.
Proof. intros z Hz. unfold to_i64. lia. Qed.

Fixpoint nsorted (l : list N) : Prop :=
  match l with
  | [] => True
  | x :: r => (forall y, In y r -> (x < y)%N) /\ nsorted r
  end.

Lemma nsorted_of : forall l, StronglySorted N.lt l -> nsorted l.
Proof. induction 1 as [|x r _ IH Hx]; [exact I|]. split; [apply Forall_forall, Hx | exact IH]. Qed.

Lemma keys_sorted_aux : forall mn s,
  StronglySorted Z.lt s -> (forall x, In x s -> mn <= x /\ x - mn < 2 ^ 63) -> nsorted (map (key_of mn) s).
Proof.
  intros mn s Hs Hb. apply nsorted_of, (sorted_map Z.lt N.lt (key_of mn) s); [|exact Hs].
  intros a b Ha Hb' Hab. destruct (Hb a Ha), (Hb b Hb').
  unfold key_of. rewrite zidx_stride_flag, !Z.quot_1_r, !to_i64_small by lia. lia.
Qed.

Lemma keys_sorted : forall ts,
  (forall a b, In a ts -> In b ts -> b - a < 2 ^ 63) ->
  nsorted (z_keys (from_timestamps ts)).
Proof.
  intros ts Hspan. rewrite ft_keys.
  apply keys_sorted_aux; [apply sort_dedup_sorted|].
  intros x Hx. pose proof (sort_dedup_sorted ts) as Hs.
  split; [now apply sorted_hd_le|].
  destruct (sort_dedup ts) as [|y r] eqn:E; [contradiction|]. cbn [hd].
  apply Hspan; apply sort_dedup_in; rewrite E; [now left|assumption].
Qed.

Lemma zmin_list_le : forall l x, In x l -> zmin_list l <= x.
Proof. intros l x H. exact (proj1 (fold_right_min_max l _ (hd 0 l) x (or_intror H))). Qed.
Lemma zmax_list_ge : forall l x, In x l -> x <= zmax_list l.
Proof. intros l x H. exact (proj2 (fold_right_min_max l (hd 0 l) _ x (or_intror H))). Qed.
Lemma fold_right_pick : forall f : Z -> Z -> Z, (forall a b, {f a b = a} + {f a b = b}) ->
  forall l d, In (fold_right f d l) (d :: l).
Proof.
  intros f Hf. induction l as [|y r IH]; intros d; cbn [fold_right]; [now left|].
  destruct (Hf y (fold_right f d r)) as [-> | ->]; [right; now left|].
  destruct (IH d) as [<-|H]; [now left | right; now right].
Qed.
Lemma zmin_list_in : forall l, l <> [] -> In (zmin_list l) l.
Proof.
  intros [|y r] H; [congruence|]. unfold zmin_list. cbn [hd].
  destruct (fold_right_pick Z.min Z.min_dec (y :: r) y) as [<-|Hin]; [now left | exact Hin].
Qed.
Lemma zmax_list_in : forall l, l <> [] -> In (zmax_list l) l.
Proof.
  intros [|y r] H; [congruence|]. unfold zmax_list. cbn [hd].
  destruct (fold_right_pick Z.max Z.max_dec (y :: r) y) as [<-|Hin]; [now left | exact Hin].
Qed.
Lemma zmin_list_ge : forall l a, l <> [] -> (forall x, In x l -> a <= x) -> a <= zmin_list l.
Proof. intros l a Hne Hl. apply Hl, zmin_list_in, Hne. Qed.
Lemma zmax_list_le : forall l a, l <> [] -> (forall x, In x l -> x <= a) -> zmax_list l <= a.
Proof. intros l a Hne Hl. apply Hl, zmax_list_in, Hne. Qed.

Definition add_zone' (mode : N) (ix : tindex) (zv : N * list Z) : tindex := add_zone mode ix (fst zv) (snd zv).

Lemma build_fold : forall mode zones, build mode zones = fold_left (add_zone' mode) zones tindex_empty.
Proof. reflexivity. Qed.

Lemma zti_lookup_app1 : forall zid l z x,
  zti_lookup zid (l ++ [(z, x)]) = if (z =? zid)%N then Some x else zti_lookup zid l.
Proof.
  intros zid l z x. induction l as [|[z0 x0] r IH]; cbn [app zti_lookup].
  - destruct (z =? zid)%N; reflexivity.
  - rewrite IH. destruct (z =? zid)%N; reflexivity.
Qed.

Lemma add_zone_ztis : forall mode ix zid vals,
  t_ztis (add_zone mode ix zid vals) =
  match vals with [] => t_ztis ix | _ => t_ztis ix ++ [(zid, from_timestamps vals)] end.
Proof.
  intros mode ix zid vals. unfold add_zone. destruct vals as [|v r]; [reflexivity|].
  destruct (cal_range mode (zmin_list (v :: r)) (zmax_list (v :: r))) as [[lo hi]|]; reflexivity.
Qed.

Lemma add_zone_cal : forall mode ix zid vals, vals <> [] ->
  t_cal (add_zone mode ix zid vals) =
  match cal_range mode (zmin_list vals) (zmax_list vals) with
  | Some (lo, hi) => Some (add_zone_range (match t_cal ix with Some c => c | None => cal_empty end) zid lo hi)
  | None => t_cal ix
  end.
Proof.
  intros mode ix zid [|v r] Hne; [congruence|]. unfold add_zone.
  destruct (cal_range mode (zmin_list (v :: r)) (zmax_list (v :: r))) as [[lo hi]|]; reflexivity.
Qed.

(** [Z.to_N] clamps at 0 already, so both modes give the same range *)
Lemma cal_range_spec : forall mode mn mx,
  (mode = 0%N -> 0 <= mn /\ 0 <= mx) ->
  cal_range mode mn mx = Some (Z.to_N mn, Z.to_N mx).
Proof.
  intros mode mn mx H. unfold cal_range. destruct mode as [|p].
  - destruct (H eq_refl) as [H1 H2].
    destruct (Z.leb_spec 0 mn); [|lia]. destruct (Z.leb_spec 0 mx); [|lia]. reflexivity.
  - f_equal. f_equal; lia.
Qed.

(** What the built index owes a zone that holds [vals]: its per-zone index and, in the calendar,
    every instant of the zone (clamped at 0) filed under it. *)
Definition serves (mode : N) (ix : tindex) (zid : N) (vals : list Z) : Prop :=
  zti_lookup zid (t_ztis ix) = Some (from_timestamps vals) /\
  ((mode = 0%N -> forall u, In u vals -> 0 <= u) ->
   exists c, t_cal ix = Some c /\ forall t, In t vals -> filed c (Z.to_N t) zid).

Lemma add_zone_serves : forall mode ix zid vals, vals <> [] -> serves mode (add_zone mode ix zid vals) zid vals.
Proof.
  intros mode ix zid vals Hne. split.
  - rewrite add_zone_ztis. destruct vals; [congruence|]. now rewrite zti_lookup_app1, N.eqb_refl.
  - intros Hb. rewrite add_zone_cal by exact Hne. rewrite cal_range_spec.
    + eexists. split; [reflexivity|]. intros t Ht.
      pose proof (zmin_list_le vals t Ht). pose proof (zmax_list_ge vals t Ht). apply add_zone_range_marks; lia.
    + intros Hm. specialize (Hb Hm). split; [now apply zmin_list_ge | apply Hb, zmax_list_in, Hne].
Qed.

Lemma add_zone_keeps : forall mode ix z vs zid vals, z <> zid ->
  serves mode ix zid vals -> serves mode (add_zone mode ix z vs) zid vals.
Proof.
  intros mode ix z vs zid vals Hne [Hlk Hcal]. split.
  - rewrite add_zone_ztis. destruct vs; [exact Hlk|]. rewrite zti_lookup_app1.
    destruct (N.eqb_spec z zid); [contradiction | exact Hlk].
  - intros Hb. destruct (Hcal Hb) as (c & Hc & Hm). destruct vs as [|v r]; [now exists c|].
    rewrite add_zone_cal by discriminate. destruct (cal_range mode _ _) as [[lo hi]|]; [|now exists c].
    rewrite Hc. eexists. split; [reflexivity|]. intros t Ht. apply add_zone_range_keeps, Hm, Ht.
Qed.

Lemma fold_keeps : forall mode rest ix zid vals, ~ In zid (map fst rest) ->
  serves mode ix zid vals -> serves mode (fold_left (add_zone' mode) rest ix) zid vals.
Proof.
  intros mode. induction rest as [|[z vs] r IH]; intros ix zid vals Hnin H; cbn [fold_left]; [exact H|].
  cbn [map fst In] in Hnin. apply IH; [tauto|]. apply add_zone_keeps; [tauto | exact H].
Qed.

Lemma build_serves : forall mode zones ix zid vals,
  NoDup (map fst zones) -> In (zid, vals) zones -> vals <> [] ->
  serves mode (fold_left (add_zone' mode) zones ix) zid vals.
Proof.
  intros mode. induction zones as [|[z vs] r IH]; intros ix zid vals Hnd Hin Hne; [contradiction|].
  cbn [map fst] in Hnd. inversion Hnd as [|? ? Hnin Hnd']; subst. cbn [fold_left].
  destruct Hin as [[= -> ->]|Hin]; [|now apply IH].
  apply fold_keeps; [exact Hnin | now apply add_zone_serves].
Qed.

(** the per-zone test is not clamped (sneldb commit db7c428) *)
Lemma lit_ts_spec : forall l v, lit_value l = Some (LVInt v) -> lit_ts l = v.
Proof.
  intros l v Hl. destruct l as [z|s|n d|]; cbn [lit_value lit_ts] in *.
  - now injection Hl.
  - destruct (parse_str_to_epoch_seconds s) as [p|]; [now injection Hl|discriminate].
  - discriminate.
  - discriminate.
Qed.

Definition day_in_u32 (x : Z) : Prop :=
  (naive_bucket_of GDay (Z.to_N x) < 2 ^ zidx_bucket_bits)%N.

Lemma bucket_id_small : forall g n,
  (naive_bucket_of g n < 2 ^ zidx_bucket_bits)%N -> bucket_id g n = naive_bucket_of g n.
Proof. intros g n H. unfold bucket_id. now apply N.mod_small. Qed.

Lemma cmp_holds_spec : forall op a b,
  cmp_holds op (a ?= b) = true ->
  match op with
  | OEq | OIn => a = b | ONeq => a <> b
  | OGt => a > b | OGte => a >= b | OLt => a < b | OLte => a <= b
  end.
Proof.
  intros op a b. destruct (Z.compare_spec a b); destruct op; cbn [cmp_holds]; intros; try discriminate; lia.
Qed.

Lemma bypass_temporal : forall op, bypass STemporal op = false.
Proof. intros op. exact (bypass_off STemporal op temporal_noneq_bypass_flag). Qed.

Ltac five_ops H := cbn [In] in H; destruct H as [<-|[<-|[<-|[<-|[<-|[]]]]]].

Lemma day_bucket_mono : forall a b, day_in_u32 a -> day_in_u32 b -> a <= b ->
  (bucket_id GDay (Z.to_N a) <= bucket_id GDay (Z.to_N b))%N.
Proof. unfold day_in_u32. intros a b Ha Hb Hab. rewrite !bucket_id_small by assumption. apply nb_mono. lia. Qed.

Lemma calendar_hit : forall c op t p zid,
  filed c (Z.to_N t) zid ->
  In op [OEq; OGt; OGte; OLt; OLte] -> cmp_holds op (t ?= p) = true ->
  (op = OEq \/ (day_in_u32 p /\ day_in_u32 t)) ->
  In zid (zones_intersecting c op (cal_ts p)).
Proof.
  intros c op t p zid [Mh Md] Hop Hcmp Hu. apply cmp_holds_spec in Hcmp. unfold cal_ts.
  assert (E : Z.to_N (Z.max p 0) = Z.to_N p) by lia.
  five_ops Hop; cbn [zones_intersecting]; rewrite (proj2 (Z.ltb_ge _ _)), E by lia.
  1: { rewrite <- Hcmp. apply zones_for_ts_in, Mh. }
  all: destruct Hu as [?|[U1 U2]]; [discriminate|].
  1-2: apply (zones_for_ge_in c _ _ zid Md), day_bucket_mono; [assumption | assumption | lia].
  all: apply (zones_for_le_in c _ _ zid Md), day_bucket_mono; [assumption | assumption | lia].
Qed.

Lemma zone_hit : forall vals op t p, In t vals ->
  In op [OEq; OGt; OGte; OLt; OLte] -> cmp_holds op (t ?= p) = true ->
  zone_overlaps op (from_timestamps vals) p = true.
Proof.
  intros vals op t p Ht Hop Hcmp. apply cmp_holds_spec in Hcmp. pose proof (ft_bounds vals t Ht) as [Fmin Fmax].
  five_ops Hop; cbn [zone_overlaps]; [|lia ..]. rewrite <- Hcmp. now apply ft_contains.
Qed.

Theorem temporal_core : forall mode is_ts zones zid vals t op l p all,
  NoDup (map fst zones) -> In (zid, vals) zones -> In t vals ->
  (mode = 0%N -> forall u, In u vals -> 0 <= u) ->
  lit_ts l = p ->
  In op [OEq; OGt; OGte; OLt; OLte] ->
  cmp_holds op (t ?= p) = true ->
  (op = OEq \/ (day_in_u32 p /\ day_in_u32 t)) ->
  In zid (select_temporal is_ts (build mode zones) all op l).
Proof.
  intros mode is_ts zones zid vals t op l p all Hnd Hin Ht Hb Hp Hop Hcmp Hu32.
  assert (Hne : vals <> []) by (intros ->; contradiction).
  rewrite build_fold.
  destruct (build_serves mode zones tindex_empty zid vals Hnd Hin Hne) as [Hlk Hcal].
  destruct (Hcal Hb) as [c [Hc Hm]].
  unfold select_temporal, apply_temporal_only.
  assert (Hans : op_answered op = true) by (five_ops Hop; reflexivity).
  rewrite Hans. cbn [negb]. rewrite Hp, Hc. rewrite select_some by apply bypass_temporal.
  apply filter_In. split; [apply (calendar_hit c op t); auto | rewrite Hlk; now apply (zone_hit vals op t)].
Qed.

(** [mode] and [is_ts] are free: no lemma instantiates this and the theorems below to the builders [build_fixed]
    (mode 0) and [build_cells] (mode 1) of the model (Props/C08.v).  Under mode 0 the zone must hold no negative
    value, which for [build_fixed] excludes stamps from 2^63 on ([to_i64]). *)
Theorem temporal_sound : forall mode is_ts zones zid vals t op l v all,
  NoDup (map fst zones) -> In (zid, vals) zones -> In t vals ->
  (mode = 0%N -> forall u, In u vals -> 0 <= u) ->
  lit_value l = Some (LVInt v) ->
  day_in_u32 v -> day_in_u32 t ->
  In op [OEq; OGt; OGte; OLt; OLte] ->
  row_matches op t (LVInt v) = true ->
  In zid (select_temporal is_ts (build mode zones) all op l).
Proof.
  intros mode is_ts zones zid vals t op l v all Hnd Hin Ht Hb Hl Uv Ut Hop Hm. cbn [row_matches] in Hm.
  apply (temporal_core mode is_ts zones zid vals t op l v all Hnd Hin Ht Hb (lit_ts_spec l v Hl) Hop Hm).
  right. split; assumption.
Qed.

(** [=] needs no bound at all on the magnitudes (bucket-id collisions only add zones). *)
Theorem temporal_eq_sound_any_magnitude : forall mode is_ts zones zid vals t l v all,
  NoDup (map fst zones) -> In (zid, vals) zones -> In t vals ->
  (mode = 0%N -> forall u, In u vals -> 0 <= u) ->
  lit_value l = Some (LVInt v) ->
  row_matches OEq t (LVInt v) = true ->
  In zid (select_temporal is_ts (build mode zones) all OEq l).
Proof.
  intros mode is_ts zones zid vals t l v all Hnd Hin Ht Hb Hl Hm. cbn [row_matches] in Hm.
  apply (temporal_core mode is_ts zones zid vals t OEq l v all Hnd Hin Ht Hb (lit_ts_spec l v Hl)
           (or_introl eq_refl) Hm).
  left. reflexivity.
Qed.

(** [!=] and [IN]: the pruner answers [None] and the selector takes every zone of the
    segment ([all]) (sneldb commit f801704). *)
Theorem temporal_neq_all_zones : forall is_ts ix all op l,
  op = ONeq \/ op = OIn ->
  select_temporal is_ts ix all op l = all.
Proof.
  intros is_ts ix all op l Hop. unfold select_temporal.
  assert (Hnone : apply_temporal_only is_ts ix op l = None).
  { unfold apply_temporal_only. destruct Hop as [-> | ->]; cbn [op_answered]; [rewrite temporal_handles_neq_flag|]; reflexivity. }
  rewrite Hnone. apply select_none_op_all; [apply bypass_temporal|]. unfold none_op_all.
  destruct Hop as [-> | ->]; [rewrite temporal_none_neq_all_flag | rewrite temporal_none_in_all_flag]; apply orb_true_r.
Qed.

Example temporal_sound_hyps_ok :
  let zones := [(0%N, [3599; 3600]); (1%N, [-7200; 86399; 90000])] in
  NoDup (map fst zones) /\ In (1%N, [-7200; 86399; 90000]) zones /\ In 90000 [-7200; 86399; 90000] /\
  lit_value (TLInt 86400) = Some (LVInt 86400) /\ day_in_u32 86400 /\ day_in_u32 90000 /\
  row_matches OGte 90000 (LVInt 86400) = true /\
  select_temporal false (build 1 zones) [0%N; 1%N] OGte (TLInt 86400) = [1%N].
Proof.
  cbn zeta.
  split; [repeat constructor; cbn; intuition discriminate|].
  split; [cbn; tauto|]. split; [cbn; tauto|].
  split; [reflexivity|].
  split; [vm_compute; reflexivity|]. split; [vm_compute; reflexivity|].
  split; vm_compute; reflexivity.
Qed.

(** the witnesses of the classes [TemporalNegativeValueInZone], [TemporalNegativeProbeGt] and
    [TemporalNeq] (known/C08.json, status fixed) keep their zone (payload field: mode 1) *)
Example temporal_fixed_witnesses_pass :
  select_temporal false (build 1 [(0%N, [-5; 100])]) [0%N] OEq (TLInt 100) = [0%N] /\
  select_temporal false (build 1 [(0%N, [-5; 100])]) [0%N] OEq (TLInt (-5)) = [0%N] /\
  select_temporal false (build 1 [(0%N, [0])]) [0%N] OGt (TLInt (-5)) = [0%N] /\
  select_temporal false (build 1 [(0%N, [1; 2])]) [0%N] ONeq (TLInt 1) = [0%N].
Proof. repeat apply conj; vm_compute; reflexivity. Qed.

(** bucket ids are truncated to 32 bits but compared with [<=]: a probe whose day bucket
    starts at or after 2^32 (7 Feb 2106) wraps below the buckets of present-day data *)
Theorem temporal_u32_wrap_refuted :
  exists zones zid vals t l v,
    NoDup (map fst zones) /\ In (zid, vals) zones /\ In t vals /\ (forall u, In u vals -> 0 <= u) /\
    lit_value l = Some (LVInt v) /\ 0 <= v /\ row_matches OLte t (LVInt v) = true /\
    ~ In zid (select_temporal false (build 1 zones) [zid] OLte l).
Proof.
  exists [(0%N, [1000000])], 0%N, [1000000], 1000000, (TLInt 4295030400), 4295030400.
  split; [repeat constructor; cbn; tauto|].
  split; [cbn; tauto|]. split; [cbn; tauto|].
  split; [intros u [<-|[]]; lia|]. split; [reflexivity|]. split; [lia|].
  split; [vm_compute; reflexivity|]. vm_compute. tauto.
Qed.

(** a Float64 literal is probed as 0, whatever its value: [< 100.5] becomes [< 0] *)
Theorem temporal_float_literal_refuted :
  exists zones zid vals t l n d,
    NoDup (map fst zones) /\ In (zid, vals) zones /\ In t vals /\ (forall u, In u vals -> 0 <= u) /\
    lit_value l = Some (LVRat n d) /\ row_matches OLt t (LVRat n d) = true /\
    ~ In zid (select_temporal false (build 1 zones) [zid] OLt l).
Proof.
  exists [(0%N, [50])], 0%N, [50], 50, (TLFloat 201 2), 201, 2%positive.
  split; [repeat constructor; cbn; tauto|].
  split; [cbn; tauto|]. split; [cbn; tauto|].
  split; [intros u [<-|[]]; lia|]. split; [reflexivity|].
  split; [vm_compute; reflexivity|]. vm_compute. tauto.
Qed.

Definition beyond_u32 (x : Z) : bool :=
  (2 ^ zidx_bucket_bits <=? naive_bucket_of GDay (Z.to_N x))%N.

(** For a row [t] that satisfies the probe: [TemporalNonIntegerLiteral] (a Float64 literal
    with one of [=,>,>=,<,<=]) and [TemporalBeyondU32] (a range operator with the probe's or
    the row's day bucket at or beyond 2^32). *)
Definition temporal_known (t : Z) (op : cmp_op) (l : tlit) : bool :=
  match op with
  | ONeq | OIn => false
  | _ =>
      match lit_value l with
      | None => false
      | Some (LVRat _ _) => true
      | Some (LVInt v) => negb (cmp_op_eqb op OEq) && (beyond_u32 v || beyond_u32 t)
      end
  end.

Lemma beyond_false : forall x, beyond_u32 x = false -> day_in_u32 x.
Proof. intros x H. unfold beyond_u32 in H. unfold day_in_u32. lia. Qed.

Theorem temporal_outside_known : forall mode is_ts zones zid vals t op l lv all,
  NoDup (map fst zones) -> In (zid, vals) zones -> In t vals -> In zid all ->
  (mode = 0%N -> forall u, In u vals -> 0 <= u) ->
  lit_value l = Some lv ->
  temporal_known t op l = false ->
  row_matches op t lv = true ->
  In zid (select_temporal is_ts (build mode zones) all op l).
Proof.
  intros mode is_ts zones zid vals t op l lv all Hnd Hin Ht Hall Hb Hl Hk Hm.
  destruct (cmp_op_eqb op ONeq || cmp_op_eqb op OIn) eqn:Eneq.
  - rewrite temporal_neq_all_zones; [assumption|]. destruct op; try discriminate; tauto.
  - assert (Hop : In op [OEq; OGt; OGte; OLt; OLte]) by (destruct op; cbn in Eneq |- *; try discriminate; tauto).
    unfold temporal_known in Hk. rewrite Hl in Hk.
    destruct lv as [v|n d]; [|five_ops Hop; discriminate Hk]. cbn [row_matches] in Hm.
    apply (temporal_core mode is_ts zones zid vals t op l v all Hnd Hin Ht Hb (lit_ts_spec l v Hl) Hop Hm).
    five_ops Hop; [left; reflexivity | right ..]; apply orb_false_iff in Hk as [B1 B2]; split; now apply beyond_false.
Qed.
