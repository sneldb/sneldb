(** Proofs about Model/Render.v (C20).  Of a stream of rows, each tagged with the de-duplication mode of its batch, a
    writer in state [st] hands on the OFFSET / LIMIT window of the first occurrences ([handed]); batch boundaries
    matter only through the mode ([run_batches_handed]), so every writer kind hands the renderers LIMIT (OFFSET (first
    occurrences)) of the tagged stream ([accepted_rows_spec]).  Which cells decode alike from every encoding is decided
    exactly by [known_class], and the status the HTTP front reads off an error body by [http_known]. *)
From Coq Require Import ZArith List Bool Lia.
From Snel Require Import Base.Bytes Gen.Params Model.Render Proofs.BytesFacts Proofs.ListFacts Proofs.WindowFacts.
Import ListNotations.
Open Scope N_scope.

(** as in [run_batches], an empty batch is not counted *)
Fixpoint tagged (k : wkind) (n : N) (bs : list batch) : list (dedup_mode * row) :=
  match bs with
  | [] => []
  | [] :: rest => tagged k n rest
  | b :: rest => map (pair (dedup_mode_of k n)) b ++ tagged k (N.succ n) rest
  end.

Lemma select_rows_cons : forall b i l,
  select_rows b (i :: l) =
  (match nth_error b (N.to_nat i) with Some r => [r] | None => [] end) ++ select_rows b l.
Proof. reflexivity. Qed.

Lemma nth_error_middle : forall (pre : list row) r rest,
  nth_error (pre ++ r :: rest) (length pre) = Some r.
Proof. induction pre as [|x pre IH]; intros; cbn; auto. Qed.

Definition is_dup (mode : dedup_mode) (seen : list N) (eid : option N) : bool :=
  match mode, eid with DedupOn, Some id => mem_N id seen | _, _ => false end.
Definition seen_after (mode : dedup_mode) (seen : list N) (eid : option N) : list N :=
  match mode, eid with
  | (DedupOn | DedupInsertOnly), Some id => if mem_N id seen then seen else id :: seen
  | _, _ => seen
  end.
Definition below_offset (cfg : wcfg) (skipped : N) : bool :=
  match w_offset cfg with Some off => skipped <? off | None => false end.
Definition at_limit (cfg : wcfg) (emitted : N) : bool :=
  match w_limit cfg with Some lim => lim <=? emitted | None => false end.

Lemma accept_row_eq : forall cfg mode st eid,
  accept_row cfg mode st eid =
  let seen' := seen_after mode (st_seen st) eid in
  if is_dup mode (st_seen st) eid
  then (mkState seen' (st_skipped st) (st_emitted st) (st_done st) (st_batches st), false)
  else if below_offset cfg (st_skipped st)
  then (mkState seen' (N.succ (st_skipped st)) (st_emitted st) (st_done st) (st_batches st), false)
  else if at_limit cfg (st_emitted st)
  then (mkState seen' (st_skipped st) (st_emitted st) true (st_batches st), false)
  else (mkState seen' (st_skipped st) (N.succ (st_emitted st)) (st_done st) (st_batches st), true).
Proof. reflexivity. Qed.

Lemma accept_row_batches : forall cfg mode st eid st1 ok,
  accept_row cfg mode st eid = (st1, ok) -> st_batches st1 = st_batches st.
Proof.
  intros cfg mode st eid st1 ok H. rewrite accept_row_eq in H.
  destruct (is_dup mode (st_seen st) eid), (below_offset cfg (st_skipped st)), (at_limit cfg (st_emitted st));
    inversion H; reflexivity.
Qed.

Lemma accept_row_emitted : forall cfg mode st eid st1 ok,
  accept_row cfg mode st eid = (st1, ok) ->
  st_emitted st1 = st_emitted st + (if ok then 1 else 0).
Proof.
  intros cfg mode st eid st1 ok H. rewrite accept_row_eq in H.
  destruct (is_dup mode (st_seen st) eid), (below_offset cfg (st_skipped st)), (at_limit cfg (st_emitted st));
    inversion H; cbn [st_emitted]; lia.
Qed.

Fixpoint first_occ (idx : option N) (seen : list N) (trs : list (dedup_mode * row)) : list row :=
  match trs with
  | [] => []
  | (m, r) :: rest =>
      let l := first_occ idx (seen_after m seen (row_event_id idx r)) rest in
      if is_dup m seen (row_event_id idx r) then l else r :: l
  end.

Definition handed (cfg : wcfg) (idx : option N) (st : wstate) (trs : list (dedup_mode * row)) : list row :=
  window (w_limit cfg) (w_offset cfg) (st_skipped st) (st_emitted st) (first_occ idx (st_seen st) trs).

Lemma handed_cons : forall cfg idx st m r trs st1 ok,
  st_done st = false -> accept_row cfg m st (row_event_id idx r) = (st1, ok) ->
  handed cfg idx st ((m, r) :: trs)
  = (if ok then [r] else []) ++ (if st_done st1 then [] else handed cfg idx st1 trs).
Proof.
  intros cfg idx [seen sk em dn bt] m r trs st1 ok Hd H. cbn [st_done] in Hd. subst dn.
  (* [below_offset] and [at_limit] unfolded: [window] spells the two tests out, and the goal must show them as [H] does *)
  rewrite accept_row_eq in H. unfold handed, below_offset, at_limit in *.
  cbn [st_seen st_skipped st_emitted st_done st_batches first_occ] in *.
  destruct (is_dup m seen (row_event_id idx r)); [inversion H; reflexivity|]. cbn [window].
  destruct (match w_offset cfg with Some off => sk <? off | None => false end); [inversion H; reflexivity|].
  destruct (match w_limit cfg with Some lim => lim <=? em | None => false end); inversion H; reflexivity.
Qed.

(** Stated with what follows the batch in the stream ([more]), so that batches compose.  [pre] holds the rows of the
    batch that the loop has passed and [i] is the index of the next, so that [sel] indexes into [pre ++ rows]: the
    induction takes its hypothesis at [pre ++ [r]] (and [is_iota_select] is stated alike). *)
Lemma accept_rows_handed : forall cfg mode idx more rows st i st' sel (pre : list row),
  accept_rows cfg mode idx st rows i = (st', sel) -> N.of_nat (length pre) = i -> st_done st = false ->
  handed cfg idx st (map (pair mode) rows ++ more)
  = select_rows (pre ++ rows) sel ++ (if st_done st' then [] else handed cfg idx st' more)
  /\ st_emitted st' = st_emitted st + N.of_nat (length (select_rows (pre ++ rows) sel))
  /\ st_batches st' = st_batches st.
Proof.
  intros cfg mode idx more. induction rows as [|r rest IH]; intros st i st' sel pre H Hi Hd; cbn [accept_rows map app] in *.
  - inversion H. subst. rewrite Hd. cbn [select_rows flat_map length app]. repeat split. lia.
  - destruct (accept_row cfg mode st (row_event_id idx r)) as [st1 ok] eqn:E1.
    rewrite (handed_cons _ _ _ _ _ _ _ _ Hd E1).
    pose proof (accept_row_emitted _ _ _ _ _ _ E1) as Em. pose proof (accept_row_batches _ _ _ _ _ _ E1) as Eb.
    assert (Hn : forall l, select_rows (pre ++ r :: rest) (i :: l) = r :: select_rows (pre ++ r :: rest) l).
    { intro l. subst i. rewrite select_rows_cons, Nnat.Nat2N.id, nth_error_middle. reflexivity. }
    destruct (st_done st1) eqn:Ed.
    + inversion H. subst st' sel. rewrite Ed. destruct ok; rewrite ?Hn; (split; [reflexivity|split; [exact Em|exact Eb]]).
    + destruct (accept_rows cfg mode idx st1 rest (N.succ i)) as [st2 l] eqn:E2. inversion H. subst st' sel.
      specialize (IH st1 (N.succ i) st2 l (pre ++ [r]) E2). rewrite <- app_assoc in IH. cbn [app] in IH.
      destruct IH as (-> & -> & ->); [rewrite app_length; cbn [length]; lia|exact Ed|]. rewrite Em, Eb.
      destruct ok; rewrite ?Hn; (split; [reflexivity|split; [cbn [length]; lia|reflexivity]]).
Qed.

Definition frame_rows (p : batch * list N) : list row := select_rows (fst p) (snd p).

Lemma run_batches_done : forall cfg idx bs st, st_done st = true -> run_batches cfg idx st bs = (st, []).
Proof. intros cfg idx [|b rest] st H; cbn [run_batches]; [|rewrite H]; reflexivity. Qed.

Lemma run_batches_handed : forall cfg idx bs st,
  st_done st = false ->
  flat_map frame_rows (snd (run_batches cfg idx st bs)) = handed cfg idx st (tagged (w_kind cfg) (st_batches st) bs) /\
  st_emitted (fst (run_batches cfg idx st bs))
  = st_emitted st + N.of_nat (length (flat_map frame_rows (snd (run_batches cfg idx st bs)))).
Proof.
  induction bs as [|b rest IH]; intros st Hd; cbn [run_batches tagged]; [split; [reflexivity|cbn; lia]|].
  rewrite Hd. destruct b as [|r b']; [apply IH, Hd|]. remember (r :: b') as b.
  destruct (accept_rows cfg (dedup_mode_of (w_kind cfg) (st_batches st)) idx st b 0) as [st1 sel] eqn:E1.
  destruct (accept_rows_handed _ _ _ (tagged (w_kind cfg) (N.succ (st_batches st)) rest) _ _ _ _ _ [] E1 eq_refl Hd)
    as (-> & Em & Eb). cbn [app] in *.
  assert (Hfr : forall out, flat_map frame_rows (match sel with [] => out | _ => (b, sel) :: out end)
                            = select_rows b sel ++ flat_map frame_rows out).
  { intro out. destruct sel; reflexivity. }
  (* the state the next batch starts in differs in the batch counter only *)
  set (st2 := mkState _ _ _ _ _). assert (Ed2 : st_done st2 = st_done st1) by reflexivity.
  destruct (st_done st1).
  - rewrite (run_batches_done _ _ _ _ Ed2). cbn [fst snd]. rewrite Hfr. cbn [flat_map]. rewrite app_nil_r. split; [reflexivity|exact Em].
  - destruct (IH st2 Ed2) as [Hr He]. destruct (run_batches cfg idx st2 rest) as [st3 out3]. cbn [fst snd] in *.
    rewrite Hfr, He, Hr, app_length. subst st2. cbn [st_batches st_emitted]. rewrite Eb. split; [reflexivity|lia].
Qed.

Lemma tagged_rows : forall k bs n, map snd (tagged k n bs) = concat bs.
Proof.
  induction bs as [|b rest IH]; intros n; [reflexivity|]. destruct b as [|r b']; [apply IH|].
  cbn [tagged concat]. rewrite map_app, map_map, map_id, IH. reflexivity.
Qed.

Lemma tagged_query : forall bs n, tagged WQuery n bs = map (pair DedupOn) (concat bs).
Proof.
  induction bs as [|b rest IH]; intros n; [reflexivity|]. destruct b as [|r b']; [apply IH|].
  cbn [tagged concat]. rewrite map_app, IH. reflexivity.
Qed.

Definition wf_batches (cols : list column) (bs : list batch) : Prop :=
  Forall (fun b => Forall (fun r : row => length r = length cols) b) bs.

Lemma accepted_rows_handed : forall cfg cols bs,
  accepted_rows cfg cols bs = handed cfg (event_id_idx cols) st0 (tagged (w_kind cfg) 0 bs).
Proof. intros. exact (proj1 (run_batches_handed cfg (event_id_idx cols) bs st0 eq_refl)). Qed.

Lemma emitted_accepted : forall cfg cols bs,
  st_emitted (fst (run_batches cfg (event_id_idx cols) st0 bs)) = N.of_nat (length (accepted_rows cfg cols bs)).
Proof. intros. exact (proj2 (run_batches_handed cfg (event_id_idx cols) bs st0 eq_refl)). Qed.

Lemma first_occ_incl : forall idx trs seen, incl (first_occ idx seen trs) (map snd trs).
Proof.
  induction trs as [|[m r] rest IH]; intros seen; [apply incl_refl|]. cbn [first_occ map snd].
  destruct (is_dup m seen (row_event_id idx r)); [|apply incl_cons; [left; reflexivity|]]; apply incl_tl, IH.
Qed.

Lemma accepted_rows_incl : forall cfg cols bs, incl (accepted_rows cfg cols bs) (concat bs).
Proof.
  intros. rewrite accepted_rows_handed, <- (tagged_rows (w_kind cfg) bs 0).
  eapply incl_tran; [apply window_incl|apply first_occ_incl].
Qed.

Lemma accepted_rows_wf : forall cfg cols bs,
  wf_batches cols bs -> Forall (fun r : row => length r = length cols) (accepted_rows cfg cols bs).
Proof. intros cfg cols bs H. eapply incl_Forall; [apply accepted_rows_incl|]. apply Forall_concat, H. Qed.

Lemma json_rows_app : forall a b, json_rows (a ++ b) = json_rows a ++ json_rows b.
Proof. intros. unfold json_rows. apply flat_map_app. Qed.
Lemma json_rows_cons : forall f fs, json_rows (f :: fs) = jframe_rows f ++ json_rows fs.
Proof. reflexivity. Qed.

(** the cells a reader finds for one row: a row frame pairs them with the column names *)
Definition json_shown (cfg : wcfg) (cols : list column) (r : row) : list dcell :=
  if 0 <? w_batch_size cfg then json_row r else map snd (combine (map c_name cols) (json_row r)).

Lemma json_shown_wf : forall cfg cols r, length r = length cols -> json_shown cfg cols r = json_row r.
Proof.
  intros cfg cols r H. unfold json_shown. destruct (0 <? w_batch_size cfg); [reflexivity|].
  apply map_snd_combine. unfold json_row. rewrite !map_length. lia.
Qed.

Lemma json_rows_frames_of : forall cfg cols b sel,
  json_rows (json_frames_of cfg cols b sel) = map (json_shown cfg cols) (select_rows b sel).
Proof.
  intros. unfold json_frames_of, json_shown. destruct (0 <? w_batch_size cfg).
  - cbn. rewrite app_nil_r. reflexivity.
  - induction (select_rows b sel) as [|r l IH]; [reflexivity|].
    cbn [map]. rewrite json_rows_cons, IH. reflexivity.
Qed.

Lemma json_announced_app_end : forall fs n,
  (forall f, In f fs -> match f with JEnd _ => False | _ => True end) ->
  json_announced (fs ++ [JEnd n]) = Some n.
Proof.
  induction fs as [|f fs IH]; intros n H; [reflexivity|].
  cbn [app json_announced]. pose proof (H f (or_introl eq_refl)) as Hf.
  destruct f; try (apply IH; intros; apply H; right; assumption). destruct Hf.
Qed.

Lemma frames_no_end : forall cfg cols out f,
  In f (flat_map (fun p => json_frames_of cfg cols (fst p) (snd p)) out) ->
  match f with JEnd _ => False | _ => True end.
Proof.
  intros cfg cols out f H. apply in_flat_map in H. destruct H as [p [_ H]].
  unfold json_frames_of in H. destruct (0 <? w_batch_size cfg).
  - destruct H as [H|[]]. subst. exact I.
  - apply in_map_iff in H. destruct H as [r [H _]]. subst. exact I.
Qed.

Theorem write_json_decoded : forall cfg cols bs,
  json_names (write_json cfg cols bs) = map c_name cols /\
  json_rows (write_json cfg cols bs) = map (json_shown cfg cols) (accepted_rows cfg cols bs) /\
  json_announced (write_json cfg cols bs) = Some (N.of_nat (length (accepted_rows cfg cols bs))).
Proof.
  intros. rewrite <- emitted_accepted. unfold write_json, accepted_rows.
  destruct (run_batches cfg (event_id_idx cols) st0 bs) as [st out]. cbn [fst snd json_names].
  change (JSchema ?c :: ?x ++ ?y) with ((JSchema c :: x) ++ y). split; [|split].
  - rewrite map_map. reflexivity.
  - rewrite json_rows_app, json_rows_cons. cbn [json_rows flat_map jframe_rows app]. rewrite app_nil_r.
    induction out as [|p out IH]; [reflexivity|].
    cbn [flat_map]. rewrite json_rows_app, map_app, IH, json_rows_frames_of. reflexivity.
  - apply json_announced_app_end. intros f [Hf|Hf]; [subst; exact I|]. eapply frames_no_end. exact Hf.
Qed.

Theorem row_count_matches : forall cfg cols bs,
  json_announced (write_json cfg cols bs) = Some (N.of_nat (length (json_rows (write_json cfg cols bs)))).
Proof.
  intros. destruct (write_json_decoded cfg cols bs) as (_ & -> & ->). rewrite map_length. reflexivity.
Qed.

Theorem json_rows_accepted : forall cfg cols bs,
  wf_batches cols bs ->
  json_rows (write_json cfg cols bs) = map json_row (accepted_rows cfg cols bs).
Proof.
  intros cfg cols bs Hwf. rewrite (proj1 (proj2 (write_json_decoded cfg cols bs))).
  apply map_ext_in. intros r Hr. apply json_shown_wf.
  pose proof (accepted_rows_wf cfg cols bs Hwf) as H. rewrite Forall_forall in H. apply H, Hr.
Qed.

Lemma first_occ_on : forall idx rows seen, first_occ idx seen (map (pair DedupOn) rows) = dedup_first idx seen rows.
Proof.
  induction rows as [|r rest IH]; intros seen; [reflexivity|]. cbn [map first_occ dedup_first].
  destruct (row_event_id idx r) as [id|]; cbn [is_dup seen_after]; [destruct (mem_N id seen)|]; rewrite IH; reflexivity.
Qed.

Theorem accepted_rows_spec : forall cfg cols bs,
  accepted_rows cfg cols bs =
  opt_take (w_limit cfg) (opt_skip (w_offset cfg) (first_occ (event_id_idx cols) [] (tagged (w_kind cfg) 0 bs))).
Proof.
  intros. rewrite accepted_rows_handed. unfold handed. rewrite window_spec.
  unfold take_to, skip_to, opt_take, opt_skip. cbn [st0 st_emitted st_skipped st_seen].
  destruct (w_limit cfg), (w_offset cfg); rewrite ?N.sub_0_r; reflexivity.
Qed.

Theorem writer_spec_query : forall cfg cols bs,
  w_kind cfg = WQuery ->
  accepted_rows cfg cols bs = writer_spec cfg cols bs.
Proof. intros cfg cols bs Hk. rewrite accepted_rows_spec, Hk, tagged_query, first_occ_on. reflexivity. Qed.

Lemma is_iota_select : forall sel (pre rows : list row),
  is_iota sel (N.of_nat (length pre)) = true -> length sel = length rows ->
  select_rows (pre ++ rows) sel = rows.
Proof.
  induction sel as [|x sel IH]; intros pre rows Hi Hl.
  - destruct rows; [reflexivity|discriminate].
  - destruct rows as [|r rows]; [discriminate|].
    cbn [is_iota] in Hi. apply andb_true_iff in Hi. destruct Hi as [Hx Hi]. apply N.eqb_eq in Hx. subst x.
    rewrite select_rows_cons, Nnat.Nat2N.id, nth_error_middle. cbn [app]. f_equal.
    specialize (IH (pre ++ [r]) rows). rewrite <- app_assoc in IH. cbn [app] in IH. apply IH.
    + rewrite app_length. cbn [length]. replace (N.of_nat (length pre + 1)) with (N.succ (N.of_nat (length pre))) by lia. exact Hi.
    + cbn [length] in Hl. lia.
Qed.

Lemma whole_batch_select : forall b sel, whole_batch b sel = true -> select_rows b sel = b.
Proof.
  intros b sel H. unfold whole_batch in H. apply andb_true_iff in H. destruct H as [Hl Hi].
  apply N.eqb_eq in Hl. apply (is_iota_select sel [] b); [exact Hi|lia].
Qed.

Definition arrow_row_of (cols : list column) (out : list dcell) (r : row) : Prop :=
  out = arrow_row PWhole cols r \/ out = arrow_row PRow cols r.

Lemma arrow_frame_rows : forall cols b sel,
  Forall2 (arrow_row_of cols) (aframe_rows (arrow_frame_of cols b sel)) (select_rows b sel).
Proof.
  intros. unfold arrow_frame_of. destruct (whole_batch b sel) eqn:E; cbn [aframe_rows].
  - rewrite (whole_batch_select _ _ E). apply Forall2_map_l. intros; left; reflexivity.
  - apply Forall2_map_l. intros; right; reflexivity.
Qed.

Theorem write_arrow_decoded : forall cfg cols bs,
  arrow_names (write_arrow cfg cols bs) = map c_name cols /\
  Forall2 (arrow_row_of cols) (arrow_rows (write_arrow cfg cols bs)) (accepted_rows cfg cols bs).
Proof.
  intros. unfold write_arrow, accepted_rows. destruct (run_batches cfg (event_id_idx cols) st0 bs) as [st out].
  cbn [snd arrow_names]. split; [rewrite map_map; reflexivity|].
  unfold arrow_rows. cbn [flat_map aframe_rows app].
  induction out as [|p out IH]; cbn [map flat_map]; [constructor|].
  apply Forall2_app; [apply arrow_frame_rows|exact IH].
Qed.

Theorem writer_same_rows : forall cfg cols bs,
  wf_batches cols bs ->
  json_names (write_json cfg cols bs) = map c_name cols /\
  arrow_names (write_arrow cfg cols bs) = map c_name cols /\
  json_rows (write_json cfg cols bs) = map json_row (accepted_rows cfg cols bs) /\
  Forall2 (arrow_row_of cols) (arrow_rows (write_arrow cfg cols bs)) (accepted_rows cfg cols bs).
Proof.
  intros cfg cols bs Hwf. destruct (write_arrow_decoded cfg cols bs) as [An Ar].
  repeat split; [apply write_json_decoded|exact An|apply json_rows_accepted, Hwf|exact Ar].
Qed.

(** side condition on the regenerated tables: the stream schema (arrow.rs) and the whole-batch
    arrays (batch.rs) type every logical type name alike *)
Lemma tables_agree : forall lt, arrow_type_batch lt = arrow_type_schema lt.
Proof. intro lt. reflexivity. Qed.

Lemma finite_not_nan : forall b, f64_finite b = true -> f64_is_nan b = false.
Proof.
  intros b H. unfold f64_finite in H. unfold f64_is_nan.
  destruct ((b / 2 ^ 52) mod 2 ^ 11 =? 2047); [discriminate|reflexivity].
Qed.

Lemma f64_eq_refl : forall b, f64_finite b = true -> f64_eq b b = true.
Proof. intros b H. unfold f64_eq. rewrite (finite_not_nan _ H), N.eqb_refl. reflexivity. Qed.

Lemma cell_agree_null_l : forall d, cell_agree DNull d = match d with DNull => true | _ => false end.
Proof. destruct d; reflexivity. Qed.

Lemma f64_int_value_finite : forall b y, f64_int_value b = Some y -> f64_finite b = true.
Proof. intros b y H. unfold f64_int_value in H. destruct (f64_finite b); [reflexivity|discriminate]. Qed.

Definition agree3 (j w r : dcell) : bool :=
  cell_agree j w && cell_agree j r && cell_agree w r && cell_agree j j.

Lemma cell_all_agree_t : forall lt v,
  cell_all_agree lt v =
  agree3 (json_cell v) (arrow_cell_whole (arrow_type_schema lt) v) (arrow_cell_row (arrow_type_schema lt) v).
Proof. intros. unfold cell_all_agree, arrow_cell, text_cell. rewrite tables_agree. reflexivity. Qed.

Lemma agree3_same : forall j, cell_agree j j = true -> agree3 j j j = true.
Proof. intros j H. unfold agree3. rewrite H. reflexivity. Qed.

Lemma agree3_row : forall j w r, cell_agree j r = false -> agree3 j w r = false.
Proof. intros j w r H. unfold agree3. rewrite H, andb_false_r. reflexivity. Qed.

(** The builders' switches as regenerated: both conversions take the cells of the column's own kind
    (and Int64 cells in Float and Timestamp columns); the row-index one parses no strings. *)
Lemma w_int_int64_flag : render_w_int_int64 = true. Proof. reflexivity. Qed.
Lemma r_int_int64_flag : render_r_int_int64 = true. Proof. reflexivity. Qed.
Lemma w_int_ts_flag : render_w_int_ts = true. Proof. reflexivity. Qed.
Lemma r_int_ts_flag : render_r_int_ts = true. Proof. reflexivity. Qed.
Lemma w_float_float_flag : render_w_float_float = true. Proof. reflexivity. Qed.
Lemma r_float_float_flag : render_r_float_float = true. Proof. reflexivity. Qed.
Lemma w_float_int64_flag : render_w_float_int64 = true. Proof. reflexivity. Qed.
Lemma r_float_int64_flag : render_r_float_int64 = true. Proof. reflexivity. Qed.
Lemma w_bool_bool_flag : render_w_bool_bool = true. Proof. reflexivity. Qed.
Lemma r_bool_bool_flag : render_r_bool_bool = true. Proof. reflexivity. Qed.
Lemma w_ts_ts_flag : render_w_ts_ts = true. Proof. reflexivity. Qed.
Lemma r_ts_ts_flag : render_r_ts_ts = true. Proof. reflexivity. Qed.
Lemma w_ts_int64_flag : render_w_ts_int64 = true. Proof. reflexivity. Qed.
Lemma r_ts_int64_flag : render_r_ts_int64 = true. Proof. reflexivity. Qed.
Lemma r_int_utf8_flag : render_r_int_utf8 = false. Proof. reflexivity. Qed.
Lemma r_float_utf8_flag : render_r_float_utf8 = false. Proof. reflexivity. Qed.
Lemma r_bool_utf8_flag : render_r_bool_utf8 = false. Proof. reflexivity. Qed.
Lemma r_ts_utf8_flag : render_r_ts_utf8 = false. Proof. reflexivity. Qed.

Definition class_decides (t : atype) (v : scalar) : Prop :=
  agree3 (json_cell v) (arrow_cell_whole t v) (arrow_cell_row t v)
  = match known_class_t t v with None => true | Some _ => false end.

Ltac cells := cbn [known_class_t json_cell arrow_cell_whole arrow_cell_row].

Lemma null_decided : forall t, class_decides t SNull.
Proof. intros []; reflexivity. Qed.

(** only a Boolean column takes a Boolean cell; elsewhere the row-index cell is null or a string *)
Lemma bool_decided : forall t b, class_decides t (SBool b).
Proof.
  intros [] b; unfold class_decides; cells.
  3: { (* ABool *) rewrite w_bool_bool_flag, r_bool_bool_flag. apply agree3_same, eqb_reflx. }
  all: apply agree3_row; reflexivity.
Qed.

Lemma int_in_float_agree : forall z,
  agree3 (DInt z) (DFloat (f64_of_Z z)) (DFloat (f64_of_Z z)) = int_exact_in_f64 z.
Proof.
  intro z. unfold int_exact_in_f64, agree3. cbn [cell_agree].
  destruct (f64_int_value (f64_of_Z z)) as [y|] eqn:E; [|reflexivity].
  rewrite (f64_eq_refl _ (f64_int_value_finite _ _ E)), Z.eqb_refl, !andb_true_r, (Z.eqb_sym y z).
  destruct (z =? y)%Z; reflexivity.
Qed.

Lemma int_decided : forall t z, class_decides t (SInt z).
Proof.
  intros [] z; unfold class_decides; cells.
  - rewrite w_int_int64_flag, r_int_int64_flag. apply agree3_same, Z.eqb_refl.
  - rewrite w_float_int64_flag, r_float_int64_flag, int_in_float_agree. cbn [andb].
    destruct (int_exact_in_f64 z); reflexivity.
  - (* an integer is neither a Boolean nor null *)
    apply agree3_row. destruct render_r_bool_int64; reflexivity.
  - rewrite w_ts_int64_flag, r_ts_int64_flag. apply agree3_same, Z.eqb_refl.
  - apply agree3_row. reflexivity.
Qed.

Lemma ts_decided : forall t z, class_decides t (STs z).
Proof.
  intros [] z; unfold class_decides; cells.
  - rewrite w_int_ts_flag, r_int_ts_flag. apply agree3_same, Z.eqb_refl.
  - apply agree3_row. reflexivity.
  - apply agree3_row. reflexivity.
  - rewrite w_ts_ts_flag, r_ts_ts_flag. apply agree3_same, Z.eqb_refl.
  - apply agree3_row. reflexivity.
Qed.

(** JSON has null for a non-finite float: that agrees with the nulls of a column of another kind,
    not with the float of a Float column or the text of a String column *)
Lemma float_decided : forall t bits disp, class_decides t (SFloat bits disp).
Proof.
  intros [] bits disp; unfold class_decides; cells.
  2: { (* AFloat64 *) rewrite w_float_float_flag, r_float_float_flag.
       destruct (f64_finite bits) eqn:Ef; [apply agree3_same, f64_eq_refl, Ef|apply agree3_row; reflexivity]. }
  4: (* ALargeUtf8, the last of the four goals left *) destruct (f64_finite bits); apply agree3_row; reflexivity.
  all: destruct (f64_finite bits); [apply agree3_row|]; reflexivity.
Qed.

Lemma row_utf8_null : forall t s doc fl, t <> ALargeUtf8 -> arrow_cell_row t (SUtf8 s doc fl) = DNull.
Proof.
  intros [] s doc fl H; cbn [arrow_cell_row];
    rewrite ?r_int_utf8_flag, ?r_float_utf8_flag, ?r_bool_utf8_flag, ?r_ts_utf8_flag; congruence.
Qed.

Lemma json_utf8_not_null : forall s doc fl, cell_agree (json_cell (SUtf8 s doc fl)) DNull = false.
Proof. intros s [c|] fl; cbn [json_cell]; [|destruct (big_u64 s)]; reflexivity. Qed.

(** a string cell is null on the row-index path unless the column is a String column; there both
    conversions give the string itself, JSON a document or a number when the string reads as one *)
Lemma utf8_decided : forall t s doc fl, class_decides t (SUtf8 s doc fl).
Proof.
  intros t s doc fl. unfold class_decides.
  assert (Hstr : t = ALargeUtf8 \/ t <> ALargeUtf8) by (destruct t; (left; reflexivity) || (right; discriminate)).
  destruct Hstr as [->|Ht].
  - cells. destruct doc as [c|]; [apply agree3_row; reflexivity|].
    destruct (big_u64 s); [apply agree3_row; reflexivity|apply agree3_same, bytes_eqb_refl].
  - rewrite (row_utf8_null _ _ _ _ Ht), (agree3_row _ _ _ (json_utf8_not_null s doc fl)).
    destruct t, doc; cbn [known_class_t]; destruct (big_u64 s); congruence.
Qed.

Lemma bin_decided : forall t b, class_decides t (SBin b).
Proof.
  intros [] b; unfold class_decides; cells; try (apply agree3_row; reflexivity).
  apply agree3_same, bytes_eqb_refl.
Qed.

Theorem known_class_exact : forall lt v,
  known_class lt v = None <-> cell_all_agree lt v = true.
Proof.
  intros lt v. rewrite cell_all_agree_t. unfold known_class.
  assert (H : class_decides (arrow_type_schema lt) v).
  { destruct v; [apply null_decided|apply bool_decided|apply int_decided|apply float_decided|apply ts_decided
                 |apply utf8_decided|apply bin_decided]. }
  rewrite H. destruct (known_class_t (arrow_type_schema lt) v); split; congruence.
Qed.

Theorem cells_agree_typed : forall lt v,
  kind_matches (arrow_type_schema lt) v = true -> reparsed_or_nonfinite v = false ->
  cell_all_agree lt v = true.
Proof.
  intros lt v Hk Hr. apply known_class_exact. unfold known_class.
  destruct (arrow_type_schema lt), v as [|b|z|bits disp|z|s [c|] fl|b];
    cbn [kind_matches reparsed_or_nonfinite known_class_t] in *; try discriminate; try reflexivity.
  - apply negb_false_iff in Hr. now rewrite Hr.
  - now destruct (big_u64 s).
Qed.

Example cells_agree_typed_sat :
  kind_matches (arrow_type_schema [70;108;111;97;116]) (SFloat 4609434218613702656 [49;46;53]) = true /\
  reparsed_or_nonfinite (SFloat 4609434218613702656 [49;46;53]) = false.
Proof. vm_compute. split; reflexivity. Qed.

Definition s_integer : bytes := [73;110;116;101;103;101;114].
Definition s_float : bytes := [70;108;111;97;116].
Definition s_string : bytes := [83;116;114;105;110;103].
Definition s_boolean : bytes := [66;111;111;108;101;97;110].
(* "18446744073709551615" *)
Definition s_u64max : bytes := [49;56;52;52;54;55;52;52;48;55;51;55;48;57;53;53;49;54;49;53].
Definition nan_bits : N := 9221120237041090560.

(** one witness for each class of [kclass] but [NonTimestampInTimestampColumn], in its order *)
Theorem agree_refuted :
  cell_all_agree s_integer (SUtf8 s_u64max None (Some 4895412794951729152)) = false /\
  json_cell (SUtf8 s_u64max None (Some 4895412794951729152)) = DInt 18446744073709551615 /\
  arrow_cell PWhole s_integer (SUtf8 s_u64max None (Some 4895412794951729152)) = DNull /\
  cell_all_agree s_string (SUtf8 [91;49;44;50;93] (Some [91;49;44;50;93]) None) = false /\
  cell_all_agree s_float (SFloat nan_bits [78;97;78]) = false /\
  cell_all_agree s_integer (SFloat 4609434218613702656 [49;46;53]) = false /\
  cell_all_agree s_float (SInt 9007199254740993) = false /\
  cell_all_agree s_boolean (SInt 1) = false /\
  cell_all_agree s_string (SInt 1) = false.
Proof. vm_compute. repeat split; reflexivity. Qed.

Theorem arrow_paths_disagree :
  cell_agree (arrow_cell PWhole s_integer (SUtf8 [52;50] None (Some 4631107791820423168)))
             (arrow_cell PRow s_integer (SUtf8 [52;50] None (Some 4631107791820423168))) = false /\
  arrow_cell PWhole s_integer (SUtf8 [52;50] None (Some 4631107791820423168)) = DInt 42 /\
  arrow_cell PRow s_integer (SUtf8 [52;50] None (Some 4631107791820423168)) = DNull /\
  arrow_cell PWhole s_boolean (SUtf8 [116;114;117;101] None None) = DBool true /\
  arrow_cell PRow s_boolean (SUtf8 [116;114;117;101] None None) = DNull.
Proof. vm_compute. repeat split; reflexivity. Qed.

Theorem arrow_paths_agree_int_in_float : forall lt z,
  arrow_type_schema lt = AFloat64 ->
  arrow_cell PWhole lt (SInt z) = arrow_cell PRow lt (SInt z) /\
  arrow_cell PWhole lt (SInt z) = DFloat (f64_of_Z z).
Proof.
  intros lt z H. unfold arrow_cell. rewrite tables_agree, H. cbn [arrow_cell_whole arrow_cell_row].
  rewrite w_float_int64_flag, r_float_int64_flag. split; reflexivity.
Qed.

Theorem responses_agree_refuted :
  exists cfg cols bs, wf_batches cols bs /\ responses_agree cfg cols bs = false.
Proof.
  exists (mkCfg None None 1000 WQuery), [mkColumn [118] s_integer], [[[SUtf8 s_u64max None None]]].
  split; [repeat constructor|vm_compute; reflexivity].
Qed.

Lemma cell_all_agree_parts : forall lt v, cell_all_agree lt v = true ->
  cell_agree (json_cell v) (arrow_cell PWhole lt v) = true /\
  cell_agree (json_cell v) (arrow_cell PRow lt v) = true.
Proof.
  intros lt v H. unfold cell_all_agree in H.
  repeat (apply andb_true_iff in H; destruct H as [H ?]). auto.
Qed.

Definition row_outside_known (cols : list column) (r : row) : Prop :=
  Forall (fun cv => known_class (c_type (fst cv)) (snd cv) = None) (combine cols r).

Lemma row_agrees : forall cols r out,
  length r = length cols -> row_outside_known cols r -> arrow_row_of cols out r ->
  (Nat.eqb (length (json_row r)) (length out)) && forallb (fun p => cell_agree (fst p) (snd p)) (combine (json_row r) out) = true.
Proof.
  intros cols r out Hl Hk Ho.
  (* both renderings are maps over the same list of (column, cell) pairs *)
  assert (Hj : json_row r = map (fun cv => json_cell (snd cv)) (combine cols r)).
  { rewrite <- map_map, map_snd_combine by lia. reflexivity. }
  assert (Hp : exists p, out = arrow_row p cols r) by (destruct Ho; eauto). destruct Hp as [p ->].
  rewrite Hj. unfold arrow_row. rewrite combine_map_map, !map_length, Nat.eqb_refl. apply forallb_forall.
  intros q Hq. apply in_map_iff in Hq. destruct Hq as (cv & <- & Hcv). cbn [fst snd].
  unfold row_outside_known in Hk. rewrite Forall_forall in Hk.
  destruct (cell_all_agree_parts _ _ (proj1 (known_class_exact _ _) (Hk cv Hcv))). destruct p; assumption.
Qed.

Lemma rows_agree_forall2 : forall cols (outs : list (list dcell)) (rows : list row),
  Forall (fun r => length r = length cols /\ row_outside_known cols r) rows ->
  Forall2 (arrow_row_of cols) outs rows ->
  rows_agree (map json_row rows) outs = true.
Proof.
  intros cols outs rows Hr H2. induction H2 as [|o r outs rows Ho H2 IH]; [reflexivity|].
  inversion Hr as [|? ? [Hl Hk] Hrest]. cbn [map rows_agree].
  rewrite (row_agrees _ _ _ Hl Hk Ho). cbn [andb]. apply IH. exact Hrest.
Qed.

Theorem agree_outside_known : forall cfg cols bs,
  wf_batches cols bs ->
  Forall (row_outside_known cols) (accepted_rows cfg cols bs) ->
  responses_agree cfg cols bs = true.
Proof.
  intros cfg cols bs Hwf Hk. unfold responses_agree.
  destruct (writer_same_rows cfg cols bs Hwf) as [Hjn [Han [Hjr Har]]].
  assert (Hall : Forall (fun r => length r = length cols /\ row_outside_known cols r) (accepted_rows cfg cols bs)).
  { pose proof (accepted_rows_wf cfg cols bs Hwf) as Hl. rewrite Forall_forall in *. auto. }
  rewrite Hjn, Han, row_count_matches, Hjr, map_length, N.eqb_refl.
  rewrite (rows_agree_forall2 cols _ _ Hall Har).
  rewrite Nat.eqb_refl. rewrite !andb_true_r.
  clear. induction (map c_name cols) as [|n l IH]; [reflexivity|]. cbn [combine forallb fst snd].
  rewrite bytes_eqb_refl. exact IH.
Qed.

Example agree_outside_known_sat :
  let cols := [mkColumn [118] s_integer; mkColumn [115] s_string] in
  let bs := [[[SInt 5; SUtf8 [104;105] None None]; [SNull; SBin [1;2]]]] in
  wf_batches cols bs /\ Forall (row_outside_known cols) (accepted_rows (mkCfg (Some 5) None 0 WQuery) cols bs)
  /\ accepted_rows (mkCfg (Some 5) None 0 WQuery) cols bs <> [].
Proof.
  cbv zeta. split; [repeat constructor|].
  match goal with |- context [accepted_rows ?c ?cs ?b] =>
    assert (E : accepted_rows c cs b = [[SInt 5; SUtf8 [104;105] None None]; [SNull; SBin [1;2]]]) by (vm_compute; reflexivity);
    rewrite E end.
  split; [|discriminate].
  unfold row_outside_known. cbn [combine].
  repeat (constructor; cbn [fst snd c_type]).
Qed.

(** only the text conjunct reads the rendered bytes ([body_status], Model/Render.v) *)
Theorem error_status_same_body : forall s msg,
  body_status EJson s msg = Some (status_code s) /\
  body_status EText s msg = Some (status_code s) /\
  body_status EArrow s msg = Some (status_code s).
Proof.
  intros s msg. split; [reflexivity|]. split; [|reflexivity].
  unfold body_status, render_error.
  (* [leading_number] stops at the blank after the digits, so [msg] stays a variable *)
  destruct s; vm_compute (dec_of_N (status_code _)); vm_compute (status_code _); cbn [app]; reflexivity.
Qed.

(** [render_http_text_header] is on: the dispatcher reads the three leading status digits *)
Theorem http_text_status_correct : forall s msg, http_status_of_error EText s msg = status_code s.
Proof.
  intros s msg. unfold http_status_of_error, render_error.
  (* [three_digit_header] reads the first four bytes only, so [msg] stays a variable *)
  destruct s; vm_compute (dec_of_N (status_code _)); cbn [app]; vm_compute; reflexivity.
Qed.

Lemma has_window_app : forall w pre s fuel,
  is_prefix w s = true -> (length w <= length s)%nat -> s <> [] -> (length pre < fuel)%nat ->
  has_window w (pre ++ s) fuel = true.
Proof.
  intros w pre. induction pre as [|x pre IH]; intros s fuel Hp Hl Hs Hf.
  - destruct fuel as [|f]; [lia|]. destruct s as [|c r]; [contradiction|]. cbn [app has_window].
    rewrite Hp. apply Nat.leb_le in Hl. rewrite Hl. reflexivity.
  - destruct fuel as [|f]; [cbn in Hf; lia|]. cbn [app has_window]. rewrite (IH s f Hp Hl Hs); [apply orb_true_r|cbn in Hf; lia].
Qed.

(** the JSON body and the Arrow fallback body open with a brace and carry the word "status" *)
Lemma brace_body : forall e s msg, e <> EText ->
  exists pre rest, render_error e s msg = (123 :: pre) ++ status_word ++ rest.
Proof.
  intros [] s msg H; [|contradiction|].
  - (* the body starts with the closed 20 bytes of [js_head], [{"count":0,"status":]: the brace, the 11 bytes of
       [pre], the 6 of the word, 18 in all, so [skipn 18] computes whatever follows *)
    exists [34;99;111;117;110;116;34;58;48;44;34], (skipn 18 (render_error EJson s msg)). reflexivity.
  - exists (tl ar_head ++ json_string msg ++ [44;34;114;101;115;117;108;116;115;34;58;91;93;44;34]),
           ([34;58] ++ dec_of_N (status_code s) ++ [125; 10]).
    unfold render_error, ar_results_status, status_word, ar_head. cbn [tl app]. rewrite <- !app_assoc. reflexivity.
Qed.

(** the word "status" is looked for in the part of the body that is parsed, not in a fixed window *)
Lemma sniff_window_flag : render_http_sniff_window = None.
Proof. reflexivity. Qed.

(** every status code is one of [render_http_known_codes] *)
Lemma status_code_known : forall s, map_http (status_code s) = status_code s.
Proof. intros []; reflexivity. Qed.

(** a body that is not parsed in full gives 200 whether or not the word is seen in the part that is looked at *)
Lemma http_brace_status : forall e s msg, e <> EText ->
  http_status_of_error e s msg =
  if N.of_nat (length (render_error e s msg)) <? render_http_parse_full_below then status_code s else 200.
Proof.
  intros e s msg He. destruct (brace_body e s msg He) as (pre & rest & Hout).
  unfold http_status_of_error. rewrite Hout. cbn [app N.eqb Pos.eqb negb].
  set (out := 123 :: pre ++ status_word ++ rest).
  destruct (N.of_nat (length out) <? render_http_parse_full_below).
  - rewrite sniff_window_flag, Nnat.Nat2N.id, firstn_all. subst out.
    change (123 :: pre ++ ?x) with ((123 :: pre) ++ x).
    rewrite has_window_app; [|reflexivity|rewrite app_length; cbn; lia|discriminate|rewrite app_length; cbn; lia].
    apply status_code_known.
  - destruct (negb (has_window _ _ _)); reflexivity.
Qed.

Theorem http_status_correct_outside_known : forall s msg,
  N.of_nat (length (render_error EJson s msg)) < render_http_parse_full_below ->
  N.of_nat (length (render_error EArrow s msg)) < render_http_parse_full_below ->
  http_status_of_error EJson s msg = status_code s /\
  http_status_of_error EText s msg = status_code s /\
  http_status_of_error EArrow s msg = status_code s.
Proof.
  intros s msg Hj Ha. apply N.ltb_lt in Hj, Ha. rewrite (http_brace_status EJson), (http_brace_status EArrow), Hj, Ha by discriminate.
  repeat split. apply http_text_status_correct.
Qed.

Definition long_msg : bytes := repeat 101 460.
Theorem http_status_same_refuted :
  http_status_same StBadRequest long_msg = false /\
  http_status_of_error EJson StBadRequest long_msg = 200 /\
  http_status_of_error EArrow StBadRequest long_msg = 200 /\
  http_status_of_error EText StBadRequest long_msg = 400 /\
  http_known StBadRequest long_msg = true.
Proof. vm_compute. repeat split; reflexivity. Qed.

(** the 200 given for an unparsed body is right for [StOk] alone: the last [destruct s] computes the seven codes *)
Theorem http_known_exact : forall s msg, http_status_same s msg = negb (http_known s msg).
Proof.
  intros s msg. unfold http_status_same, http_known.
  rewrite (http_brace_status EJson), (http_brace_status EArrow), http_text_status_correct by discriminate.
  rewrite !N.leb_antisym.
  destruct (_ <? _), (_ <? _); destruct s; reflexivity.
Qed.

Theorem http_status_outside_known : forall s msg, http_known s msg = false -> http_status_same s msg = true.
Proof. intros s msg H. rewrite http_known_exact, H. reflexivity. Qed.

Example http_status_outside_known_sat :
  http_known StNotFound [110;111;32;115;117;99;104;32;116;121;112;101] = false /\
  http_status_of_error EArrow StNotFound [110;111;32;115;117;99;104;32;116;121;112;101] = 404 /\
  http_status_of_error EText StBadRequest [104;105] = 400.
Proof. vm_compute. repeat split; reflexivity. Qed.
