(** Decimal printing (Base/Bytes.v) and the number [dec_val] its output denotes.  Nothing here mentions
    a model: a model's reader is tied to [dec_val] by a lemma that turns its own digit evaluator into
    [fold_left dec_step]. *)
From Coq Require Import NArith ZArith List Lia.
From Snel Require Import Base.Bytes.
Import ListNotations.
Local Open Scope N_scope.

Definition all_digit (ds : bytes) : Prop := Forall (fun c => is_digit c = true) ds.

Definition dec_step (a c : N) : N := 10 * a + digit_val c.
Definition dec_val (ds : bytes) : N := fold_left dec_step ds 0.

Lemma dec_val_snoc : forall ds c, dec_val (ds ++ [c]) = 10 * dec_val ds + digit_val c.
Proof. intros ds c. unfold dec_val. rewrite fold_left_app. reflexivity. Qed.

Lemma is_digit_48 : forall m, m < 10 -> is_digit (48 + m) = true.
Proof. intros m H. unfold is_digit. apply andb_true_intro. split; apply N.leb_le; lia. Qed.

Lemma is_digit_range : forall c, is_digit c = true -> 48 <= c <= 57.
Proof. intros c H. apply andb_prop in H as [H1 H2]. apply N.leb_le in H1, H2. split; assumption. Qed.

Lemma digit_val_48 : forall m, digit_val (48 + m) = m.
Proof. intros m. unfold digit_val. lia. Qed.

Lemma dec_digits_fuel_spec : forall f n acc, (0 < f)%nat -> n < 10 ^ N.of_nat f ->
  exists ds, dec_digits_fuel f n acc = ds ++ acc /\ all_digit ds /\ ds <> [] /\ dec_val ds = n /\
             (0 < n -> hd 0 ds <> 48).
Proof.
  induction f as [|f IH]; intros n acc Hf Hn; [lia|]. cbn [dec_digits_fuel].
  assert (Hd : n mod 10 < 10) by (apply N.mod_lt; discriminate).
  pose proof (N.div_mod n 10 ltac:(discriminate)) as Hdm.
  (* from here on only [n = 10 * q + m] with [m < 10] matters *)
  set (m := n mod 10) in *. set (q := n / 10) in *. clearbody m q.
  destruct (N.eqb_spec q 0) as [E|E].
  - exists [48 + m]. split; [reflexivity|]. split; [repeat constructor; apply is_digit_48, Hd|].
    split; [discriminate|]. unfold dec_val, dec_step. cbn [fold_left hd]. rewrite digit_val_48. lia.
  - assert (Hq : q < 10 ^ N.of_nat f) by (rewrite Nat2N.inj_succ, N.pow_succ_r' in Hn; lia).
    assert (Hf' : (0 < f)%nat) by (destruct f; [cbn in Hq|]; lia).
    destruct (IH q ((48 + m) :: acc) Hf' Hq) as (ds & H1 & H2 & H3 & H4 & H5).
    exists (ds ++ [48 + m]). split; [rewrite H1, <- app_assoc; reflexivity|].
    split; [apply Forall_app; split; [exact H2|repeat constructor; apply is_digit_48, Hd]|].
    split; [destruct ds; discriminate|].
    split; [rewrite dec_val_snoc, H4, digit_val_48; lia|].
    intros _. destruct ds as [|c ds']; [contradiction|]. apply H5. lia.
Qed.

Theorem dec_of_N_digits : forall n,
  all_digit (dec_of_N n) /\ dec_of_N n <> [] /\ dec_val (dec_of_N n) = n /\ (0 < n -> hd 0 (dec_of_N n) <> 48).
Proof.
  intros n. unfold dec_of_N.
  assert (Hn : n < 10 ^ N.of_nat (S (N.to_nat (N.log2 n)))).
  { rewrite Nat2N.inj_succ, N2Nat.id. destruct (N.eq_dec n 0) as [->|Hz]; [reflexivity|].
    eapply N.lt_le_trans; [apply N.log2_spec; lia|]. apply N.pow_le_mono_l. lia. }
  destruct (dec_digits_fuel_spec _ _ [] (Nat.lt_0_succ _) Hn) as (ds & H1 & H2).
  rewrite H1, app_nil_r. exact H2.
Qed.

Corollary dec_of_N_head : forall n, exists c r, dec_of_N n = c :: r /\ is_digit c = true.
Proof.
  intros n. destruct (dec_of_N_digits n) as (H1 & H2 & _).
  destruct (dec_of_N n) as [|c r]; [contradiction|]. exists c, r. split; [reflexivity|]. inversion H1. assumption.
Qed.

Lemma pad_digits_length : forall w n, length (pad_digits w n) = w.
Proof.
  induction w as [|w IH]; intros n; cbn [pad_digits]; [reflexivity|]. rewrite app_length, IH. apply Nat.add_1_r.
Qed.

Lemma pad_digits_digit : forall w n, all_digit (pad_digits w n).
Proof.
  induction w as [|w IH]; intros n; cbn [pad_digits]; [constructor|].
  apply Forall_app. split; [apply IH|]. repeat constructor. apply is_digit_48, N.mod_lt. discriminate.
Qed.

Lemma pad_digits_val : forall w n, dec_val (pad_digits w n) = n mod 10 ^ N.of_nat w.
Proof.
  induction w as [|w IH]; intros n; cbn [pad_digits]; [symmetry; apply N.mod_1_r|].
  rewrite dec_val_snoc, IH, digit_val_48, Nat2N.inj_succ, N.pow_succ_r'.
  rewrite (N.mod_mul_r n 10) by (try apply N.pow_nonzero; discriminate). apply N.add_comm.
Qed.

Lemma dec_of_Z_nonneg : forall z, (0 <= z)%Z -> dec_of_Z z = dec_of_N (Z.to_N z).
Proof. intros [|p|p] H; [reflexivity|reflexivity|lia]. Qed.

Lemma dec_of_Z_neg : forall z, (z < 0)%Z -> dec_of_Z z = 45 :: dec_of_N (Z.to_N (- z)).
Proof. intros [|p|p] H; [lia|lia|reflexivity]. Qed.

Corollary dec_of_Z_nonempty : forall z, dec_of_Z z <> [].
Proof.
  intros z. destruct (Z.neg_nonneg_cases z) as [H|H].
  - rewrite dec_of_Z_neg by exact H. discriminate.
  - rewrite dec_of_Z_nonneg by exact H. apply dec_of_N_digits.
Qed.
