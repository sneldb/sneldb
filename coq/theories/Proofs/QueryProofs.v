(** C02 — proofs about the query path models (Model/{Sem,Cond,Prune,Layout,Known}.v). *)
From Coq Require Import ZArith List Bool Lia.
From Snel Require Import Base.Bytes Gen.Params Model.Time Model.Value Model.Expr Model.Sem Model.Cond Model.Prune
  Model.Layout Model.Known Proofs.ListFacts Proofs.BytesFacts.
Import ListNotations.

(** The switches read from the Rust text (Gen/Params.v) are kept folded.  The general theorems use the current value
    of four of them ([p_mem_f64], [p_i64_claims], [p_bool_view], [p_hydrate]) and hold whatever the others say; the
    closed witnesses compute with the current values of all. *)
Local Opaque query_not_leaf_complement query_u64_neg_rejects_all query_i64_buffer_claims_all
  query_mem_f64_view query_unserved_no_zones_temporal query_unserved_no_zones_enum query_unserved_no_zones_zonexor
  query_hydrate_tagged_only query_bool_block_str_view.

Lemma cmem_filter_fst : forall (p : zid -> bool) l z,
  cmem z (filter (fun c : czone => p (fst c)) l) = cmem z l && p z.
Proof.
  induction l as [|[x t] l IH]; intros z; simpl; [reflexivity|].
  destruct (p x) eqn:Px; simpl.
  - destruct (z =? x)%N eqn:E; simpl.
    + apply N.eqb_eq in E. subst. now rewrite Px.
    + apply IH.
  - rewrite IH. destruct (z =? x)%N eqn:E; simpl; [|reflexivity].
    apply N.eqb_eq in E. subst. rewrite Px. now rewrite andb_false_r.
Qed.

Lemma cmem_app : forall a b z, cmem z (a ++ b) = cmem z a || cmem z b.
Proof.
  induction a as [|[x t] a IH]; intros; simpl; [reflexivity|].
  rewrite IH. now rewrite orb_assoc.
Qed.

Lemma cmem_inter : forall a b z, cmem z (inter a b) = cmem z a && cmem z b.
Proof. intros. unfold inter. apply (cmem_filter_fst (fun x => cmem x b)). Qed.

Lemma cmem_union : forall a b z, cmem z (union a b) = cmem z a || cmem z b.
Proof.
  intros. unfold union. rewrite cmem_app.
  rewrite (cmem_filter_fst (fun x => negb (cmem x b))).
  destruct (cmem z a), (cmem z b); reflexivity.
Qed.

Lemma cmem_minus : forall a b z, cmem z (minus a b) = cmem z a && negb (cmem z b).
Proof. intros. unfold minus. apply (cmem_filter_fst (fun x => negb (cmem x b))). Qed.

Lemma cmem_tagged : forall zs z, cmem z (tagged zs) = memN z zs.
Proof. induction zs; simpl; intros; [reflexivity|]. now rewrite IHzs. Qed.
Lemma cmem_untagged : forall zs z, cmem z (untagged zs) = memN z zs.
Proof. induction zs; simpl; intros; [reflexivity|]. now rewrite IHzs. Qed.

Lemma cmem_ctag : forall l z, cmem z l = match ctag z l with Some _ => true | None => false end.
Proof. induction l as [|[x t] l IH]; intros; simpl; [reflexivity|]. destruct (z =? x)%N; [reflexivity|apply IH]. Qed.

Lemma ctag_in : forall l z t, ctag z l = Some t -> In (z, t) l.
Proof.
  induction l as [|[x u] l IH]; intros z t H; simpl in *; [discriminate|].
  destruct (z =? x)%N eqn:E.
  - apply N.eqb_eq in E. subst. inversion H. now left.
  - right. now apply IH.
Qed.

Definition leaf_sat (sch : schema) (l : leaf) (r : row) : bool :=
  sat_atom sch r (l_field l) (l_op l) (l_lit l).

Fixpoint fg_sat (sch : schema) (g : fg) (r : row) : bool :=
  match g with
  | FLeaf l => leaf_sat sch l r
  | FAnd a b => fg_sat sch a r && fg_sat sch b r
  | FOr a b => fg_sat sch a r || fg_sat sch b r
  | FNot a => negb (fg_sat sch a r)
  end.

Fixpoint fg_not_free (g : fg) : bool :=
  match g with
  | FLeaf _ => true
  | FAnd a b | FOr a b => fg_not_free a && fg_not_free b
  | FNot _ => false
  end.

(** row by row: the zones listed for the tree are its own AND/OR combination of those listed for its leaves, and
    AND/OR are monotone *)
Lemma collect_row_sound : forall sch ans all g z r,
  fg_not_free g = true ->
  (forall l, In l (fg_leaves g) -> leaf_sat sch l r = true -> cmem z (leaf_zones sch ans all l) = true) ->
  fg_sat sch g r = true -> cmem z (collect sch ans all false g) = true.
Proof.
  induction g as [l|a IHa b IHb|a IHa b IHb|a IHa]; intros z r NF HL Hs; simpl in *; [auto| | |discriminate].
  - apply andb_true_iff in NF as [Na Nb]. apply andb_true_iff in Hs as [Sa Sb].
    rewrite cmem_inter, (IHa z r), (IHb z r); auto using in_or_app.
  - apply andb_true_iff in NF as [Na Nb]. rewrite cmem_union.
    apply orb_true_iff in Hs as [S|S]; [rewrite (IHa z r)|rewrite (IHb z r)]; auto using in_or_app, orb_true_r.
Qed.

Theorem collect_zones_sound_notfree : forall sch ans all g z (rows : list row),
  fg_not_free g = true ->
  (forall l, In l (fg_leaves g) ->
             (exists r, In r rows /\ leaf_sat sch l r = true) ->
             cmem z (leaf_zones sch ans all l) = true) ->
  (exists r, In r rows /\ fg_sat sch g r = true) ->
  cmem z (collect sch ans all false g) = true.
Proof. intros sch ans all g z rows NF HL [r [Hin Hs]]. apply (collect_row_sound sch ans all g z r); eauto. Qed.

Lemma in_leaves_sat : forall sch f ls l0 r,
  fg_sat sch (in_leaves f l0 ls) r = existsb (fun l => sat_atom sch r f CEq l) (l0 :: ls).
Proof.
  induction ls as [|l1 ls IH]; intros; simpl.
  - unfold leaf_sat. simpl. now rewrite orb_false_r.
  - rewrite IH. unfold leaf_sat. reflexivity.
Qed.

Lemma in_leaves_not_free : forall f ls l0, fg_not_free (in_leaves f l0 ls) = true.
Proof. induction ls; intros; simpl; auto. Qed.

Lemma build_fg_spec : forall sch e g, build_fg e = Some g ->
  fg_not_free g = not_free e /\ forall r, fg_sat sch g r = sat sch e r.
Proof.
  induction e as [f op l|f ls|a IHa b IHb|a IHa b IHb|a IHa]; intros g H; simpl in H.
  - inversion H. split; reflexivity.
  - destruct ls as [|l0 ls]; [discriminate|]. inversion H. split; [apply in_leaves_not_free|apply in_leaves_sat].
  - destruct (build_fg a) as [x|]; [|discriminate]. destruct (build_fg b) as [y|]; [|discriminate]. inversion H.
    destruct (IHa x eq_refl) as [Na Sa], (IHb y eq_refl) as [Nb Sb]. simpl. rewrite Na, Nb.
    split; [reflexivity|]. intro r. now rewrite Sa, Sb.
  - destruct (build_fg a) as [x|]; [|discriminate]. destruct (build_fg b) as [y|]; [|discriminate]. inversion H.
    destruct (IHa x eq_refl) as [Na Sa], (IHb y eq_refl) as [Nb Sb]. simpl. rewrite Na, Nb.
    split; [reflexivity|]. intro r. now rewrite Sa, Sb.
  - destruct (build_fg a) as [x|]; [|discriminate]. inversion H. destruct (IHa x eq_refl) as [_ Sa].
    split; [reflexivity|]. intro r. simpl. now rewrite Sa.
Qed.

Definition nf_schema : schema := [mk_fdecl [97%N] KInt false].
Definition nf_leaf : leaf := mk_leaf [97%N] CEq (LInt 1).
Definition nf_rows : list row := [[VInt 1]; [VInt 2]].
(** the structure answers exactly: zone 0 holds a row with a = 1 *)
Definition nf_ans : leaf -> option (list zid) := fun _ => Some [0%N].

Theorem collect_zones_not_refuted :
  (forall l, In l (fg_leaves (FNot (FLeaf nf_leaf))) ->
             (exists r, In r nf_rows /\ leaf_sat nf_schema l r = true) ->
             cmem 0%N (leaf_zones nf_schema nf_ans [0%N] l) = true) /\
  (exists r, In r nf_rows /\ fg_sat nf_schema (FNot (FLeaf nf_leaf)) r = true) /\
  cmem 0%N (collect nf_schema nf_ans [0%N] false (FNot (FLeaf nf_leaf))) = false.
Proof.
  split; [|split].
  - intros l [Hl|[]] _. subst. vm_compute. reflexivity.
  - exists [VInt 2]. split; [right; now left|vm_compute; reflexivity].
  - vm_compute. reflexivity.
Qed.

Lemma pow1074_pos : (0 < 2 ^ 1074)%Z.
Proof. apply Z.pow_pos_nonneg; lia. Qed.

Lemma scale_compare : forall x z, Z.compare (scale_int x) (scale_int z) = Z.compare x z.
Proof. intros. unfold scale_int. symmetry. apply Zmult_compare_compat_r. pose proof pow1074_pos. lia. Qed.

Lemma bytes_cmp_eqb : forall a b, match bytes_cmp a b with Eq => true | _ => false end = bytes_eqb a b.
Proof.
  intros a b. destruct (bytes_eqb a b) eqn:E.
  - apply bytes_eqb_eq in E. subst. now rewrite bytes_cmp_refl.
  - destruct (bytes_cmp a b) eqn:C; auto. apply bytes_cmp_eq in C. apply bytes_eqb_neq in E. contradiction.
Qed.

Lemma cmp_holds_eq_bytes : forall a b, cmp_holds CEq (bytes_cmp a b) = bytes_eqb a b.
Proof. intros. rewrite <- bytes_cmp_eqb. destruct (bytes_cmp a b); reflexivity. Qed.
Lemma cmp_holds_ne_bytes : forall a b, cmp_holds CNe (bytes_cmp a b) = negb (bytes_eqb a b).
Proof. intros. rewrite <- bytes_cmp_eqb. destruct (bytes_cmp a b); reflexivity. Qed.

Definition num_view (v : value) : option Z :=
  match v with VInt x | VTime x => Some x | VU64 n => Some (Z.of_N n) | _ => None end.
Definition str_view (v : value) : option bytes :=
  match v with
  | VStr t | VEnum t => Some t
  | VBool b => Some (if b then b_true else b_false)
  | _ => None
  end.

Definition is_num_kind (k : kind) : bool := match k with KInt | KU64 | KTime => true | _ => false end.
Definition is_str_kind (k : kind) : bool := match k with KStr | KEnum _ | KBool => true | _ => false end.

Definition small_u64 (v : value) : Prop :=
  match v with VU64 n => (Z.of_N n <= i64_max)%Z | _ => True end.

Lemma p_mem_f64 : query_mem_f64_view = true. Proof. reflexivity. Qed.
Lemma p_i64_claims : query_i64_buffer_claims_all = false. Proof. reflexivity. Qed.
Lemma p_bool_view : query_bool_block_str_view = true. Proof. reflexivity. Qed.
Lemma p_hydrate : query_hydrate_tagged_only = false. Proof. reflexivity. Qed.

Lemma plain_build : forall s, is_plain_str s = true -> build_lit (LStr s) = BStr s.
Proof.
  intros s H. unfold is_plain_str in H. unfold build_lit in *.
  destruct (parse_str_to_epoch_seconds s); [discriminate|].
  destruct (parse_i64 s); [discriminate|]. reflexivity.
Qed.

Lemma bool_lit_cases : forall op s, wt_atom KBool op (LStr s) = true ->
  (s = b_true \/ s = b_false) /\ is_range op = false.
Proof.
  intros op s H. simpl in H. apply andb_true_iff in H as [H1 H2].
  split; [|now apply negb_true_iff in H2].
  apply orb_true_iff in H1 as [E|E]; apply bytes_eqb_eq in E; auto.
Qed.

Lemma op_eq_or_ne : forall op, is_range op = false -> op = CEq \/ op = CNe.
Proof. destruct op; simpl; intros; try discriminate; auto. Qed.

Lemma cmp_holds_scale : forall op x z,
  cmp_holds op (Z.compare (scale_int x) (scale_int z)) = cmpZ op x z.
Proof. intros. unfold cmpZ. now rewrite scale_compare. Qed.

(** Here and in [sat_str_view], [mem_faithful], [seg_faithful] the proof walks the constructors of the cell [v]:
    [conforms d v] leaves only the cells of the field's own kind, a null and an absent one (the others are
    discharged by [destruct (f_kind d); discriminate]), and on those the two sides are the same comparison. *)
Lemma sat_num_view : forall d v op l z,
  is_num_kind (f_kind d) = true -> conforms d v = true ->
  lit_scaled (f_kind d) l = Some (scale_int z) ->
  sat_cmp (f_kind d) v op l = match num_view v with Some x => cmpZ op x z | None => false end.
Proof.
  intros d v op l z K C L.
  destruct v; simpl in *; try reflexivity; try rewrite L; try apply cmp_holds_scale;
    destruct (f_kind d); simpl in *; discriminate.
Qed.

Lemma cmp_holds_str_op : forall op t s, op = CEq \/ op = CNe -> cmp_holds op (bytes_cmp t s) = str_op op t s.
Proof. intros op t s [->| ->]; [apply cmp_holds_eq_bytes|apply cmp_holds_ne_bytes]. Qed.

Lemma sat_str_view : forall d v op s,
  is_str_kind (f_kind d) = true -> conforms d v = true ->
  (f_kind d = KBool -> s = b_true \/ s = b_false) ->
  (op = CEq \/ op = CNe) ->
  sat_cmp (f_kind d) v op (LStr s) = match str_view v with Some t => str_op op t s | None => false end.
Proof.
  intros d v op s K C BS O.
  destruct v; simpl in *; try reflexivity;
    try (destruct (f_kind d); simpl in *; discriminate).
  - now apply cmp_holds_str_op.
  - (* VBool *)
    assert (KB : f_kind d = KBool) by (destruct (f_kind d); simpl in *; try discriminate; reflexivity).
    destruct (BS KB) as [-> | ->]; destruct b; destruct O as [-> | ->]; vm_compute; reflexivity.
  - now apply cmp_holds_str_op.
Qed.

(** a float cell against an integer threshold below 2^53: [threshold as f64] is exact *)
Lemma as_f64_exact : forall z, (Z.abs z < 2 ^ 53)%Z -> i64_as_f64_scaled z = scale_int z.
Proof.
  intros z H. unfold i64_as_f64_scaled.
  assert (E : (Z.abs z <? 2 ^ 53)%Z = true) by now apply Z.ltb_lt.
  rewrite E. f_equal. destruct (z <? 0)%Z eqn:N; [apply Z.ltb_lt in N|apply Z.ltb_ge in N]; lia.
Qed.

Lemma null_like_false : forall s, null_like s = false -> bytes_eqb [] s = false /\ bytes_eqb b_null s = false.
Proof.
  intros s H. unfold null_like in H. apply orb_false_iff in H as [H1 H2].
  split.
  - destruct s; simpl in *; auto.
  - destruct (bytes_eqb b_null s) eqn:E; auto. apply bytes_eqb_eq in E. subst.
    now rewrite bytes_eqb_refl in H2.
Qed.

Lemma lookup_conforms : forall sch r f d,
  row_conforms sch r = true -> find_decl sch f = Some d ->
  exists v, lookup sch r f = Some (d, v) /\ conforms d v = true.
Proof.
  induction sch as [|d0 sch IH]; intros r f d RC FD; simpl in *; [discriminate|].
  destruct r as [|v0 r]; [discriminate|].
  apply andb_true_iff in RC as [C0 RC].
  destruct (bytes_eqb (f_name d0) f).
  - inversion FD. subst. eauto.
  - eauto.
Qed.

Lemma cmpZ_eq : forall x z, cmpZ CEq x z = (x =? z)%Z.
Proof.
  intros. unfold cmpZ. destruct (Z.compare_spec x z); simpl.
  - subst. now rewrite Z.eqb_refl.
  - symmetry. apply Z.eqb_neq. lia.
  - symmetry. apply Z.eqb_neq. lia.
Qed.

Lemma first_some_none : forall A B (f : A -> option B) l, first_some (map f l) = None -> Forall (fun x => f x = None) l.
Proof. induction l as [|a l IH]; simpl; intros H; [constructor|]. destruct (f a) eqn:E; [discriminate|constructor; auto]. Qed.

Lemma mem_bytes_none : forall ss t, Forall (fun s => bytes_eqb t s = false) ss -> mem_bytes t ss = false.
Proof. induction 1; simpl; auto. now rewrite H, IHForall. Qed.

Lemma null_not_member : forall ss, Forall (fun s => null_like s = false) ss ->
  mem_bytes [] ss = false /\ mem_bytes b_null ss = false.
Proof.
  intros ss H. split; apply mem_bytes_none; refine (Forall_impl _ _ H); intros s Hs; now apply null_like_false in Hs.
Qed.

Lemma eval_logic2_mem : forall g a b x y, eval_mem g a = Some x -> eval_mem g b = Some y ->
  eval_mem g (CLogic LAnd [a; b]) = Some (x && y) /\ eval_mem g (CLogic LOr [a; b]) = Some (x || y).
Proof. intros g a b x y Ha Hb. simpl. rewrite Ha, Hb. destruct x, y; split; reflexivity. Qed.
Lemma eval_logic2_at : forall g a b x y, eval_at g a = Some x -> eval_at g b = Some y ->
  eval_at g (CLogic LAnd [a; b]) = Some (x && y) /\ eval_at g (CLogic LOr [a; b]) = Some (x || y).
Proof. intros g a b x y Ha Hb. simpl. rewrite Ha, Hb. destruct x, y; split; reflexivity. Qed.

Definition ok_event (sch : schema) (fs : list bytes) (ev : event) : Prop :=
  row_conforms sch (ev_row ev) = true /\ forall f, In f fs -> big_u64 sch ev f = false.

Lemma small_from_big : forall sch ev f d v,
  lookup sch (ev_row ev) f = Some (d, v) -> big_u64 sch ev f = false -> small_u64 v.
Proof.
  intros sch ev f d v L B. unfold big_u64 in B. rewrite L in B.
  destruct v; simpl; auto. apply Z.ltb_ge in B. exact B.
Qed.

Lemma sat_in_lookup : forall sch r f d v ls, lookup sch r f = Some (d, v) ->
  sat sch (EIn f ls) r = existsb (fun l => sat_cmp (f_kind d) v CEq l) ls.
Proof.
  intros. cbn [sat]. induction ls as [|l ls IH]; cbn [existsb]; [reflexivity|].
  rewrite IH. unfold sat_atom. now rewrite H.
Qed.

Lemma ok_event_app : forall sch fa fb ev, ok_event sch (fa ++ fb) ev -> ok_event sch fa ev /\ ok_event sch fb ev.
Proof. intros sch fa fb ev [RC BU]. split; (split; [exact RC|]); intros f H; apply BU, in_or_app; auto. Qed.

(** [holds c v]: what the leaf condition [c] says of the typed cell [v].  The specification of an atom outside the
    known classes says the same of the cell as the condition built from it, and both row filters compute it.  On a
    [CLogic], [cfield] and [holds] take dummy values that nothing reads (no [faithful] condition is a [CLogic];
    AND / OR go through [Hlogic] of the section below). *)
Definition cfield (c : cond) : bytes :=
  match c with CNum f _ _ | CStrC f _ _ | CInNum f _ | CInStr f _ => f | CLogic _ _ => [] end.

Definition holds (c : cond) (v : value) : bool :=
  match c with
  | CNum _ op z =>
      match v with
      | VFloat b _ => cmp_holds op (Z.compare (f64_scaled b) (scale_int z))
      | _ => match num_view v with Some x => cmpZ op x z | None => false end
      end
  | CStrC _ op s => match str_view v with Some t => str_op op t s | None => false end
  | CInNum _ zs => match num_view v with Some x => memZ x zs | None => false end
  | CInStr _ ss => match str_view v with Some t => mem_bytes t ss | None => false end
  | CLogic _ _ => false
  end.

(** the leaf conditions that both row filters evaluate to [holds] on every conforming cell of field [d] *)
Inductive faithful (d : fdecl) : cond -> Prop :=
| FNum f op z :
    is_num_kind (f_kind d) = true ->
    (f_kind d = KU64 -> (op = CGt \/ op = CGe \/ op = CNe) -> (0 <= z)%Z) ->
    faithful d (CNum f op z)
| FFloat f op z : f_kind d = KFloat -> (Z.abs z < 2 ^ 53)%Z -> faithful d (CNum f op z)
| FStr f op s :
    is_str_kind (f_kind d) = true ->
    (op = CEq \/ (op = CNe /\ f_opt d = false)) -> (f_opt d = true -> null_like s = false) ->
    faithful d (CStrC f op s)
| FInNum f zs : is_num_kind (f_kind d) = true -> faithful d (CInNum f zs)
| FInStr f ss :
    is_str_kind (f_kind d) = true -> (f_opt d = true -> Forall (fun s => null_like s = false) ss) ->
    faithful d (CInStr f ss).

(** a cell of an integer, u64 or datetime field is not a double *)
Lemma holds_num : forall d v f op z, is_num_kind (f_kind d) = true -> conforms d v = true ->
  holds (CNum f op z) v = match num_view v with Some x => cmpZ op x z | None => false end.
Proof. intros d v f op z K C. destruct v; try reflexivity. simpl in C. destruct (f_kind d); discriminate. Qed.

Definition leaf_ok (d : fdecl) (f : bytes) (e : expr) (spec : value -> bool) (c : cond) : Prop :=
  build e = [c] /\ cfield c = f /\ faithful d c /\ forall v, conforms d v = true -> holds c v = spec v.

Definition atom_ok (d : fdecl) (f : bytes) (op : cmp) (l : lit) (c : cond) : Prop :=
  leaf_ok d f (ECmp f op l) (fun v => sat_cmp (f_kind d) v op l) c.

Lemma num_atom : forall d f op l z,
  is_num_kind (f_kind d) = true -> build_lit l = BNum z -> lit_scaled (f_kind d) l = Some (scale_int z) ->
  (f_kind d = KU64 -> (op = CGt \/ op = CGe \/ op = CNe) -> (0 <= z)%Z) ->
  atom_ok d f op l (CNum f op z).
Proof.
  intros d f op l z K B L U. refine (conj _ (conj eq_refl (conj _ _))); [cbn [build]; now rewrite B|now apply FNum|].
  intros v C. now rewrite (holds_num d v f op z K C), (sat_num_view d v op l z K C L).
Qed.

Lemma str_atom : forall d f op s,
  is_str_kind (f_kind d) = true -> (f_kind d = KBool -> s = b_true \/ s = b_false) -> is_plain_str s = true ->
  is_range op = false -> f_opt d && null_like s = false -> f_opt d && is_ne op = false ->
  atom_ok d f op (LStr s) (CStrC f op s).
Proof.
  intros d f op s K BS P R N1 N2.
  assert (O : op = CEq \/ (op = CNe /\ f_opt d = false)).
  { destruct (op_eq_or_ne op R) as [->| ->]; auto. right. split; auto. destruct (f_opt d); simpl in *; congruence. }
  refine (conj _ (conj eq_refl (conj _ _)));
    [cbn [build]; now rewrite (plain_build s P)|apply FStr; auto; intros Od; now rewrite Od in N1|].
  intros v C. symmetry. apply (sat_str_view d v op s K C BS). destruct O as [->|[-> _]]; auto.
Qed.

Lemma atom_faithful : forall d f op l, atom_class d op l = None -> exists c, atom_ok d f op l c.
Proof.
  intros d f op l H. unfold atom_class in H. destruct l as [z|b j|s|b].
  - (* LInt: the goals left are KInt, KU64, KFloat, KTime, in this order *)
    destruct (f_kind d) eqn:K; try discriminate.
    1, 4: exists (CNum f op z); apply num_atom; rewrite ?K; auto; congruence.
    + (* KU64 *) exists (CNum f op z); apply num_atom; rewrite ?K; auto.
      intros _ [->|[->| ->]]; destruct (z <? 0)%Z eqn:E; try discriminate; apply Z.ltb_ge in E; lia.
    + (* KFloat *) destruct (Z.abs z <? 2 ^ 53)%Z eqn:E; [|discriminate]. apply Z.ltb_lt in E.
      exists (CNum f op z). refine (conj eq_refl (conj eq_refl (conj _ _))); [now apply FFloat|].
      intros v C. rewrite K. destruct v; simpl in *; try reflexivity; rewrite K in C; discriminate.
  - destruct (wt_atom (f_kind d) op (LFloat b j)); discriminate.
  - (* LStr *)
    destruct (f_kind d) eqn:K; try discriminate.
    1, 3: (* KStr, KEnum: the same four tests, in two orders *)
      destruct (is_plain_str s) eqn:P, (is_range op) eqn:R, (f_opt d && null_like s) eqn:N1,
        (f_opt d && is_ne op) eqn:N2; try discriminate H; exists (CStrC f op s); apply str_atom; rewrite ?K; auto; discriminate.
    + (* KBool: the literal is true or false, a plain string that does not read as null *)
      destruct (wt_atom KBool op (LStr s)) eqn:W; [|discriminate].
      destruct (f_opt d && is_ne op) eqn:N2; [discriminate|].
      destruct (bool_lit_cases op s W) as [BS R].
      assert (P : is_plain_str s = true /\ null_like s = false) by (destruct BS as [->| ->]; vm_compute; auto).
      destruct P as [P NL]. exists (CStrC f op s). apply str_atom; rewrite ?K, ?NL, ?andb_false_r; auto.
    + (* KTime *)
      destruct (parse_str_to_epoch_seconds s) as [v|] eqn:P; [|discriminate].
      exists (CNum f op v). apply num_atom; rewrite ?K; auto; try congruence.
      * unfold build_lit. now rewrite P.
      * simpl. now rewrite P.
  - destruct (wt_atom (f_kind d) op (LBool b)); discriminate.
Qed.

(** In [in_nums] and [in_strs] each member's condition is the one [atom_faithful] gives for the member as an
    equality.  The other constructor cannot come out of [build_lit]: a faithful [CStrC] needs a string kind, a
    faithful [CNum] a numeric or float kind ([inversion Fc], then the kind of [d]), and a dropped literal
    ([BDrop]) builds no condition, against [B]. *)
Lemma build_lit_str : forall l s, build_lit l = BStr s -> l = LStr s.
Proof.
  intros [z|b j|t|b] s H; try discriminate. unfold build_lit in H.
  destruct (parse_str_to_epoch_seconds t); [discriminate|]. destruct (parse_i64 t); [discriminate|]. now inversion H.
Qed.

Lemma in_nums : forall d f ls,
  is_num_kind (f_kind d) = true -> Forall (fun l => atom_class d CEq l = None) ls ->
  exists zs, all_nums ls = Some zs /\ length zs = length ls /\
    forall v, conforms d v = true ->
      holds (CInNum f zs) v = existsb (fun l => sat_cmp (f_kind d) v CEq l) ls.
Proof.
  intros d f ls K F. induction F as [|l ls G F (zs & A & Len & S)].
  - exists []. refine (conj eq_refl (conj eq_refl _)). intros v _. simpl. now destruct (num_view v).
  - destruct (atom_faithful d f CEq l G) as (c & B & _ & Fc & H). cbn [build] in B.
    destruct (build_lit l) as [z|s|] eqn:BL; inversion B; subst c; [|inversion Fc; destruct (f_kind d); discriminate].
    exists (z :: zs). split; [|split].
    + simpl. unfold lit_num. now rewrite BL, A.
    + simpl. now rewrite Len.
    + intros v C. cbn [existsb]. rewrite <- (H v C), <- (S v C), (holds_num d v f CEq z K C). cbn [holds memZ].
      destruct (num_view v); [|reflexivity]. now rewrite cmpZ_eq.
Qed.

Lemma in_strs : forall d f ls,
  is_str_kind (f_kind d) = true -> Forall (fun l => atom_class d CEq l = None) ls ->
  (ls <> [] -> all_nums ls = None) /\
  (f_opt d = true -> Forall (fun s => null_like s = false) (map lit_text ls)) /\
  forall v, conforms d v = true ->
    holds (CInStr f (map lit_text ls)) v = existsb (fun l => sat_cmp (f_kind d) v CEq l) ls.
Proof.
  intros d f ls K F. induction F as [|l ls G F (_ & NLs & S)].
  - split; [congruence|]. split; [intros _; constructor|]. intros v _. simpl. now destruct (str_view v).
  - destruct (atom_faithful d f CEq l G) as (c & B & _ & Fc & H). cbn [build] in B.
    destruct (build_lit l) as [z|s|] eqn:BL; inversion B; subst c; [inversion Fc; destruct (f_kind d); discriminate|].
    pose proof (build_lit_str l s BL) as ->. split; [|split].
    + intros _. simpl. unfold lit_num. now rewrite BL.
    + intros O. simpl. constructor; auto. inversion Fc; auto.
    + intros v C. cbn [existsb map lit_text]. rewrite <- (H v C), <- (S v C). simpl. destruct (str_view v); reflexivity.
Qed.

Lemma in_faithful : forall d f l0 ls,
  f_kind d <> KFloat -> Forall (fun l => atom_class d CEq l = None) (l0 :: ls) ->
  exists c, leaf_ok d f (EIn f (l0 :: ls)) (fun v => existsb (fun l => sat_cmp (f_kind d) v CEq l) (l0 :: ls)) c.
Proof.
  intros d f l0 ls NF G.
  destruct (is_num_kind (f_kind d)) eqn:K.
  - destruct (in_nums d f (l0 :: ls) K G) as (zs & A & Len & S).
    destruct zs as [|z zs]; [simpl in Len; discriminate|].
    exists (CInNum f (z :: zs)). refine (conj _ (conj eq_refl (conj _ S))); [unfold build; now rewrite A|now apply FInNum].
  - assert (K' : is_str_kind (f_kind d) = true) by (destruct (f_kind d); try discriminate; try reflexivity; contradiction).
    destruct (in_strs d f (l0 :: ls) K' G) as (A & NLs & S).
    exists (CInStr f (map lit_text (l0 :: ls))).
    refine (conj _ (conj eq_refl (conj _ S))); [unfold build; rewrite A; [reflexivity|discriminate]|now apply FInStr].
Qed.

Lemma mem_num_view : forall d v, is_num_kind (f_kind d) = true -> conforms d v = true -> small_u64 v ->
  m_as_i64 (to_mem v) = num_view v.
Proof.
  intros d v K C S. destruct v; simpl in *; try reflexivity;
    try (destruct (f_kind d); simpl in *; discriminate).
  apply Z.leb_le in S. now rewrite S.
Qed.

Lemma mem_faithful : forall d v c g, faithful d c -> conforms d v = true -> small_u64 v ->
  g (cfield c) = to_mem v -> eval_mem g c = Some (holds c v).
Proof.
  intros d v c g F C S G.
  destruct F as [f op z K U|f op z K A|f op s K O NL|f zs K|f ss K NL]; cbn [eval_mem cfield] in *; rewrite G; f_equal.
  - rewrite (holds_num d v f op z K C). unfold mem_num. rewrite (mem_num_view d v K C S).
    destruct v; simpl in *; try reflexivity; destruct (f_kind d); simpl in *; discriminate.
  - destruct v; simpl in C; rewrite ?K in C; try discriminate; try reflexivity.
    cbn [to_mem holds]. unfold mem_num. cbn [m_as_i64]. now rewrite p_mem_f64, (as_f64_exact z A).
  - (* a null cell reads "null" and an absent one "": not the literal, and the operator is [=] *)
    destruct v; cbn [to_mem m_to_string holds str_view]; try reflexivity;
      try (simpl in C; destruct (f_kind d); simpl in *; discriminate);
      simpl in C; (destruct O as [-> | [-> O]]; [|congruence]); simpl; now apply null_like_false, NL.
  - cbn [holds]. now rewrite (mem_num_view d v K C S).
  - destruct v; cbn [to_mem m_to_string holds str_view]; try reflexivity;
      try (simpl in C; destruct (f_kind d); simpl in *; discriminate); apply null_not_member, NL, C.
Qed.

(** what the column accessor of a hydrated zone answers for a cell: nothing where the zone has no
    block for the field *)
Definition cell_of (d : fdecl) (v : value) (c : option cell) : Prop :=
  c = Some (to_cell (f_kind d) v) \/ (c = None /\ v = VAbsent).

Lemma seg_faithful : forall d v c g, faithful d c -> conforms d v = true -> small_u64 v ->
  cell_of d v (g (cfield c)) -> eval_at g c = Some (holds c v).
Proof.
  intros d v c g F C S [G | [G ->]].
  2: { (* no block for the field: every accessor answers None and every leaf is false, as [holds c VAbsent] is *)
       destruct F; cbn [eval_at cfield] in *; rewrite G; reflexivity. }
  destruct F as [f op z K U|f op z K A|f op s K O NL|f zs K|f ss K NL]; cbn [eval_at cfield] in *; rewrite G; f_equal.
  - rewrite (holds_num d v f op z K C).
    destruct (f_kind d) eqn:KK; try discriminate; destruct v; simpl in *; try rewrite KK in C;
      try discriminate; auto.
    (* u64: a negative threshold takes the shortcut, which is right for [<], [<=], [=] only *)
    destruct (z <? 0)%Z eqn:E; [|auto].
    apply Z.ltb_lt in E.
    unfold cmpZ. destruct (Z.compare_spec (Z.of_N n) z); try lia.
    destruct query_u64_neg_rejects_all;
      (destruct op; simpl; try reflexivity;
       exfalso; assert (0 <= z)%Z by (apply U; auto); lia).
  - rewrite K. destruct v; simpl in C; rewrite ?K in C; try discriminate;
      cbn [to_cell holds num_view num_at]; rewrite ?(as_f64_exact z A); reflexivity.
  - destruct (f_kind d) eqn:KK; try discriminate; destruct v; simpl in C; try rewrite KK in C;
      try discriminate; unfold str_at; cbn [to_cell cell_str holds str_view]; rewrite ?p_bool_view; try reflexivity;
      (destruct O as [-> | [-> O]]; [|congruence]); specialize (NL C); cbn [str_op];
      (destruct s; [discriminate NL | reflexivity]).
  - destruct (f_kind d) eqn:KK; try discriminate; destruct v; simpl in *; try rewrite KK in C;
      try discriminate; auto.
    apply Z.leb_le in S. now rewrite S.
  - destruct (f_kind d) eqn:KK; try discriminate; destruct v; cbn [to_cell in_str_at cell_str holds str_view];
      try reflexivity; try (simpl in C; rewrite KK in C; discriminate);
      apply null_not_member, NL, C.
Qed.

Definition q_fields (q : query) : list bytes := match q_where q with Some e => fields_of e | None => [] end.

Definition q_class_none (sch : schema) (q : query) : Prop :=
  match q_where q with Some e => expr_class sch e = None | None => True end.

(** one induction for the two row filters, which instantiate [ev] ([filter_mem_exact], [filter_seg_exact]) *)
Section RowFilter.
  Variable sch : schema.
  Variable evt : event.
  Variable ev : cond -> option bool.

  Hypothesis Hleaf : forall d v c,
    lookup sch (ev_row evt) (cfield c) = Some (d, v) -> conforms d v = true -> small_u64 v -> faithful d c ->
    ev c = Some (holds c v).
  Hypothesis Hlogic : forall a b x y, ev a = Some x -> ev b = Some y ->
    ev (CLogic LAnd [a; b]) = Some (x && y) /\ ev (CLogic LOr [a; b]) = Some (x || y).

  Lemma leaf_exact : forall e f d spec,
    find_decl sch f = Some d -> ok_event sch (fields_of e) evt -> In f (fields_of e) ->
    (forall v, lookup sch (ev_row evt) f = Some (d, v) -> sat sch e (ev_row evt) = spec v) ->
    (exists c, leaf_ok d f e spec c) ->
    exists c, build e = [c] /\ ev c = Some (sat sch e (ev_row evt)).
  Proof.
    intros e f d spec FD [RC BU] I Hspec (c & B & Fc & F & H).
    destruct (lookup_conforms sch (ev_row evt) f d RC FD) as [v [LK C]].
    exists c. split; [exact B|]. rewrite (Hspec v LK), <- (H v C). subst f.
    apply (Hleaf d v c LK C (small_from_big sch evt _ d v LK (BU _ I)) F).
  Qed.

  Lemma expr_exact : forall e, expr_class sch e = None -> ok_event sch (fields_of e) evt ->
    exists c, build e = [c] /\ ev c = Some (sat sch e (ev_row evt)).
  Proof.
    induction e as [f op l|f ls|a IHa b IHb|a IHa b IHb|a IHa]; intros EC OK; simpl in EC.
    - destruct (find_decl sch f) as [d|] eqn:FD; [|discriminate].
      apply (leaf_exact _ f d (fun v => sat_cmp (f_kind d) v op l) FD OK (or_introl eq_refl)); [|apply atom_faithful, EC].
      intros v LK. simpl sat. unfold sat_atom. now rewrite LK.
    - destruct (find_decl sch f) as [d|] eqn:FD; [|discriminate]. destruct ls as [|l0 ls]; [discriminate|].
      apply (leaf_exact _ f d (fun v => existsb (fun l => sat_cmp (f_kind d) v CEq l) (l0 :: ls)) FD OK (or_introl eq_refl));
        [intros v LK; apply (sat_in_lookup sch _ f d v _ LK)|].
      (* the IN arm of [expr_class]: no float field, and every literal outside the classes as an equality *)
      apply in_faithful; [intros K; rewrite K in EC; discriminate EC|].
      apply first_some_none. destruct (f_kind d); try discriminate EC; exact EC.
    - destruct (expr_class sch a); [discriminate|].
      destruct (ok_event_app sch _ _ evt OK) as [OKa OKb].
      destruct (IHa eq_refl OKa) as [ca [Ba Va]]. destruct (IHb EC OKb) as [cb [Bb Vb]].
      exists (CLogic LAnd [ca; cb]). split; [simpl; now rewrite Ba, Bb|]. simpl sat. now apply Hlogic.
    - destruct (expr_class sch a); [discriminate|].
      destruct (ok_event_app sch _ _ evt OK) as [OKa OKb].
      destruct (IHa eq_refl OKa) as [ca [Ba Va]]. destruct (IHb EC OKb) as [cb [Bb Vb]].
      exists (CLogic LOr [ca; cb]). split; [simpl; now rewrite Ba, Bb|]. simpl sat. now apply Hlogic.
    - discriminate.
  Qed.
  (** the left-hand side is the body that [filter_mem] and [filter_seg] (Model/Cond.v) share, at the evaluator [ev] *)
  Lemma filter_exact : forall q, q_class_none sch q -> ok_event sch (q_fields q) evt ->
    match all_conds ev (where_conds q) with Some true => Some (ctx_ok q evt) | r => r end = Some (sat_query sch q evt).
  Proof.
    intros q QC OK. unfold sat_query, where_conds, ctx_ok, q_class_none, q_fields in *. destruct (q_where q) as [e|].
    - destruct (expr_exact e QC OK) as [c [-> V]]. simpl. rewrite V.
      destruct (sat sch e (ev_row evt)); now rewrite ?andb_true_r, ?andb_false_r.
    - simpl. now rewrite andb_true_r.
  Qed.
End RowFilter.

Definition hollow_ok (sch : schema) (hollow : bytes -> bool) (r : row) : Prop :=
  forall f, hollow f = true -> is_absent sch r f = true.

Lemma seg_cell_of : forall sch hollow r f d v,
  lookup sch r f = Some (d, v) -> hollow_ok sch hollow r -> cell_of d v (seg_get sch hollow r f).
Proof.
  intros sch hollow r f d v LK HO. unfold seg_get. destruct (hollow f) eqn:H.
  - right. split; auto. apply HO in H. unfold is_absent in H. rewrite LK in H.
    destruct v; try discriminate. reflexivity.
  - left. now rewrite LK.
Qed.

(** with [query_i64_buffer_claims_all] off, [evaluate_numeric_simd] at the top of the evaluator's list
    computes what [evaluate_at] computes *)
Lemma eval_seg_top_at : forall g c, eval_seg_top g c = eval_at g c.
Proof.
  intros g [f op v| | | |]; try reflexivity. cbn [eval_seg_top eval_at]. f_equal. unfold num_simd.
  destruct (g f) as [[]|]; now rewrite ?p_i64_claims.
Qed.

Lemma filter_mem_exact : forall sch q ev, q_class_none sch q -> ok_event sch (q_fields q) ev ->
  filter_mem sch q ev = Some (sat_query sch q ev).
Proof.
  intros sch q ev QC OK. unfold filter_mem.
  apply (filter_exact sch ev (eval_mem (mem_get sch (ev_row ev)))); [|apply eval_logic2_mem|exact QC|exact OK].
  intros d v c LK C S F. apply (mem_faithful d v c _ F C S). unfold mem_get. now rewrite LK.
Qed.

Lemma filter_seg_exact : forall sch q zrows ev, q_class_none sch q -> ok_event sch (q_fields q) ev -> In ev zrows ->
  filter_seg sch q zrows ev = Some (sat_query sch q ev).
Proof.
  intros sch q zrows ev QC OK IN. unfold filter_seg.
  apply (filter_exact sch ev (eval_seg_top (seg_get sch (hollow_in sch zrows) (ev_row ev)))); [| |exact QC|exact OK].
  - intros d v c LK C S F. rewrite eval_seg_top_at. apply (seg_faithful d v c _ F C S), seg_cell_of; auto.
    intros f H. unfold hollow_in in H. rewrite forallb_forall in H. now apply H.
  - intros a b x y. rewrite !eval_seg_top_at. apply eval_logic2_at.
Qed.

Lemma filter_opt_exact : forall A (p : A -> option bool) (b : A -> bool) l,
  (forall x, In x l -> p x = Some (b x)) -> filter_opt p l = Some (filter b l).
Proof.
  induction l as [|x l IH]; intros H; simpl; [reflexivity|].
  rewrite (H x (or_introl eq_refl)). rewrite IH; [|intros; apply H; now right].
  reflexivity.
Qed.

(** with [query_hydrate_tagged_only] off, the zones read are the candidates *)
Lemma hydrated_all : forall cand z, hydrated false cand z = cmem (z_id z) cand.
Proof. intros cand z. unfold hydrated. rewrite cmem_ctag. now destruct (ctag (z_id z) cand). Qed.

Lemma memN_zone_ids : forall (s : segment) z, In z s -> memN (z_id z) (zone_ids s) = true.
Proof.
  induction s as [|z0 s IH]; intros z H; simpl in *; [contradiction|].
  destruct H as [->|H].
  - now rewrite N.eqb_refl.
  - rewrite (IH z H). apply orb_true_r.
Qed.

Definition where_sat (sch : schema) (q : query) (ev : event) : bool :=
  match q_where q with Some e => sat sch e (ev_row ev) | None => true end.

Lemma sat_query_where : forall sch q ev, where_sat sch q ev = false -> sat_query sch q ev = false.
Proof. intros. unfold sat_query, where_sat in *. rewrite H. apply andb_false_r. Qed.

Lemma existsb_leaf_holds : forall sch l (z : zone),
  leaf_holds sch l z = true <-> exists r, In r (map ev_row (z_rows z)) /\ leaf_sat sch l r = true.
Proof.
  intros. unfold leaf_holds. rewrite existsb_exists. split.
  - intros [ev [I S]]. exists (ev_row ev). split; [now apply in_map|exact S].
  - intros [r [I S]]. apply in_map_iff in I as [ev [<- I]]. eauto.
Qed.

Lemma class_none_not_free : forall sch e, expr_class sch e = None -> not_free e = true.
Proof.
  induction e as [f op l|f ls|a IHa b IHb|a IHa b IHb|a IHa]; simpl; intros H; auto; [| |discriminate].
  1, 2: destruct (expr_class sch a); [discriminate|]; rewrite IHa, IHb; auto.
Qed.

Definition q_leaves (q : query) : list leaf :=
  match q_where q with
  | Some e => match build_fg e with Some g => fg_leaves g | None => [] end
  | None => []
  end.

Lemma no_leaves_sound : forall sch ans ss i, segs_leaves_sound sch ans [] i ss = true.
Proof. induction ss; intros; simpl; auto. Qed.

Lemma leaves_sound_q : forall sch ans L q,
  leaves_sound sch ans L q = segs_leaves_sound sch ans (q_leaves q) 0 (l_segs L).
Proof.
  intros. unfold leaves_sound, q_leaves. destruct (q_where q) as [e|]; [destruct (build_fg e)|];
    now rewrite ?no_leaves_sound.
Qed.

Lemma match_is_candidate : forall sch ans q i (s : segment) z ev,
  q_class_none sch q -> forallb (seg_leaf_sound sch ans i s) (q_leaves q) = true ->
  In z s -> In ev (z_rows z) -> where_sat sch q ev = true ->
  cmem (z_id z) (seg_candidates sch ans q i s) = true.
Proof.
  intros sch ans q i s z ev QC LS Iz Iev W.
  unfold seg_candidates, candidates, where_sat, q_class_none, q_leaves in *.
  destruct (q_where q) as [e|]; [destruct (build_fg e) as [g|] eqn:BG|];
    try (rewrite cmem_untagged; now apply memN_zone_ids).
  destruct (build_fg_spec sch e g BG) as [NF S].
  apply (collect_row_sound sch (ans i) (zone_ids s) g (z_id z) (ev_row ev)).
  - rewrite NF. eapply class_none_not_free; eauto.
  - (* the leaf is sound on this zone, and [ev] is one of its rows *)
    intros l Hl Sl. rewrite forallb_forall in LS. specialize (LS l Hl).
    unfold seg_leaf_sound in LS. rewrite forallb_forall in LS. specialize (LS z Iz).
    apply orb_true_iff in LS as [LS|LS]; [|exact LS].
    apply negb_true_iff, not_true_iff_false in LS. contradiction LS. apply existsb_leaf_holds.
    exists (ev_row ev). split; [apply in_map, Iev|exact Sl].
  - now rewrite S.
Qed.

Section Exact.
  Variable sch : schema.
  Variable ans : nat -> leaf -> option (list zid).
  Variable q : query.
  Hypothesis QC : q_class_none sch q.

  Lemma map_snd_seg_read : forall ot cand (s : segment),
    map snd (seg_read ot cand s) = flat_map (fun z => if hydrated ot cand z then z_rows z else []) s.
  Proof.
    intros. unfold seg_read. induction s as [|z s IH]; simpl; [reflexivity|].
    rewrite map_app, IH. f_equal. destruct (hydrated ot cand z); [|reflexivity].
    rewrite map_map. simpl. apply map_id.
  Qed.

  Lemma segs_read_in : forall ot ss cs ze, In ze (segs_read ot cs ss) ->
    In (snd ze) (fst ze) /\ In (snd ze) (flat_map seg_events ss).
  Proof.
    induction ss as [|s ss IH]; intros cs ze H; destruct cs as [|c cs]; simpl in H; try contradiction.
    cbn [flat_map]. rewrite in_app_iff. apply in_app_or in H as [H|H]; [|destruct (IH cs ze H); auto].
    unfold seg_read in H. apply in_flat_map in H as [z [Iz H]].
    destruct (hydrated ot c z); [|contradiction].
    apply in_map_iff in H as [ev [<- Iev]]. split; [exact Iev|]. left. apply in_flat_map. eauto.
  Qed.

  Lemma seg_rows_exact : forall i (s : segment), forallb (seg_leaf_sound sch ans i s) (q_leaves q) = true ->
    filter (sat_query sch q) (map snd (seg_read false (seg_candidates sch ans q i s) s))
    = filter (sat_query sch q) (seg_events s).
  Proof.
    intros i s LS. rewrite map_snd_seg_read. unfold seg_events.
    rewrite !filter_flat_map. apply flat_map_ext_in. intros z Iz.
    rewrite hydrated_all. destruct (cmem (z_id z) (seg_candidates sch ans q i s)) eqn:H; [reflexivity|].
    simpl. symmetry. apply filter_none. intros ev Iev. apply sat_query_where.
    destruct (where_sat sch q ev) eqn:W; [|reflexivity].
    rewrite (match_is_candidate sch ans q i s z ev QC LS Iz Iev W) in H. discriminate.
  Qed.

  Lemma segs_rows_exact : forall ss i,
    segs_leaves_sound sch ans (q_leaves q) i ss = true ->
    filter (sat_query sch q) (map snd (segs_read false (all_candidates sch ans q i ss) ss))
    = filter (sat_query sch q) (flat_map seg_events ss).
  Proof.
    induction ss as [|s ss IH]; intros i SF; simpl; [reflexivity|].
    cbn [segs_leaves_sound] in SF. apply andb_true_iff in SF as [LS SF].
    rewrite map_app, !filter_app. f_equal; [apply seg_rows_exact|apply IH]; auto.
  Qed.
End Exact.

Lemma known_class_none : forall sch evs q,
  (forall ev, In ev evs -> row_conforms sch (ev_row ev) = true) -> known_class sch evs q = None ->
  q_class_none sch q /\ forall ev, In ev evs -> ok_event sch (q_fields q) ev.
Proof.
  intros sch evs q RC H. unfold known_class, q_class_none, ok_event, q_fields in *.
  destruct (q_where q) as [e|]; [|split; [exact I|intros ev Iev; split; [auto|intros f []]]].
  destruct (expr_class sch e); [discriminate|]. split; [reflexivity|].
  intros ev Iev. split; [auto|]. intros f If.
  destruct (existsb (fun ev => existsb (big_u64 sch ev) (fields_of e)) evs) eqn:E; [discriminate|].
  rewrite existsb_false in E. specialize (E ev Iev). rewrite existsb_false in E. auto.
Qed.

(** [mixed_provenance] has the flag [query_hydrate_tagged_only] as a conjunct, and the flag is off (sneldb d4c8eed) *)
Lemma mixed_provenance_gone : forall sch ans L q, mixed_provenance sch ans L q = false.
Proof. intros. unfold mixed_provenance. now rewrite p_hydrate. Qed.

Lemma run_query_exact : forall sch ans L q,
  q_class_none sch q -> (forall ev, In ev (events L) -> ok_event sch (q_fields q) ev) ->
  leaves_sound sch ans L q = true ->
  run_query sch ans L q = filter (sat_query sch q) (events L).
Proof.
  intros sch ans L q QC OK LS. unfold run_query. unfold events in *. rewrite filter_app. f_equal.
  - rewrite (filter_opt_exact _ (filter_mem sch q) (sat_query sch q)); [reflexivity|].
    intros ev I. apply filter_mem_exact; auto using in_or_app.
  - unfold read_rows. rewrite p_hydrate. cbn [andb].
    rewrite (filter_opt_exact _ _ (fun ze => sat_query sch q (snd ze))).
    + rewrite <- filter_map_comm. apply segs_rows_exact; auto. now rewrite <- leaves_sound_q.
    + intros ze I. apply segs_read_in in I as [I1 I2]. apply filter_seg_exact; auto using in_or_app.
Qed.

Theorem exact_outside_known : forall sch ans L q,
  (forall ev, In ev (events L) -> row_conforms sch (ev_row ev) = true) ->
  known_class sch (events L) q = None ->
  leaves_sound sch ans L q = true ->
  run_query sch ans L q = filter (sat_query sch q) (events L).
Proof.
  intros sch ans L q RC KC LS. destruct (known_class_none sch (events L) q RC KC). now apply run_query_exact.
Qed.

From Coq Require Import Permutation.
Theorem layout_independent : forall sch ans1 ans2 L1 L2 q,
  Permutation (events L1) (events L2) ->
  (forall ev, In ev (events L1) -> row_conforms sch (ev_row ev) = true) ->
  known_class sch (events L1) q = None ->
  leaves_sound sch ans1 L1 q = true ->
  leaves_sound sch ans2 L2 q = true ->
  Permutation (run_query sch ans1 L1 q) (run_query sch ans2 L2 q).
Proof.
  intros sch ans1 ans2 L1 L2 q P RC KC S1 S2. destruct (known_class_none sch (events L1) q RC KC) as [QC OK].
  rewrite (run_query_exact sch ans1 L1 q), (run_query_exact sch ans2 L2 q); auto using Permutation_filter.
  intros ev I. apply OK. apply Permutation_sym in P. exact (Permutation_in ev P I).
Qed.

Definition bs (l : list N) : bytes := l.
Definition n_a := bs [97%N].   Definition n_u := bs [117%N].  Definition n_f := bs [102%N].
Definition n_s := bs [115%N].  Definition n_b := bs [98%N].   Definition n_e := bs [101%N].
Definition n_d := bs [100%N].  Definition n_os := bs [111; 115]%N.  Definition n_oi := bs [111; 105]%N.
Definition s_lo := bs [108; 111]%N.  Definition s_hi := bs [104; 105]%N.
Definition s_x := bs [120%N].  Definition s_y := bs [121%N].  Definition s_p := bs [112%N].
Definition s_7 := bs [55%N].   Definition s_007 := bs [48; 48; 55]%N.  Definition s_zzz := bs [122; 122; 122]%N.
Definition s_1_5 := bs [49; 46; 53]%N.  Definition s_2_5 := bs [50; 46; 53]%N.
Definition f_1_5 : N := 4609434218613702656%N.   (* 1.5 *)
Definition f_2_5 : N := 4612811918334230528%N.   (* 2.5 *)

Definition w_sch : schema :=
  [ mk_fdecl n_a KInt false; mk_fdecl n_u KU64 false; mk_fdecl n_f KFloat false; mk_fdecl n_s KStr false;
    mk_fdecl n_b KBool false; mk_fdecl n_e (KEnum [s_lo; s_hi]) false; mk_fdecl n_d KTime false;
    mk_fdecl n_os KStr true; mk_fdecl n_oi KInt true ].

Definition w_c1 : bytes := [99; 49]%N.
Definition w_r1 : event := mk_event w_c1
  [VInt 1; VU64 1; VFloat f_1_5 s_1_5; VStr s_x; VBool true; VEnum s_lo; VTime 0; VNull; VNull].
Definition w_r2 : event := mk_event w_c1
  [VInt 2; VU64 2; VFloat f_2_5 s_2_5; VStr s_7; VBool false; VEnum s_hi; VTime 0; VStr s_p; VInt 5].
Definition f_2_0 : N := 4611686018427387904%N.    (* 2.0 *)
Definition f_2p53 : N := 4845873199050653696%N.   (* 9007199254740992.0 *)
Definition s_2 := bs [50%N].
Definition s_2p53 := bs [57; 48; 48; 55; 49; 57; 57; 50; 53; 52; 55; 52; 48; 57; 57; 50]%N.
Definition w_r4 : event := mk_event w_c1
  [VInt 4; VU64 4; VFloat f_2_0 s_2; VStr s_x; VBool true; VEnum s_lo; VTime 0; VNull; VNull].
Definition w_r5 : event := mk_event w_c1
  [VInt 5; VU64 5; VFloat f_2p53 s_2p53; VStr s_x; VBool true; VEnum s_lo; VTime 0; VNull; VNull].
Definition w_r3 : event := mk_event w_c1
  [VInt 3; VU64 (2 ^ 63); VFloat f_2_5 s_2_5; VStr s_y; VBool false; VEnum s_hi; VTime 0; VStr s_p; VInt 5].

Definition w_mem : layout := mk_layout [w_r1; w_r2] [].
Definition w_seg : layout := mk_layout [] [[mk_zone 0%N [w_r1; w_r2]]].
Definition w_two : layout := mk_layout [] [[mk_zone 0%N [w_r1]]; [mk_zone 0%N [w_r2]]].
Definition w_big : layout := mk_layout [w_r3] [].
Definition w_f2 : layout := mk_layout [w_r4] [].
Definition w_f53 : layout := mk_layout [w_r5] [[mk_zone 0%N [w_r5]]].

(** the ideal structures: exactly the zones holding a satisfying row *)
Definition w_ideal (L : layout) : nat -> leaf -> option (list zid) :=
  fun i l => ideal_ans w_sch (nth i (l_segs L) []) l.

Definition conforming (sch : schema) (L : layout) : bool :=
  forallb (fun ev => row_conforms sch (ev_row ev)) (events L).
Definition wt_query (sch : schema) (q : query) : bool :=
  match q_where q with Some e => well_typed sch e | None => true end.
Definition deviates (sch : schema) (ans : nat -> leaf -> option (list zid)) (L : layout) (q : query) : Prop :=
  run_query sch ans L q <> filter (sat_query sch q) (events L).

Definition witness (c : option kclass) (ans : nat -> leaf -> option (list zid)) (L : layout) (q : query) : Prop :=
  conforming w_sch L = true /\ wt_query w_sch q = true /\ known_class w_sch (events L) q = c /\
  deviates w_sch ans L q.

Definition qw (e : expr) : query := mk_query None (Some e).

Ltac witness_tac :=
  split; [vm_compute; reflexivity|split; [vm_compute; reflexivity|split; [vm_compute; reflexivity|
    let H := fresh in intro H; vm_compute in H; discriminate H]]].

Lemma w_not : witness (Some NotComplement) (w_ideal w_seg) w_seg (qw (ENot (ECmp n_a CEq (LInt 1)))).
Proof. witness_tac. Qed.
Lemma w_not_sound : leaves_sound w_sch (w_ideal w_seg) w_seg (qw (ENot (ECmp n_a CEq (LInt 1)))) = true.
Proof. vm_compute. reflexivity. Qed.
Lemma w_dropped : witness (Some LiteralDropped) (w_ideal w_mem) w_mem (qw (ECmp n_a CGt (LFloat f_1_5 s_1_5))).
Proof. witness_tac. Qed.
Lemma w_dropped_seg : witness (Some LiteralDropped) (w_ideal w_seg) w_seg (qw (ECmp n_a CGt (LFloat f_1_5 s_1_5))).
Proof. witness_tac. Qed.
Lemma w_float_in : witness (Some FloatColumnIn) (w_ideal w_f2) w_f2 (qw (EIn n_f [LInt 2])).
Proof. witness_tac. Qed.
(** [f < 2^53 + 1] on the cell 2^53: the threshold is rounded to 2^53 *)
Lemma w_float_round : witness (Some FloatThresholdRounded) (w_ideal w_f53) w_f53
  (qw (ECmp n_f CLt (LInt 9007199254740993))).
Proof. witness_tac. Qed.
Lemma w_neq_opt : witness (Some NeqOnOptionalText) (w_ideal w_mem) w_mem (qw (ECmp n_os CNe (LStr s_zzz))).
Proof. witness_tac. Qed.
Lemma w_neq_opt_seg : witness (Some NeqOnOptionalText) (w_ideal w_seg) w_seg (qw (ECmp n_os CNe (LStr s_zzz))).
Proof. witness_tac. Qed.
Lemma w_u64neg_ne : witness (Some U64NegativeThreshold) (w_ideal w_seg) w_seg (qw (ECmp n_u CNe (LInt (-1)))).
Proof. witness_tac. Qed.
Lemma w_u64neg : witness (Some U64NegativeThreshold) (w_ideal w_seg) w_seg (qw (ECmp n_u CGt (LInt (-1)))).
Proof. witness_tac. Qed.
Lemma w_u64big : witness (Some U64AboveI64Max) (w_ideal w_big) w_big (qw (ECmp n_u CGt (LInt 0))).
Proof. witness_tac. Qed.
Lemma w_numstr : witness (Some NumericLookingString) (w_ideal w_mem) w_mem (qw (ECmp n_s CEq (LStr s_007))).
Proof. witness_tac. Qed.
Lemma w_strord : witness (Some StringOrdering) (w_ideal w_mem) w_mem (qw (ECmp n_s CGt (LStr s_p))).
Proof. witness_tac. Qed.
Lemma w_nullsp : witness (Some NullSpelling) (w_ideal w_mem) w_mem (qw (ECmp n_os CEq (LStr b_null))).
Proof. witness_tac. Qed.
(** a leaf answer that is not a superset (C08) *)
Lemma w_unsound :
  witness None (fun _ _ => Some []) w_seg (qw (ECmp n_a CEq (LInt 1))) /\
  leaves_sound w_sch (fun _ _ => Some []) w_seg (qw (ECmp n_a CEq (LInt 1))) = false.
Proof. split; [witness_tac|vm_compute; reflexivity]. Qed.

(** Closed instances of [exact_outside_known]; what each is for, and what the ideal answers [w_ideal] leave unsaid:
    Props/C02.v, [C02_repaired_findings_exact]. *)
Definition exact_on (ans : nat -> leaf -> option (list zid)) (L : layout) (q : query) : Prop :=
  known_class w_sch (events L) q = None /\ leaves_sound w_sch ans L q = true /\
  run_query w_sch ans L q = filter (sat_query w_sch q) (events L).
Definition w_mixed_ans : nat -> leaf -> option (list zid) :=
  fun i _ => match i with O => None | _ => Some [0%N] end.
Lemma repaired_exact :
  exact_on (w_ideal w_mem) w_mem (qw (ECmp n_f CGt (LInt 1))) /\
  exact_on (w_ideal w_seg) w_seg (qw (ECmp n_f CGt (LInt 1))) /\
  exact_on (w_ideal w_seg) w_seg (qw (ECmp n_b CEq (LStr b_true))) /\
  exact_on (w_ideal w_seg) w_seg (qw (ECmp n_a CNe (LInt 1))) /\
  exact_on (w_ideal w_seg) w_seg (qw (ECmp n_e CNe (LStr s_zzz))) /\
  exact_on (w_ideal w_seg) w_seg (qw (ECmp n_d CGt (LInt (-5)))) /\
  exact_on w_mixed_ans w_two (qw (ECmp n_oi CGe (LInt 0))).
Proof. unfold exact_on; repeat apply conj; vm_compute; reflexivity. Qed.

Theorem exact_refuted : exists sch ans L q,
  conforming sch L = true /\ wt_query sch q = true /\ leaves_sound sch ans L q = true /\
  ~ Permutation (run_query sch ans L q) (filter (sat_query sch q) (events L)).
Proof.
  exists w_sch, (w_ideal w_seg), w_seg, (qw (ENot (ECmp n_a CEq (LInt 1)))).
  split; [vm_compute; reflexivity|split; [vm_compute; reflexivity|split; [exact w_not_sound|]]].
  intro P. apply Permutation_length in P. vm_compute in P. discriminate P.
Qed.

(** the hypotheses of [exact_outside_known] are satisfiable *)
Definition ex_q : query :=
  mk_query (Some w_c1)
    (Some (EOr (EAnd (ECmp n_a CGe (LInt 2)) (EIn n_e [LStr s_hi; LStr s_zzz]))
               (EOr (EAnd (ECmp n_s CEq (LStr s_x)) (ECmp n_u CLt (LInt (-3))))
                    (EAnd (ECmp n_f CGt (LInt 2))
                          (EAnd (ECmp n_b CEq (LStr b_false))
                                (EAnd (ECmp n_a CNe (LInt 1)) (ECmp n_e CNe (LStr s_zzz)))))))).
Definition ex_L : layout := mk_layout [w_r2] [[mk_zone 0%N [w_r1; w_r2]]; [mk_zone 0%N [w_r1]; mk_zone 1%N [w_r2; w_r2]]].
Lemma outside_known_example :
  (forall ev, In ev (events ex_L) -> row_conforms w_sch (ev_row ev) = true) /\
  known_class w_sch (events ex_L) ex_q = None /\
  leaves_sound w_sch (w_ideal ex_L) ex_L ex_q = true /\
  wt_query w_sch ex_q = true /\
  length (run_query w_sch (w_ideal ex_L) ex_L ex_q) = 4 /\ length (events ex_L) = 6.
Proof.
  split.
  - assert (H : conforming w_sch ex_L = true) by (vm_compute; reflexivity).
    unfold conforming in H. rewrite forallb_forall in H. exact H.
  - repeat apply conj; vm_compute; reflexivity.
Qed.

(** the hypotheses of [layout_independent] are satisfiable *)
Definition ex_L_mem : layout := mk_layout (events ex_L) [].
Lemma layout_independent_example :
  Permutation (events ex_L) (events ex_L_mem) /\
  leaves_sound w_sch (w_ideal ex_L_mem) ex_L_mem ex_q = true /\
  length (run_query w_sch (w_ideal ex_L_mem) ex_L_mem ex_q) = 4.
Proof.
  split; [|repeat apply conj; vm_compute; reflexivity].
  assert (E : events ex_L_mem = events ex_L) by (vm_compute; reflexivity).
  rewrite E. apply Permutation_refl.
Qed.
