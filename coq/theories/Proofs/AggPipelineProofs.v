(** C09, the whole aggregate pipeline: per-flow sinks, partial rows, coordinator merge.  Every reported group holds,
    for every metric, the final value of the fold over exactly the rows of that group ([pipeline_equals_fold]); a
    group is the rows with one key as the coordinator reads it off the partial rows ([wkey]), which is coarser than
    the sinks' key ([spec_group]). *)
From Coq Require Import ZArith List Bool Lia Permutation.
From Snel Require Import Model.Bucket Model.Agg.
From Snel Require Import Proofs.ListFacts Proofs.AssocFacts Proofs.AggProofs.
Import ListNotations.
Open Scope Z_scope.

Lemma zip_with_map_r : forall {A B C} (g : A -> B -> C) (f : A -> B) l,
  zip_with g l (map f l) = map (fun a => g a (f a)) l.
Proof. induction l as [|x l IH]; cbn; [reflexivity|now rewrite IH]. Qed.

Lemma zip_with_maps : forall {A B C D} (g : B -> C -> D) (f1 : A -> B) (f2 : A -> C) l,
  zip_with g (map f1 l) (map f2 l) = map (fun a => g (f1 a) (f2 a)) l.
Proof. induction l as [|x l IH]; cbn; [reflexivity|now rewrite IH]. Qed.

Definition cell_of (m : metric) (r : crow) : cell := nth (m_field m) (c_fields r) CNull.
Definition cells (m : metric) (l : list crow) : list cell := map (cell_of m) l.

Lemma fold_upd_all_cols : forall ms l (st : metric -> agg),
  fold_left (upd_all ms) l (map st ms) =
  map (fun m => fold_left (upd (m_kind m)) (cells m l) (st m)) ms.
Proof.
  intros ms l. induction l as [|r l IH]; intros st.
  - reflexivity.
  - change (fold_left (upd_all ms) (r :: l) (map st ms))
      with (fold_left (upd_all ms) l (upd_all ms (map st ms) r)).
    assert (E : upd_all ms (map st ms) r = map (fun m => upd (m_kind m) (st m) (cell_of m r)) ms).
    { unfold upd_all. rewrite zip_with_map_r. reflexivity. }
    rewrite E, IH. apply map_ext. reflexivity.
Qed.

Lemma sink_entry_cols : forall ms l,
  fold_left (upd_all ms) l (init_all ms) = map (fun m => run (m_kind m) (cells m l)) ms.
Proof. intros ms l. unfold init_all. rewrite fold_upd_all_cols. reflexivity. Qed.

Definition vec (p : plan) (l : list crow) : list agg :=
  map (fun m => part (m_kind m) (cells m l)) (p_metrics p).

Definition wire_key (p : plan) (k : gkey) : gkey := (wire_bucket p (fst k), snd k).

Definition flow_out (p : plan) (rs : list crow) : list (gkey * list agg) :=
  map (wire_row p) (sink_rows p rs).

Lemma lookup_of_in : forall {V} (st : list (gkey * V)) k v,
  NoDup (map fst st) -> In (k, v) st -> lookup k st = Some v.
Proof. intros V st k v. apply (In_assoc gkey_eqb lookup gkey_eqb_eq); reflexivity. Qed.

Lemma sink_entry : forall p rs k aggs, In (k, aggs) (sink_rows p rs) ->
  sel p k rs <> [] /\ aggs = map (fun m => run (m_kind m) (cells m (sel p k rs))) (p_metrics p).
Proof.
  intros p rs k aggs H. destruct (each_event_one_group p rs) as (ND & L & _).
  pose proof (lookup_of_in _ _ _ ND H) as E. rewrite L in E.
  destruct (sel p k rs) as [|r l] eqn:Es; [discriminate|]. split; [discriminate|].
  injection E as E. rewrite <- E. exact (sink_entry_cols (p_metrics p) (r :: l)).
Qed.

Lemma flow_out_spec : forall p rs,
  flow_out p rs = map (fun e => (wire_key p (fst e), vec p (sel p (fst e) rs))) (sink_rows p rs).
Proof.
  intros p rs. unfold flow_out. apply map_ext_in. intros [k aggs] H.
  destruct (sink_entry p rs k aggs H) as [_ ->]. unfold wire_row, wire_key, vec, part. cbn [fst snd].
  f_equal. rewrite map_map. reflexivity.
Qed.

Definition zipm (cur new : list agg) : list agg :=
  if Nat.eqb (length cur) (length new) then zip_with merge_state cur new else cur.

Lemma coord_lookup : forall rows st k,
  lookup k (fold_left coord_step rows st) =
  match filter (fun e => gkey_eqb (fst e) k) rows with
  | [] => lookup k st
  | e :: es => Some (fold_left (fun cur e => zipm cur (snd e)) es
                       (match lookup k st with Some cur => zipm cur (snd e) | None => snd e end))
  end.
Proof. exact (fold_upsert_lookup fst (fun o e => match o with Some cur => zipm cur (snd e) | None => snd e end)). Qed.

Definition pipeline (p : plan) (parts : list (list crow)) : list (gkey * list agg) :=
  coord_merge (concat (map (flow_out p) parts)).

Lemma pipeline_nodup : forall p parts, NoDup (map fst (pipeline p parts)).
Proof. intros. apply fold_upsert_nodup. constructor. Qed.

(** the row lists that contribute to group [k]: per flow, the sink entries whose wire key is [k] *)
Definition contribs (p : plan) (parts : list (list crow)) (k : gkey) : list (list crow) :=
  flat_map (fun rs => map (fun e => sel p (fst e) rs)
                          (filter (fun e => gkey_eqb (wire_key p (fst e)) k) (sink_rows p rs))) parts.

Lemma pipeline_lookup : forall p parts k,
  lookup k (pipeline p parts) =
  match contribs p parts k with
  | [] => None
  | l :: ls => Some (fold_left zipm (map (vec p) ls) (vec p l))
  end.
Proof.
  intros p parts k. unfold pipeline, coord_merge. rewrite coord_lookup. cbn [lookup].
  assert (E : filter (fun e => gkey_eqb (fst e) k) (concat (map (flow_out p) parts)) =
              map (fun l => (k, vec p l)) (contribs p parts k)).
  { rewrite filter_concat, map_map. unfold contribs. rewrite flat_map_concat_map, concat_map, map_map.
    f_equal. apply map_ext. intros rs. rewrite flow_out_spec, filter_map_comm, map_map. cbn [fst].
    apply map_ext_in. intros e He. apply filter_In in He. destruct He as [_ He].
    apply gkey_eqb_eq in He. now rewrite He. }
  rewrite E. destruct (contribs p parts k) as [|l ls]; cbn [map]; [reflexivity|].
  cbn [snd]. now rewrite !fold_left_map.
Qed.

Lemma zipm_vec : forall p (f g : metric -> agg),
  zipm (map f (p_metrics p)) (map g (p_metrics p)) = map (fun m => merge_state (f m) (g m)) (p_metrics p).
Proof.
  intros p f g. unfold zipm. rewrite !map_length, Nat.eqb_refl. apply zip_with_maps.
Qed.

Lemma fold_zipm_vec : forall p ls (f : metric -> agg),
  fold_left zipm (map (vec p) ls) (map f (p_metrics p)) =
  map (fun m => fold_left merge_state (map (fun l => part (m_kind m) (cells m l)) ls) (f m)) (p_metrics p).
Proof.
  induction ls as [|l ls IH]; intros f; cbn [map fold_left]; [reflexivity|].
  unfold vec at 2. rewrite zipm_vec. rewrite (IH (fun m => merge_state (f m) (part (m_kind m) (cells m l)))).
  reflexivity.
Qed.

Lemma pipeline_lookup_parts : forall p parts k,
  lookup k (pipeline p parts) =
  match contribs p parts k with
  | [] => None
  | l :: ls => Some (map (fun m => merge_parts (m_kind m) (cells m l) (map (cells m) ls)) (p_metrics p))
  end.
Proof.
  intros p parts k. rewrite pipeline_lookup. destruct (contribs p parts k) as [|l ls]; [reflexivity|].
  f_equal. unfold vec at 2. rewrite fold_zipm_vec. apply map_ext. intros m.
  unfold merge_parts. rewrite map_map. reflexivity.
Qed.

Definition wkey (p : plan) (r : crow) : gkey := wire_key p (row_key p r).
Definition wsel (p : plan) (k : gkey) (rs : list crow) : list crow :=
  filter (fun r => gkey_eqb (wkey p r) k) rs.

Lemma partition_by_keys : forall p (ks : list gkey) (rs : list crow),
  NoDup ks -> (forall r, In r rs -> In (row_key p r) ks) ->
  Permutation (concat (map (fun k => sel p k rs) ks)) rs.
Proof.
  intros p ks rs. rewrite <- flat_map_concat_map. apply (partition_by_key_perm (row_key p) gkey_eqb gkey_eqb_eq).
Qed.

Lemma wsel_sel : forall p k sk rs,
  wsel p k (sel p sk rs) = if gkey_eqb (wire_key p sk) k then sel p sk rs else [].
Proof.
  intros p k sk rs. unfold wsel.
  destruct (gkey_eqb (wire_key p sk) k) eqn:E; [apply filter_all|apply filter_none];
    intros r Hr; apply sel_In in Hr; destruct Hr as [_ <-]; exact E.
Qed.

Lemma wsel_concat : forall p k ls, wsel p k (concat ls) = concat (map (wsel p k) ls).
Proof. intros. unfold wsel. apply filter_concat. Qed.

Lemma contribs_flow_perm : forall p rs k,
  Permutation
    (concat (map (fun e => sel p (fst e) rs)
                 (filter (fun e => gkey_eqb (wire_key p (fst e)) k) (sink_rows p rs))))
    (wsel p k rs).
Proof.
  (* a flow's rows are, up to order, the concatenation of its sink groups ([partition_by_keys]); cut by
     the wire key [k], a sink group stays whole or goes whole ([wsel_sel]), so exactly the groups of the
     entries with wire key [k] remain *)
  intros p rs k. destruct (each_event_one_group p rs) as (ND & _ & _ & Hc).
  pose proof (partition_by_keys p (map fst (sink_rows p rs)) rs ND Hc) as P.
  apply (Permutation_filter (fun r => gkey_eqb (wkey p r) k)) in P.
  change (filter (fun r => gkey_eqb (wkey p r) k)) with (wsel p k) in P.
  rewrite wsel_concat, !map_map in P.
  rewrite <- (concat_filter_nil _ (fun e => gkey_eqb (wire_key p (fst e)) k)) in P
    by (intros e _ E; cbn beta; now rewrite wsel_sel, E).
  erewrite map_ext_in; [exact P|]. intros e He. apply filter_In in He. cbn beta. now rewrite wsel_sel, (proj2 He).
Qed.

Lemma contribs_perm : forall p parts k,
  Permutation (concat (contribs p parts k)) (wsel p k (concat parts)).
Proof.
  intros p parts k. unfold contribs. induction parts as [|rs parts IH]; cbn [flat_map concat]; [constructor|].
  rewrite concat_app. unfold wsel at 1. rewrite filter_app. fold (wsel p k rs). fold (wsel p k (concat parts)).
  apply Permutation_app; [apply contribs_flow_perm|exact IH].
Qed.

Lemma contribs_nonempty : forall p parts k l, In l (contribs p parts k) -> l <> [].
Proof.
  intros p parts k l H. unfold contribs in H. apply in_flat_map in H. destruct H as (rs & _ & H).
  apply in_map_iff in H. destruct H as ([sk aggs] & <- & H). apply filter_In in H. destruct H as [H _].
  cbn [fst]. now destruct (sink_entry p rs sk aggs H).
Qed.

(** the rows of well-typed batches; [pipeline_equals_fold] names them and holds of any rows *)
Definition rows_ok (rs : list crow) : Prop := Forall (fun r => Forall cell_ok (c_fields r)) rs.

(** known class: for some MIN metric, one contribution to the group holds only nulls in
    the metric's column *)
Definition MinEmptyContribution (p : plan) (parts : list (list crow)) (k : gkey) : Prop :=
  exists m, In m (p_metrics p) /\ MinEmptyPartial (m_kind m) (map (cells m) (contribs p parts k)).

(** the value the property demands: the metric folded over exactly the rows of the group, as a flow holding all of
    them would send it ([part]: the [wire] of the fold, not the fold; that the two finalise alike is no lemma of
    these files).  The rows are chosen by [wkey], the sink key after [wire_bucket], so what the partial row cannot
    tell apart is one group here as well: under PER a row whose time is not an integer (sink bucket [None]) belongs
    to bucket [Some 0], with the rows whose bucket is 0 (class BucketOfInvalidTime of known/C09.json; a bucket from
    2^63 up is read back as [None] in the same way).  [pipeline_equals_fold] therefore does not exclude that class:
    it says the pipeline merges exactly what this grouping puts together. *)
Definition spec_group (p : plan) (k : gkey) (rs : list crow) : option (list fin) :=
  match wsel p k rs with
  | [] => None
  | l => Some (map (fun m => finalize (part (m_kind m) (cells m l))) (p_metrics p))
  end.

Theorem pipeline_equals_fold : forall p parts k,
  Forall rows_ok parts ->
  ~ MinEmptyContribution p parts k ->
  option_map (map finalize) (lookup k (pipeline p parts)) = spec_group p k (concat parts).
Proof.
  intros p parts k _ Hk. rewrite pipeline_lookup_parts. unfold spec_group.
  pose proof (contribs_perm p parts k) as P.
  destruct (contribs p parts k) as [|l ls] eqn:Ec.
  - cbn [concat] in P. apply Permutation_nil in P. rewrite P. reflexivity.
  - assert (Hl : l <> []) by (apply (contribs_nonempty p parts k); rewrite Ec; now left).
    destruct (wsel p k (concat parts)) as [|r0 w] eqn:Ew.
    { apply Permutation_sym, Permutation_nil in P. cbn [concat] in P.
      apply app_eq_nil in P. destruct P. contradiction. }
    cbn [option_map]. f_equal. rewrite map_map. apply map_ext_in. intros m Hm.
    rewrite (agg_partition_any_cells (m_kind m) (cells m l) (map (cells m) ls)).
    + unfold part. do 2 f_equal.
      replace (cells m l ++ concat (map (cells m) ls)) with (cells m (concat (l :: ls)))
        by (cbn [concat]; unfold cells; rewrite map_app, concat_map; reflexivity).
      unfold cells. apply run_perm, Permutation_map, P.
    + intros Hkn. apply Hk. exists m. split; [exact Hm|]. rewrite Ec. exact Hkn.
Qed.

Definition rows_of_flow (ng nf : nat) (batches : list (list row)) : list crow :=
  concat (map (cells_of_batch ng nf) batches).

Lemma coord_merge_flows : forall p ng nf flows,
  coord_merge (concat (map (flow_rows p ng nf) flows)) = pipeline p (map (rows_of_flow ng nf) flows).
Proof. intros. unfold pipeline. now rewrite map_map. Qed.

Lemma merged_groups_is_pipeline : forall p ng nf flows,
  merged_groups p ng nf flows =
  map (fun e => (fst e, map finalize (snd e)))
      (filter (fun e => keep_group p (fst e)) (pipeline p (map (rows_of_flow ng nf) flows))).
Proof. intros. unfold merged_groups. now rewrite coord_merge_flows. Qed.

Example pipeline_equals_fold_nonvacuous :
  let p := {| p_metrics := [{| m_kind := MTotal; m_field := 0 |}; {| m_kind := MMin; m_field := 0 |}];
              p_gran := None; p_by := true; p_calendar := true; p_week_start := 0 |} in
  let r g v := {| c_ts := CNull; c_groups := [CStr g]; c_fields := [v] |} in
  let parts := [[r [97%N] (CInt 5); r [98%N] (CInt 1)]; [r [97%N] (CInt (-2)); r [97%N] CNull]] in
  let k : gkey := (None, [[97%N]]) in
  Forall rows_ok parts /\ ~ MinEmptyContribution p parts k
  /\ option_map (map finalize) (lookup k (pipeline p parts)) = Some [FInt 3; FInt (-2)].
Proof.
  cbn zeta. split; [|split].
  - repeat constructor; unfold in_i64, two63; lia.
  - intros (m & Hm & _ & Hk). cbn in Hm. destruct Hm as [<-|[<-|[]]]; vm_compute in Hk; discriminate.
  - vm_compute. reflexivity.
Qed.

Lemma fold_sink_batch_groups : forall p ng nf batches st,
  Gen.Params.agg_columnar_default_prehash_zero && ungrouped p = false ->
  sk_groups (fold_left (sink_batch p ng nf) batches st) =
    fold_left (sink_step p) (concat (map (cells_of_batch ng nf) batches)) (sk_groups st)
  /\ sk_col (fold_left (sink_batch p ng nf) batches st) = sk_col st.
Proof.
  intros p ng nf batches. induction batches as [|b bs IH]; intros st H; cbn [fold_left map concat].
  - split; reflexivity.
  - rewrite fold_left_app. destruct (IH (sink_batch p ng nf st b) H) as [E1 E2].
    rewrite E1, E2. unfold sink_batch. rewrite H. cbn [andb sk_groups sk_col]. split; reflexivity.
Qed.

(** the hypothesis: no plan without BY / PER sends its all-integer batches through the columnar path under a key of
    its own *)
Lemma flow_alts_row_path : forall p ng nf batches,
  Gen.Params.agg_columnar_default_prehash_zero && ungrouped p = false ->
  flow_alts p ng nf batches = [flow_rows p ng nf batches].
Proof.
  intros p ng nf batches E. unfold flow_alts.
  destruct (fold_sink_batch_groups p ng nf batches
              {| sk_groups := []; sk_col := None; sk_all := init_all (p_metrics p) |} E) as [E1 E2].
  rewrite E2, E1. reflexivity.
Qed.

(** the columnar path uses the row path's key (sneldb d49da47) *)
Lemma prehash_flag : Gen.Params.agg_columnar_default_prehash_zero = false.
Proof. reflexivity. Qed.

Theorem flow_alts_single : forall p ng nf batches,
  flow_alts p ng nf batches = [flow_rows p ng nf batches].
Proof. intros. apply flow_alts_row_path. rewrite prehash_flag. reflexivity. Qed.

Lemma choices_singletons : forall {A B} (f : A -> B) (l : list A),
  choices (map (fun x => [f x]) l) = [map f l].
Proof.
  induction l as [|x l IH]; [reflexivity|].
  cbn [map choices]. rewrite IH. reflexivity.
Qed.

(** [merged_groups_alts] is the function run against the implementation (ocaml/p_agg.ml) *)
Theorem merged_groups_alts_single : forall p ng nf flows,
  merged_groups_alts p ng nf flows =
  [filter (fun e => keep_group p (fst e)) (pipeline p (map (rows_of_flow ng nf) flows))].
Proof.
  intros p ng nf flows. unfold merged_groups_alts.
  replace (map (flow_alts p ng nf) flows) with (map (fun b => [flow_rows p ng nf b]) flows)
    by (apply map_ext; intros; symmetry; apply flow_alts_single).
  rewrite choices_singletons. cbn [map]. now rewrite coord_merge_flows.
Qed.
