(** The OFFSET / LIMIT window of a response writer, as a loop over a row stream with two counters. *)
From Coq Require Import NArith List Lia.
Import ListNotations.
Local Open Scope N_scope.

Fixpoint window {A} (lim off : option N) (sk em : N) (l : list A) : list A :=
  match l with
  | [] => []
  | x :: r =>
      if match off with Some o => sk <? o | None => false end then window lim off (N.succ sk) em r
      else if match lim with Some n => n <=? em | None => false end then []
      else x :: window lim off sk (N.succ em) r
  end.

Definition skip_to {A} (off : option N) (sk : N) (l : list A) : list A :=
  match off with Some o => skipn (N.to_nat (o - sk)) l | None => l end.
Definition take_to {A} (lim : option N) (em : N) (l : list A) : list A :=
  match lim with Some n => firstn (N.to_nat (n - em)) l | None => l end.

Section Window.
  Context {A : Type}.
  Implicit Types (l r : list A) (x : A).

  Lemma skip_to_lt : forall off sk x r,
    match off with Some o => sk <? o | None => false end = true ->
    skip_to off sk (x :: r) = skip_to off (N.succ sk) r.
  Proof.
    intros [o|] sk x r H; [|discriminate]. apply N.ltb_lt in H. unfold skip_to.
    replace (N.to_nat (o - sk)) with (S (N.to_nat (o - N.succ sk))) by lia. reflexivity.
  Qed.

  Lemma skip_to_ge : forall off sk l,
    match off with Some o => sk <? o | None => false end = false -> skip_to off sk l = l.
  Proof.
    intros [o|] sk l H; [|reflexivity]. apply N.ltb_ge in H. unfold skip_to.
    replace (N.to_nat (o - sk)) with O by lia. reflexivity.
  Qed.

  Lemma take_to_full : forall lim em l,
    match lim with Some n => n <=? em | None => false end = true -> take_to lim em l = [].
  Proof.
    intros [n|] em l H; [|discriminate]. apply N.leb_le in H. unfold take_to.
    replace (N.to_nat (n - em)) with O by lia. reflexivity.
  Qed.

  Lemma take_to_cons : forall lim em x r,
    match lim with Some n => n <=? em | None => false end = false ->
    take_to lim em (x :: r) = x :: take_to lim (N.succ em) r.
  Proof.
    intros [n|] em x r H; [|reflexivity]. apply N.leb_gt in H. unfold take_to.
    replace (N.to_nat (n - em)) with (S (N.to_nat (n - N.succ em))) by lia. reflexivity.
  Qed.

  Lemma window_incl : forall lim off l sk em, incl (window lim off sk em l) l.
  Proof.
    intros lim off. induction l as [|x r IH]; intros sk em; cbn [window]; [apply incl_refl|].
    destruct (match off with Some o => sk <? o | None => false end); [apply incl_tl, IH|].
    destruct (match lim with Some n => n <=? em | None => false end); [apply incl_nil_l|].
    apply incl_cons; [left; reflexivity|apply incl_tl, IH].
  Qed.

  Theorem window_spec : forall lim off l sk em,
    window lim off sk em l = take_to lim em (skip_to off sk l).
  Proof.
    intros lim off. induction l as [|x r IH]; intros sk em; cbn [window].
    - destruct lim, off; cbn [take_to skip_to]; rewrite ?skipn_nil, ?firstn_nil; reflexivity.
    - destruct (match off with Some o => sk <? o | None => false end) eqn:Es.
      + rewrite IH, (skip_to_lt _ _ _ _ Es). reflexivity.
      + rewrite (skip_to_ge _ _ _ Es).
        destruct (match lim with Some n => n <=? em | None => false end) eqn:Ef.
        * rewrite (take_to_full _ _ _ Ef). reflexivity.
        * rewrite IH, (skip_to_ge _ _ r Es), (take_to_cons _ _ _ _ Ef). reflexivity.
  Qed.
End Window.
