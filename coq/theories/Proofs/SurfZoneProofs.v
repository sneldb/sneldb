(** Proofs about Model/ZoneSurf.v (C08): the builder only inserts 8-byte keys; the
    builder + pruner pair never drops a zone holding a satisfying row outside the classes of
    [known_class]; witnesses that a class is a real false negative.
    Two classes are live: [SurfSaturatedFloat] and [SurfCrossLane].  [SurfFirstRowLacksField] is answered only
    while [surf_keys_from_first_event] is [true]; Gen/Params.v has [false] (zone_surf_filter.rs takes a zone's
    field set from every event, sneldb commit 8af8f84), so [surf_refuted_first_row], stated under the flag, is
    inert. *)
From Coq Require Import ZArith List.
From Snel Require Import Base.Bytes Gen.Params Model.SurfEnc Model.Trie Model.ZoneSurf.
From Snel Require Import Proofs.BytesFacts Proofs.ListFacts Proofs.SurfLexProofs Proofs.SurfEncProofs Proofs.SurfTrieProofs.
Import ListNotations.
Open Scope N_scope.

Lemma key_insert_in : forall k l x, In x (key_insert k l) <-> x = k \/ In x l.
Proof. intros k. apply insert_in; [reflexivity|]. intros x r. cbn [key_insert]. destruct (bytes_cmp k x); auto. Qed.

Lemma key_sort_in : forall l x, In x (key_sort l) <-> In x l.
Proof. intros l x. unfold key_sort. rewrite (fold_insert_in key_insert key_insert_in). cbn [In]. tauto. Qed.

Lemma key_dedup_in : forall l x, In x (key_dedup l) <-> In x l.
Proof.
  induction l as [|a r IH]; intros x; [cbn; tauto|].
  cbn [key_dedup]. destruct r as [|b r'].
  - tauto.
  - destruct (bytes_eqb a b) eqn:E.
    + apply bytes_eqb_eq in E. subst b. rewrite IH. cbn [In]. tauto.
    + cbn [In]. rewrite IH. cbn [In]. tauto.
Qed.

Lemma present_keys_in : forall rows k,
  In k (present_keys rows) <-> exists v, In (Some v) rows /\ encode_value v = Some k.
Proof.
  induction rows as [|r rest IH]; intros k; cbn [present_keys].
  - cbn. split; [intros []|intros (v & [] & _)].
  - destruct r as [v|].
    + destruct (encode_value v) as [b|] eqn:E; cbn [In]; rewrite IH; split.
      * intros [<-|(v' & H1 & H2)]; [exists v; auto|exists v'; auto].
      * intros (v' & [H1|H1] & H2); [injection H1 as <-; left; congruence|right; now exists v'].
      * intros (v' & H1 & H2). exists v'. auto.
      * intros (v' & [H1|H1] & H2); [injection H1 as <-; congruence|now exists v'].
    + rewrite IH. split; intros (v' & H1 & H2); exists v'; cbn [In] in *; intuition congruence.
Qed.

Lemma gate_rows_some : forall rows st k,
  gate_rows rows st = Some k ->
  st <> None /\ forall v, In (Some v) rows -> kind_of v <> None.
Proof.
  induction rows as [|r rest IH]; intros st k H; cbn [gate_rows] in H.
  - split; [congruence|]. intros v [].
  - destruct st as [k0|]; [|discriminate]. split; [discriminate|].
    destruct r as [v0|].
    + destruct (kind_of v0) as [this|] eqn:Hk; [|discriminate].
      assert (Hrest : forall v, In (Some v) rest -> kind_of v <> None).
      { destruct k0 as [k1|].
        - destruct (kind_eqb k1 this); [|discriminate]. now apply (IH _ _ H).
        - now apply (IH _ _ H). }
      intros v [E|Hin]; [injection E as <-; congruence|now apply Hrest].
    + destruct (IH _ _ H) as (_ & Hr). intros v [E|Hin]; [discriminate|now apply Hr].
Qed.

Lemma gate_zones_some : forall zs st k,
  gate_zones zs st = Some k ->
  st <> None /\ forall id rows v, In (id, rows) zs -> In (Some v) rows -> kind_of v <> None.
Proof.
  induction zs as [|z rest IH]; intros st k H; cbn [gate_zones] in H.
  - split; [congruence|]. intros id rows v [].
  - destruct (IH _ _ H) as (Hst & Hr).
    destruct (gate_rows (snd z) st) as [k1|] eqn:Hg; [|congruence].
    destruct (gate_rows_some _ _ _ Hg) as (Hst' & Hz). split; [assumption|].
    intros id rows v [E|Hin] Hv; [subst z; now apply Hz|now apply (Hr id rows)].
Qed.

Lemma gate_true : forall zs, gate zs = true ->
  forall id rows v, In (id, rows) zs -> In (Some v) rows -> kind_of v <> None.
Proof.
  intros zs H. unfold gate in H. destruct (gate_zones zs (Some None)) as [k|] eqn:Hg; [|discriminate].
  now destruct (gate_zones_some _ _ _ Hg).
Qed.

(** one statement for its two callers, [kind_len8] and [num_has_lane] *)
Lemma numeric_route : forall v, kind_of v <> None \/ num_of v <> None ->
  match route_of v with RI _ | RU _ | RF _ => True | _ => False end.
Proof.
  intros v H. assert (N : forall A, (@None A <> None \/ @None Z <> None) -> False) by (intros A [E|E]; now apply E).
  destruct v as [|b|z|z|b|s h|]; cbn [kind_of num_of route_of] in H |- *.
  - exact (N _ H).
  - exact (N _ H).
  - exact I.
  - exact I.
  - apply float_lane.
  - destruct (parse_i64 s); [exact I|]. destruct (parse_u64 s); [exact I|].
    destruct h; [apply float_lane | exact (N _ H)].
  - exact (N _ H).
Qed.

Lemma kind_len8 : forall v, kind_of v <> None -> exists k, encode_value v = Some k /\ length k = 8%nat.
Proof.
  intros v H. unfold encode_value. pose proof (numeric_route v (or_introl H)) as R.
  destruct (route_of v); try contradiction; cbn [enc_route]; eexists; split; reflexivity.
Qed.

Theorem surf_keys_len8 : forall zs id rows k,
  gate zs = true -> In (id, rows) zs ->
  In k (key_dedup (key_sort (present_keys rows))) -> length k = 8%nat.
Proof.
  intros zs id rows k Hg Hin Hk. apply key_dedup_in, key_sort_in, present_keys_in in Hk.
  destruct Hk as (v & Hv & He).
  destruct (kind_len8 v (gate_true zs Hg id rows v Hin Hv)) as (k' & He' & Hl). congruence.
Qed.

Lemma entries_of_in : forall zs z e, In z zs -> zone_entry z = Some e -> In e (entries_of zs).
Proof.
  induction zs as [|z0 rest IH]; intros z e Hin He; [destruct Hin|].
  cbn [entries_of]. destruct Hin as [->|Hin].
  - rewrite He. now left.
  - destruct (zone_entry z0); [right|]; now apply (IH z e).
Qed.

Lemma entry_insert_in : forall e l x, In x (entry_insert e l) <-> x = e \/ In x l.
Proof. intros e. apply insert_in; [reflexivity|]. intros x r. cbn [entry_insert]. destruct (fst e <? fst x); auto. Qed.

Lemma entry_sort_in : forall l x, In x (entry_sort l) <-> In x l.
Proof.
  intros l x. unfold entry_sort. rewrite <- (fold_left_rev_right entry_insert).
  rewrite (fold_insert_in entry_insert entry_insert_in), <- in_rev. cbn [In]. tauto.
Qed.

Lemma zones_ge_in : forall es b incl id t,
  In (id, t) es -> may_overlap_ge t b incl = true -> In id (zones_overlapping_ge es b incl).
Proof.
  induction es as [|[id0 t0] r IH]; intros b incl id t Hin Hm; [destruct Hin|].
  cbn [zones_overlapping_ge]. destruct Hin as [E|Hin].
  - injection E as E1 E2. subst id0 t0. rewrite Hm. now left.
  - destruct (may_overlap_ge t0 b incl); [right|]; now apply (IH b incl id t).
Qed.

Lemma zones_le_in : forall es b incl id t,
  In (id, t) es -> may_overlap_le t b incl = true -> In id (zones_overlapping_le es b incl).
Proof.
  induction es as [|[id0 t0] r IH]; intros b incl id t Hin Hm; [destruct Hin|].
  cbn [zones_overlapping_le]. destruct Hin as [E|Hin].
  - injection E as E1 E2. subst id0 t0. rewrite Hm. now left.
  - destruct (may_overlap_le t0 b incl); [right|]; now apply (IH b incl id t).
Qed.

Lemma num_has_lane : forall v a, num_of v = Some a -> lane_of v <> None.
Proof.
  intros v a H. unfold lane_of. rewrite H.
  assert (R : num_of v <> None) by congruence. apply (fun R => numeric_route v (or_intror R)) in R.
  destruct (route_of v); try contradiction; discriminate.
Qed.

Lemma lane_eqb_eq : forall a b, lane_eqb a b = true -> a = b.
Proof. intros [] []; cbn; congruence. Qed.

Lemma cmp_upper_num : forall (incl : bool) x y a b, bytes_cmp x y = (a ?= b)%Z ->
  (if incl then (a <=? b)%Z else (a <? b)%Z) = true -> cmp_upper incl x y.
Proof.
  intros incl x y a b Hc H. unfold cmp_upper, ble, blt. rewrite Hc.
  destruct incl; [apply Z.leb_le | apply Z.ltb_lt]; exact H.
Qed.

Definition op_lower (op : cmp_op) : option bool :=   (* Some incl for > / >= *)
  match op with OGt => Some false | OGte => Some true | _ => None end.

Lemma prune_some : forall zs op p res, prune zs op p = Some res ->
  gate zs = true /\ exists kp, encode_value p = Some kp /\
  res = let es := entry_sort (entries_of zs) in
        match op with
        | OGt => zones_overlapping_ge es kp false
        | OGte => zones_overlapping_ge es kp true
        | OLt => zones_overlapping_le es kp false
        | _ => zones_overlapping_le es kp true
        end.
Proof.
  intros zs op p res H. unfold prune, build_filter in H.
  destruct (gate zs); [split; [reflexivity|] | destruct op; discriminate H].
  destruct (entries_of zs) as [|e0 es0]; [destruct op; discriminate H|].
  unfold apply_surf in H. destruct op; try discriminate H.
  all: destruct (nlen _ =? 0); [discriminate H|].
  all: destruct (encode_value p) as [kp|]; [exists kp; split; [reflexivity|] | discriminate H].
  all: destruct (too_many _ _); [discriminate H | now injection H].
Qed.

Lemma zone_entry_in : forall zs id rows k, In (id, rows) zs ->
  zone_has_field rows = true -> In k (present_keys rows) ->
  In (id, t_build (key_dedup (key_sort (present_keys rows)))) (entry_sort (entries_of zs)).
Proof.
  intros zs id rows k Hz Hf Hk. apply entry_sort_in, (entries_of_in zs (id, rows) _ Hz).
  unfold zone_entry. cbn [snd fst]. rewrite Hf. destruct (present_keys rows); [destruct Hk | reflexivity].
Qed.

Lemma unknown_class_keys : forall rows v p a b, sval_wf v = true -> sval_wf p = true ->
  num_of v = Some a -> num_of p = Some b -> known_class rows v p = None ->
  zone_has_field rows = true /\ exists kv kp, encode_value v = Some kv /\ encode_value p = Some kp /\
    length kp = 8%nat /\ bytes_cmp kv kp = (a ?= b)%Z.
Proof.
  intros rows v p a b Wv Wp Na Nb Hk. unfold known_class in Hk.
  destruct (zone_has_field rows); [split; [reflexivity|] | discriminate Hk]. cbn [negb] in Hk.
  destruct (saturates v) eqn:Sv; [discriminate Hk|]. destruct (saturates p) eqn:Sp; [discriminate Hk|].
  cbn [orb] in Hk.
  destruct (lane_of v) as [lv|] eqn:Lv; [|destruct (num_has_lane v a Na Lv)].
  destruct (lane_of p) as [lp|] eqn:Lp; [|destruct (num_has_lane p b Nb Lp)].
  destruct (lane_eqb lv lp) eqn:El; [|discriminate Hk]. apply lane_eqb_eq in El. subst lp.
  destruct (same_lane_key_order v p lv Wv Wp Sv Sp Lv Lp) as (kv & kp & a' & b' & Ev & Ep & Na' & Nb' & _ & Lkp & Hcmp).
  exists kv, kp. repeat split; try assumption. congruence.
Qed.

Theorem surf_sound_outside_known : forall zs op p res id rows v,
  prune zs op p = Some res ->
  In (id, rows) zs -> In (Some v) rows ->
  sval_wf v = true -> sval_wf p = true ->
  sat op v p = true ->
  known_class rows v p = None ->
  In id res.
Proof.
  intros zs op p res id rows v Hp Hz Hv Wv Wp Hsat Hk. unfold sat in Hsat.
  destruct (num_of v) as [a|] eqn:Na; [|discriminate Hsat].
  destruct (num_of p) as [b|] eqn:Nb; [|discriminate Hsat].
  destruct (unknown_class_keys rows v p a b Wv Wp Na Nb Hk) as (Hf & kv & kp & Ev & Ep & Lkp & Hcmp).
  destruct (prune_some zs op p res Hp) as (Hg & kp' & Ep' & ->). rewrite Ep in Ep'. injection Ep' as <-.
  set (ks := key_dedup (key_sort (present_keys rows))).
  assert (Hpk : In kv (present_keys rows)) by (apply present_keys_in; now exists v).
  assert (Hkv : In kv ks) by now apply key_dedup_in, key_sort_in.
  pose proof (zone_entry_in zs id rows kv Hz Hf Hpk) as Hentry. fold ks in Hentry.
  assert (Hlen : forall k, In k ks -> length k = length kp).
  { intros k Hk'. rewrite Lkp. now apply (surf_keys_len8 zs id rows). }
  assert (Hcmp' : bytes_cmp kp kv = (b ?= a)%Z) by (rewrite bytes_cmp_antisym, Hcmp; symmetry; apply Z.compare_antisym).
  cbv zeta. destruct op; try discriminate Hsat.
  1-2: apply (zones_ge_in _ kp _ id (t_build ks) Hentry), may_overlap_ge_exact; exists kv;
    split; [assumption | apply (cmp_upper_num _ kp kv b a Hcmp'); exact Hsat].
  all: apply (zones_le_in _ kp _ id (t_build ks) Hentry), (may_overlap_le_exact_uniform _ _ _ Hlen); exists kv;
    split; [assumption | apply (cmp_upper_num _ kv kp a b Hcmp); exact Hsat].
Qed.

(** the 90 % rule answers [None], which the hypothesis on [prune] leaves out *)
Theorem surf_sound_same_lane : forall zs op p l res,
  (forall id rows r, In (id, rows) zs -> In r rows ->
     exists v, r = Some v /\ sval_wf v = true /\ saturates v = false /\ lane_of v = Some l) ->
  sval_wf p = true -> saturates p = false -> lane_of p = Some l ->
  prune zs op p = Some res ->
  forall id rows v, In (id, rows) zs -> In (Some v) rows -> sat op v p = true -> In id res.
Proof.
  intros zs op p l res Hall Wp Sp Lp Hp id rows v Hz Hv Hsat.
  destruct (Hall id rows (Some v) Hz Hv) as (v' & E & Wv & Sv & Lv). injection E as <-.
  apply (surf_sound_outside_known zs op p res id rows v); try assumption.
  assert (Hf : zone_has_field rows = true).
  { unfold zone_has_field. destruct surf_keys_from_first_event.
    - destruct rows as [|r0 rows']; [destruct Hv|].
      destruct (Hall id (r0 :: rows') r0 Hz (or_introl eq_refl)) as (v0 & -> & _). reflexivity.
    - apply existsb_exists. exists (Some v). split; [assumption|reflexivity]. }
  unfold known_class. rewrite Hf, Sv, Sp, Lv, Lp. cbn [negb orb]. destruct l; reflexivity.
Qed.

Example surf_sound_same_lane_inhabited :
  exists zs op p l res,
    (forall id rows r, In (id, rows) zs -> In r rows ->
       exists v, r = Some v /\ sval_wf v = true /\ saturates v = false /\ lane_of v = Some l) /\
    sval_wf p = true /\ saturates p = false /\ lane_of p = Some l /\
    prune zs op p = Some res /\ res = [1].
Proof.
  exists [(0, [Some (VInt (-5)); Some (VInt 3)]); (1, [Some (VInt 7)])], OGt, (VInt 4), LI, [1].
  split.
  - intros id rows r [E|[E|[]]] Hr; injection E as <- <-.
    + destruct Hr as [<-|[<-|[]]]; eexists; repeat split.
    + destruct Hr as [<-|[]]; eexists; repeat split.
  - repeat apply conj; vm_compute; reflexivity.
Qed.

Definition false_negative (zs : list zone) (op : cmp_op) (p : sval) (cls : kclass) : Prop :=
  exists res id rows v,
    prune zs op p = Some res /\ In (id, rows) zs /\ In (Some v) rows /\
    sval_wf v = true /\ sval_wf p = true /\ sat op v p = true /\
    known_class rows v p = Some cls /\ ~ In id res.

Ltac fn_witness res id rows v :=
  exists res, id, rows, v;
  split; [vm_compute; reflexivity|];
  split; [cbn; auto|]; split; [cbn; auto|];
  split; [reflexivity|]; split; [reflexivity|];
  split; [vm_compute; reflexivity|]; split; [vm_compute; reflexivity|];
  cbn; tauto.

(** a float column holding 2.0, probed with [>= 1.7]: 2.0 is keyed in the i64 lane
    (0x8000000000000002), 1.7 in the f64 lane (0xBFFB333333333333) *)
Theorem surf_refuted_float_lanes :
  false_negative [(0, [Some (VFloat 4611686018427387904)])] OGte (VFloat 4610334938539176755) SurfCrossLane.
Proof. fn_witness (@nil N) 0 [Some (VFloat 4611686018427387904)] (VFloat 4611686018427387904). Qed.

(** a u64 column holding 2^63+5 (a digit string, raw u64 lane 0x8000000000000005), probed
    with [> 10] (i64 lane 0x800000000000000A) *)
Definition str_2p63_5 : bytes := [57;50;50;51;51;55;50;48;51;54;56;53;52;55;55;53;56;49;51].
Theorem surf_refuted_u64_lane :
  false_negative [(0, [Some (VStr str_2p63_5 None)])] OGt (VInt 10) SurfCrossLane.
Proof. fn_witness (@nil N) 0 [Some (VStr str_2p63_5 None)] (VStr str_2p63_5 None). Qed.

(** an integer column holding 2, probed with [> 1.5] *)
Theorem surf_refuted_int_vs_fraction :
  false_negative [(0, [Some (VInt 2)])] OGt (VFloat 4609434218613702656) SurfCrossLane.
Proof. fn_witness (@nil N) 0 [Some (VInt 2)] (VInt 2). Qed.

(** a float column holding 2^65 probed with [> 2^64]: both saturate to the key 0xFF..FF *)
Theorem surf_refuted_saturation :
  false_negative [(0, [Some (VFloat 4899916394579099648)])] OGt (VFloat 4895412794951729152) SurfSaturatedFloat.
Proof. fn_witness (@nil N) 0 [Some (VFloat 4899916394579099648)] (VFloat 4899916394579099648). Qed.

(** zone 0: first event without the (optional) field, second event holds 5; probe [> 1].
    A false negative only of a builder that takes the field set from the first event. *)
Theorem surf_refuted_first_row :
  surf_keys_from_first_event = true ->
  false_negative [(0, [None; Some (VInt 5)]); (1, [Some (VInt 0)])] OGt (VInt 1) SurfFirstRowLacksField.
Proof.
  intros Hparam.
  (* Gen/Params.v is regenerated from sneldb's source, so both values are served: with [false] the premise
     is absurd and the witness branch does not run; with [true] the witness is checked. *)
  first [ discriminate Hparam | fn_witness (@nil N) 0 [@None sval; Some (VInt 5)] (VInt 5) ].
Qed.
