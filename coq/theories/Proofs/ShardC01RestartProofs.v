(** C01, continued: a kill of the QUIESCENT process followed by a restart keeps the
    WAL-file-id / segment-id lockstep of Model/Shard.v, so histories made of
    lockstep lifetimes separated by quiescent kill/restart cycles lose nothing.

    Quiescent: no flush job queued or running, the WAL thread has drained its
    queue and rotated after a filling write, the writer's file is not unlinked.
    Inside a lifetime the WAL thread is idle at every log-file deletion ([prune_ok]),
    so no deletion touches the open file ([idle_step]). *)
From Coq Require Import NArith List Bool Lia.
From Snel Require Import Model.Shard Proofs.ShardC03Proofs Proofs.ShardC01Proofs.
Import ListNotations.
Open Scope N_scope.

Definition drop (n : N) (l : list event) : list event := skipn (N.to_nat n) l.

Lemma drop_snoc : forall n l x, n <= len l -> drop n (l ++ [x]) = drop n l ++ [x].
Proof.
  unfold drop, len; intros n l x H. rewrite skipn_app.
  replace (N.to_nat n - length l)%nat with 0%nat by lia. reflexivity.
Qed.

Lemma drop_all : forall n l, len l <= n -> drop n l = [].
Proof. unfold drop, len; intros n l H. apply skipn_all2. lia. Qed.

Lemma drop_len : forall n l, len (drop n l) = len l - n.
Proof. unfold drop, len; intros n l. rewrite skipn_length. lia. Qed.

Lemma nth_skipn_In : forall k (l : list event) i e,
  nth_error l i = Some e -> (k <= i)%nat -> In e (skipn k l).
Proof.
  induction k as [|k IH]; intros l i e H L; cbn [skipn]; [eapply nth_error_In, H|].
  destruct l as [|x r]; [destruct i; discriminate H|].
  destruct i as [|i]; [lia|]. cbn [nth_error] in H. apply (IH r i e H). lia.
Qed.

Lemma drop_at_pos : forall n l i e, at_pos l i e -> n <= i -> In e (drop n l).
Proof. unfold drop, at_pos; intros n l i e H L. eapply nth_skipn_In; [exact H|lia]. Qed.

Fixpoint wal_get (files : list (N * list event)) (id : N) : list event :=
  match files with
  | [] => []
  | (i, es) :: r => if i =? id then es else wal_get r id
  end.

Fixpoint ids_sorted (files : list (N * list event)) : Prop :=
  match files with
  | [] => True
  | f :: r => (forall g, In g r -> fst f < fst g) /\ ids_sorted r
  end.

Lemma wal_get_none : forall files id, (forall g, In g files -> fst g <> id) -> wal_get files id = [].
Proof.
  induction files as [|[i es] r IH]; intros id H; cbn [wal_get]; [reflexivity|].
  destruct (N.eqb_spec i id) as [E|E]; [exfalso; exact (H (i, es) (or_introl eq_refl) E)|].
  apply IH. intros g Hg; apply H; right; exact Hg.
Qed.

Lemma ids_sorted_upd : forall g files id, ids_sorted files -> ids_sorted (wal_upd g files id).
Proof.
  intros g; induction files as [|[i es] r IH]; intros id H; cbn [wal_upd].
  - cbn [ids_sorted]. split; [intros f []|exact I].
  - cbn [ids_sorted] in H. destruct H as [H1 H2].
    destruct (N.eqb_spec i id) as [E|E]; [|destruct (N.ltb_spec id i) as [L|L]]; cbn [ids_sorted fst].
    + split; assumption.
    + split; [|split; assumption]. intros f [<-|Hf]; cbn [fst]; [exact L|]. specialize (H1 f Hf). cbn [fst] in H1. lia.
    + split; [|apply IH, H2]. intros f Hf. destruct (wal_upd_In _ _ _ _ Hf) as [Hr|(es' & -> & _)]; [apply (H1 f Hr)|cbn [fst]; lia].
Qed.

Lemma ids_sorted_filter : forall p files, ids_sorted files -> ids_sorted (filter p files).
Proof.
  induction files as [|f r IH]; intros H; cbn [filter]; [exact I|].
  cbn [ids_sorted] in H. destruct H as [H1 H2]. destruct (p f); [|apply IH, H2].
  cbn [ids_sorted]. split; [|apply IH, H2]. intros g Hg. apply filter_In in Hg. apply H1, Hg.
Qed.

Lemma wal_get_upd : forall g files id,
  ids_sorted files -> wal_get (wal_upd g files id) id = g (wal_get files id).
Proof.
  intros g; induction files as [|[i es] r IH]; intros id H; cbn [wal_upd wal_get].
  - rewrite N.eqb_refl. reflexivity.
  - cbn [ids_sorted] in H. destruct H as [H1 H2].
    destruct (N.eqb_spec i id) as [E|E]; cbn [wal_get].
    + destruct (N.eqb_spec i id); [reflexivity|contradiction].
    + destruct (N.ltb_spec id i) as [L|L]; cbn [wal_get].
      * rewrite N.eqb_refl. rewrite wal_get_none; [reflexivity|].
        intros f Hf. specialize (H1 f Hf). cbn [fst] in H1. lia.
      * destruct (N.eqb_spec i id); [contradiction|]. apply IH, H2.
Qed.

Lemma wal_get_filter : forall (q : N -> bool) files id, q id = true ->
  wal_get (filter (fun f => q (fst f)) files) id = wal_get files id.
Proof.
  induction files as [|[i es] r IH]; intros id Hq; cbn [filter wal_get fst]; [reflexivity|].
  destruct (q i) eqn:Qi; cbn [wal_get].
  - destruct (i =? id); [reflexivity|apply IH, Hq].
  - destruct (N.eqb_spec i id) as [E|E]; [congruence|apply IH, Hq].
Qed.

Lemma single_file : forall files w es0,
  ids_sorted files -> (forall f, In f files -> fst f = w) -> In (w, es0) files ->
  files = [(w, wal_get files w)].
Proof.
  intros files w es0 Hs Hw Hin. destruct files as [|[i es] r]; [destruct Hin|].
  cbn [ids_sorted] in Hs. destruct Hs as [H1 _].
  assert (Ei : i = w) by (apply (Hw (i, es)); left; reflexivity). subst i.
  destruct r as [|g r'].
  - cbn [wal_get]. rewrite N.eqb_refl. reflexivity.
  - exfalso. specialize (H1 g (or_introl eq_refl)). cbn [fst] in H1.
    assert (fst g = w) by (apply Hw; right; left; reflexivity). lia.
Qed.

Lemma restart_short : forall s w es, walfiles s = [(w, es)] -> len es < cap s ->
  restart s = mkShard (cap s) es [] [] (sort_n (map sid (dirs s))) (dirs s) (index s) [] [(w, es)] w (len es) false
                      (alloc0_from (sort_n (map sid (dirs s)))) [] (wlost s).
Proof.
  intros s w es E H.
  assert (Ew : find_next_wal_id (cap s) [(w, es)] = w).
  { unfold find_next_wal_id, wal_max_id. cbn [fold_left fst wal_lines]. replace (N.max 0 w) with w by lia. rewrite N.eqb_refl.
    destruct (N.eqb_spec w 0) as [E0|E0]; [symmetry; exact E0|]. destruct (N.ltb_spec (len es) (cap s)); [reflexivity|lia]. }
  unfold restart. rewrite E, Ew. unfold wal_count_entries, wal_max_id. cbn [wal_touch]. rewrite N.eqb_refl.
  cbn [fold_left fst wal_lines map concat snd]. replace (N.max 0 w) with w by lia. rewrite N.eqb_refl, app_nil_r. reflexivity.
Qed.

(** [RangeAllocator::from_existing_ids] returns the next id when the ids are [0 .. a-1], inside the level-0 band *)
Lemma alloc0_from_is : forall l a,
  (forall i, In i l -> i < a) -> a <= level_span -> (a = 0 \/ In (a - 1) l) -> alloc0_from l = a.
Proof.
  intros l a Hlt Ha Hex. unfold alloc0_from.
  assert (G : forall (l : list N) m, (forall i, In i l -> i < a) -> m <= a -> (m = a \/ In (a - 1) l) ->
              fold_left (fun m i => if i <? level_span then N.max m (N.succ i) else m) l m = a).
  { induction l0 as [|i r IH]; intros m Hl Hm Hx; cbn [fold_left].
    - destruct Hx as [Hx|[]]; exact Hx.
    - pose proof (Hl i (or_introl eq_refl)) as Hi.
      destruct (N.ltb_spec i level_span) as [L|L]; [|lia]. apply IH.
      + intros k Hk; apply Hl; right; exact Hk.
      + lia.
      + destruct Hx as [Hx|[Hx|Hx]]; [left; lia|left; lia|right; exact Hx]. }
  apply G; [exact Hlt|lia|]. destruct Hex as [->|H]; [left; reflexivity|right; exact H].
Qed.

(** * An idle WAL thread is not behind the flush worker: no deletion unlinks the open file or loses an entry *)

Lemma fw_unlinked : forall s l, wunlinked (fw_step s l) = true ->
  wunlinked s = true \/
  exists j rest, jobs s = j :: rest /\ jstage j = StCleared /\ wcur s < jseg j + 1 /\
                 ((exists id, l = FwWalDel id) \/ l = FwWalClean).
Proof.
  intros s l. destruct (fw_step_cases s l) as [->|(j & rest & Ej & C)]; [tauto|].
  destruct C; proj; try tauto; intros Hu; apply orb_true_iff in Hu as [Hu|Hu]; try tauto; right; exists j, rest;
    (split; [exact Ej|split; [assumption|split; [|eauto]]]).
  - apply N.eqb_eq in Hu. lia.
  - apply andb_true_iff in Hu as [Hu _]. apply N.ltb_lt in Hu. lia.
Qed.

Lemma pruned_nil : forall ds del,
  (forall e, In e (pruned_unsaved ds del) -> In e (drows ds)) -> pruned_unsaved ds del = [].
Proof.
  intros ds del H. destruct (pruned_unsaved ds del) as [|e r] eqn:E; [reflexivity|].
  assert (Hin : In e (pruned_unsaved ds del)) by (rewrite E; left; reflexivity).
  pose proof (H e (or_introl eq_refl)) as Hd. apply pruned_unsaved_In in Hin. tauto.
Qed.

(** queue drained and no rotation due: the log file id has caught up with the segment ids.  With an empty
    queue every stored event is written, so [len P] is counted both by [li_cnt] (files of [c] entries up to
    [wcur], [wcnt < c] in the open one) and by [li_mem] (segments of [c] events up to [alloc0 >= jseg j + 1]). *)
Lemma idle_wcur : forall c P D s j rest,
  lock_inv c P D s -> jobs s = j :: rest -> is_empty (walq s) && (wcnt s <? cap s) = true -> jseg j + 1 <= wcur s.
Proof.
  intros c P D s j rest [Icap Ififo Icnt _ _ Imem _ Ijobs _ _ _ _ _ _] Ej Hi.
  apply andb_true_iff in Hi as [Hq Hn]. apply is_empty_true in Hq. apply N.ltb_lt in Hn.
  rewrite Ej in Ijobs. cbn [hseg jobs_from] in Ijobs. destruct Ijobs as (_ & _ & _ & Hr). apply jobs_from_le in Hr.
  rewrite Hq, app_nil_r in Ififo. subst P.
  destruct (N.le_gt_cases (jseg j + 1) (wcur s)) as [L|L]; [exact L|exfalso].
  assert (Hle : wcur s + 1 <= alloc0 s) by lia. pose proof (N.mul_le_mono_r _ _ c Hle). lia.
Qed.

Lemma idle_step : forall c P D s l,
  lock_inv c P D s -> lockstep_label l = true -> (l = LWalWrite -> wcnt s < c) ->
  prune_ok s l = true -> wunlinked s = false -> wlost s = [] ->
  wunlinked (step s l) = false /\ wlost (step s l) = [].
Proof.
  intros c P D s l HI Hl Hw Hp Hu Hlost.
  pose proof (lock_step c P D s l HI Hl Hw) as HI'.
  destruct l as [e0| | | |f| |]; try discriminate Hl; cbn [step] in *.
  - destruct (store_cases s e0) as [[_ ->]|[_ ->]]; proj; tauto.
  - destruct (wal_write_cases s) as [[_ ->]|(e & q & _ & ->)]; [tauto|]. proj. rewrite Hu. tauto.
  - destruct (wal_rotate_cases s) as [[_ ->]|[_ ->]]; proj; tauto.
  - split.
    + apply not_true_is_false. intros T. destruct (fw_unlinked s f T) as [H|[j [rest [Ej [Est [Hlt Hpk]]]]]]; [congruence|].
      assert (Hidle : is_empty (walq s) && (wcnt s <? cap s) = true) by (destruct Hpk as [[id ->]| ->]; exact Hp).
      pose proof (idle_wcur c P D s j rest HI Ej Hidle) as Hcur. clear - Hlt Hcur. lia.
    + destruct (fw_files s f) as [[_ ->]|[p [_ [E Ed]]]]; [exact Hlost|].
      rewrite E, Hlost. cbn [app]. apply pruned_nil. intros e He. rewrite <- Ed.
      apply (li_lost _ _ _ _ HI'). rewrite E, Hlost. exact He.
Qed.

(** number of segments whose log files have been pruned *)
Definition cleanedn (js : list job) (a : N) : N :=
  match js with
  | [] => a
  | j :: _ => match jstage j with StWalCleaned => jseg j + 1 | _ => jseg j end
  end.

Lemma cleanedn_snoc : forall js a j, jseg j = a -> jstage j = StQueued -> cleanedn (js ++ [j]) (a + 1) = cleanedn js a.
Proof. intros [|x r] a j H Hq; cbn [app cleanedn]; [rewrite Hq; exact H|reflexivity]. Qed.

(** what [lock_inv] lacks for a quiescent kill and restart to reproduce the state *)
Record ext_inv (c : N) (P D : list event) (s : shard) : Prop := {
  ei_clean : cleanedn (jobs s) (alloc0 s) <= wcur s;
  ei_low : forall f, In f (walfiles s) -> cleanedn (jobs s) (alloc0 s) <= fst f;
  ei_sorted : ids_sorted (walfiles s);
  ei_cur : exists es, In (wcur s, es) (walfiles s);
  ei_get : wal_get (walfiles s) (wcur s) = drop (wcur s * c) D;
  ei_dirs : forall k, k < pubn (jobs s) (alloc0 s) -> exists d, In d (dirs s) /\ sid d = k;
  ei_mem : mem s = drop (alloc0 s * c) P
}.

Definition lockq_inv (c : N) (P D : list event) (s : shard) : Prop :=
  lock_inv c P D s /\ wunlinked s = false /\ wlost s = [] /\ ext_inv c P D s.

Lemma ext_init : forall c, ext_inv c [] [] (init c).
Proof.
  intros c. constructor; unfold init; proj; cbn [cleanedn pubn].
  - lia.
  - intros f [<-|[]]; cbn [fst]; lia.
  - cbn [ids_sorted]. split; [intros g []|exact I].
  - exists []; left; reflexivity.
  - reflexivity.
  - intros k H; lia.
  - reflexivity.
Qed.

Lemma ext_store : forall c P D s e,
  lock_inv c P D s -> ext_inv c P D s -> ext_inv c (P ++ [e]) D (store s e).
Proof.
  intros c P D s e HI [Eclean Elow Esorted Ecur Eget Edirs Emem].
  destruct (li_mem _ _ _ _ HI) as [Hlen Hm].
  destruct (store_cases s e) as [[Hlt ->]|[Hge ->]]; constructor; proj;
    rewrite <- ?N.add_1_r, ?cleanedn_snoc, ?pubn_snoc by reflexivity; try assumption.
  - rewrite Emem. symmetry. apply drop_snoc. lia.
  - (* ei_mem, after the rotation *) symmetry. apply drop_all. rewrite len_app, len_cons, len_nil. lia.
Qed.

Lemma ext_wal_write : forall c P D s,
  lock_inv c P D s -> ext_inv c P D s -> wunlinked s = false -> wcnt s < c ->
  ext_inv c P (D ++ written_by (walq s) LWalWrite) (wal_write s).
Proof.
  intros c P D s HI HE Hu Hw. destruct (wal_write_cases s) as [[Eq ->]|(e & q & Eq & ->)]; rewrite Eq; cbn [written_by].
  { rewrite app_nil_r. exact HE. }
  destruct HE as [Eclean Elow Esorted Ecur Eget Edirs Emem]. destruct (li_cnt _ _ _ _ HI) as [Hcnt _].
  constructor; proj; rewrite ?Hu; try assumption.
  - intros f Hf. rewrite wal_append_upd in Hf. apply wal_upd_In in Hf as [H|(es & -> & _)]; [apply Elow, H|exact Eclean].
  - rewrite wal_append_upd. apply ids_sorted_upd, Esorted.
  - (* ei_cur *) rewrite wal_append_upd. apply wal_upd_has.
  - rewrite wal_append_upd, wal_get_upd by exact Esorted. rewrite Eget. symmetry. apply drop_snoc. lia.
Qed.

Lemma ext_wal_rotate : forall c P D s,
  lock_inv c P D s -> ext_inv c P D s -> ext_inv c P D (wal_rotate s).
Proof.
  intros c P D s HI HE. destruct (wal_rotate_cases s) as [[_ ->]|[Hr ->]]; [exact HE|].
  destruct HE as [Eclean Elow Esorted Ecur Eget Edirs Emem].
  destruct (li_cnt _ _ _ _ HI) as [Hcnt Hle].
  pose proof (li_ids _ _ _ _ HI) as Iids.
  constructor; proj; try assumption.
  - (* ei_clean *) lia.
  - intros f Hf. destruct (wal_touch_In _ _ _ Hf) as [H| ->]; [apply Elow, H|cbn [fst]; lia].
  - rewrite wal_touch_upd. apply ids_sorted_upd, Esorted.
  - (* ei_cur *) rewrite wal_touch_upd. apply wal_upd_has.
  - rewrite wal_touch_upd, wal_get_upd by exact Esorted. rewrite wal_get_none; [symmetry; apply drop_all; lia|].
    intros g Hg. specialize (Iids g Hg). lia.
Qed.

(** [ext_inv] reads the memtable, the log files, the two ids, the ids of the directories and, of the flush
    queue, [cleanedn] and [pubn]: it is kept when these stay, directories are added and [pubn] grows over
    segments whose directory exists *)
Lemma ext_frame : forall c P D s s',
  ext_inv c P D s ->
  (mem s', walfiles s', wcur s', alloc0 s') = (mem s, walfiles s, wcur s, alloc0 s) ->
  cleanedn (jobs s') (alloc0 s) = cleanedn (jobs s) (alloc0 s) ->
  incl (map sid (dirs s)) (map sid (dirs s')) ->
  (forall k, k < pubn (jobs s') (alloc0 s) -> k < pubn (jobs s) (alloc0 s) \/ In k (map sid (dirs s'))) ->
  ext_inv c P D s'.
Proof.
  intros c P D s s' [Eclean Elow Esorted Ecur Eget Edirs Emem] E Hc Hd Hp. injection E as Em Ef Ew Ea.
  constructor; rewrite ?Em, ?Ef, ?Ew, ?Ea, ?Hc; try assumption.
  intros k Hk. apply in_sids. destruct (Hp k Hk) as [Hk'|Hk']; [apply Hd, in_sids, Edirs, Hk' | exact Hk'].
Qed.

Lemma ext_prune : forall c P D s j rest p unl st',
  ext_inv c P D s -> jobs s = j :: rest -> jstage j = StCleared -> jseg j + 1 <= wcur s ->
  (forall i, p i = true -> i < jseg j + 1) ->
  st' = StCleared \/ (st' = StWalCleaned /\ forall i, i < jseg j + 1 -> p i = true) ->
  ext_inv c P D (set_jobs (wal_prune s p unl) (mkJob (jseg j) (jevs j) st' :: rest)).
Proof.
  intros c P D s j rest p unl st' [Eclean Elow Esorted Ecur Eget Edirs Emem] Ej Est Hw Hp Hst'.
  rewrite Ej in *. cbn [cleanedn pubn] in *. rewrite Est in *. cbn [indexed] in *.
  assert (Hpw : negb (p (wcur s)) = true).
  { destruct (p (wcur s)) eqn:E; [apply Hp in E; lia | reflexivity]. }
  constructor; proj; cbn [cleanedn pubn jseg jstage]; try assumption.
  - (* ei_clean *) destruct Hst' as [->|[-> _]]; lia.
  - intros f Hf. apply filter_In in Hf as [Hf Hpf]. destruct Hst' as [->|[-> Hall]]; [exact (Elow f Hf)|].
    destruct (N.ltb_spec (fst f) (jseg j + 1)) as [L|L]; [|exact L]. rewrite (Hall _ L) in Hpf. discriminate.
  - apply ids_sorted_filter, Esorted.
  - destruct Ecur as [es Hes]. exists es. apply filter_In. split; [exact Hes | exact Hpw].
  - rewrite (wal_get_filter (fun i => negb (p i))); [exact Eget | exact Hpw].
  - destruct Hst' as [->|[-> _]]; cbn [pubn indexed]; exact Edirs.
Qed.

(** when the head job leaves the queue the next one is queued, or the queue is empty *)
Lemma ext_done_counters : forall c P D s j rest,
  lock_inv c P D s -> jobs s = j :: rest -> jstage j = StWalCleaned ->
  cleanedn rest (alloc0 s) = cleanedn (jobs s) (alloc0 s) /\ pubn rest (alloc0 s) = pubn (jobs s) (alloc0 s).
Proof.
  intros c P D s j rest HI Ej Est. pose proof (li_jobs _ _ _ _ HI) as Ijobs. pose proof (li_tail _ _ _ _ HI) as Itail.
  rewrite Ej in *. cbn [hseg jobs_from tl cleanedn pubn] in *. rewrite Est. cbn [indexed]. destruct Ijobs as (_ & _ & _ & Hrest).
  destruct (queued_counters _ _ _ _ _ Hrest Itail) as (Hh & -> & _). split; [|reflexivity].
  rewrite <- Hh. destruct Itail as [|j1 r1 Hq _]; cbn [cleanedn hseg]; [|rewrite Hq]; reflexivity.
Qed.

Lemma ext_fw : forall c P D s l,
  lock_inv c P D s -> ext_inv c P D s -> prune_ok s (LFw l) = true -> ext_inv c P D (fw_step s l).
Proof.
  intros c P D s l HI HE Hp. destruct (fw_step_cases s l) as [->|(j & rest & Ej & C)]; [exact HE|].
  pose proof (lock_head_nonempty _ _ _ _ _ _ HI Ej) as Hne.
  pose proof (idle_wcur c P D s j rest HI Ej) as Hidle.
  assert (Hadd : forall r, incl (map sid (dirs s)) (map sid (dir_add_rows (dirs s) (jseg j) r)))
    by (intros r k Hk; apply add_rows_sids_iff; left; exact Hk).
  (* only FwIndex moves [pubn] and only the deletions touch the log files: elsewhere the premises of [ext_frame] hold as they stand *)
  destruct C as [Est|Est|u Est _ _|Est _ Hall|Est|Est|id Est _ Hid|_ He|Est _|[Est|[_ He]]].
  - apply (ext_frame c P D s); proj; rewrite ?Ej; cbn [cleanedn pubn jstage jseg]; rewrite ?Est; cbn [indexed];
      [exact HE | reflexivity | reflexivity | apply incl_refl | auto].
  - apply (ext_frame c P D s); proj; [exact HE | reflexivity | reflexivity | exact (Hadd _) | auto].
  - apply (ext_frame c P D s); proj; [exact HE | reflexivity | reflexivity | exact (Hadd _) | auto].
  - (* FwIndex: the directory exists since it holds the type of the job's first event *)
    apply (ext_frame c P D s); proj; rewrite ?Ej; cbn [cleanedn pubn jstage jseg]; rewrite ?Est; cbn [indexed];
      [exact HE | reflexivity | reflexivity | apply incl_refl |].
    intros k Hk. destruct (N.eq_dec k (jseg j)) as [->|Hk']; [right; apply in_sids, (index_guard_dir s j Hne Hall) | left; lia].
  - apply (ext_frame c P D s); proj; rewrite ?Ej; cbn [cleanedn pubn jstage jseg]; rewrite ?Est; cbn [indexed];
      [exact HE | reflexivity | reflexivity | apply incl_refl | auto].
  - apply (ext_frame c P D s); proj; rewrite ?Ej; cbn [cleanedn pubn jstage jseg]; rewrite ?Est; cbn [indexed];
      [exact HE | reflexivity | reflexivity | apply incl_refl | auto].
  - apply ext_prune; [exact HE | exact Ej | exact Est | exact (Hidle Hp) | intros i Hi; apply N.eqb_eq in Hi; lia | left; reflexivity].
  - contradiction.
  - apply ext_prune; [exact HE | exact Ej | exact Est | exact (Hidle Hp) | intros i Hi; apply N.ltb_lt in Hi; lia |].
    right. split; [reflexivity|]. intros i Hi. apply N.ltb_lt. lia.
  - destruct (ext_done_counters c P D s j rest HI Ej Est) as [E1 E2].
    apply (ext_frame c P D s); proj; rewrite ?E2; [exact HE | reflexivity | exact E1 | apply incl_refl | auto].
  - contradiction.
Qed.

Definition step_ok (s : shard) (l : label) : bool :=
  lockstep_label l && (match l with LWalWrite => wcnt s <? cap s | _ => true end) && prune_ok s l.

Lemma lockq_step : forall c P D s l,
  lockq_inv c P D s -> step_ok s l = true ->
  lockq_inv c (P ++ stored [l]) (D ++ written_by (walq s) l) (step s l).
Proof.
  intros c P D s l (HI & Hu & Hl & HE) Hok. unfold step_ok in Hok.
  rewrite !andb_true_iff in Hok. destruct Hok as ((Hlab & Hord) & Hpr).
  assert (Hw : l = LWalWrite -> wcnt s < c).
  { intros ->. apply N.ltb_lt in Hord. rewrite (li_cap _ _ _ _ HI) in Hord. exact Hord. }
  destruct (idle_step c P D s l HI Hlab Hw Hpr Hu Hl) as [Hu' Hl'].
  split; [apply lock_step; assumption|]. split; [exact Hu'|]. split; [exact Hl'|].
  destruct l as [e0| | | |f| |]; try discriminate Hlab; cbn [step stored].
  - cbn [written_by]. rewrite app_nil_r. apply ext_store; assumption.
  - rewrite app_nil_r. apply ext_wal_write; [assumption|assumption|exact Hu|apply Hw; reflexivity].
  - cbn [written_by]. rewrite !app_nil_r. apply ext_wal_rotate; assumption.
  - cbn [written_by]. rewrite !app_nil_r. apply ext_fw; assumption.
Qed.

Definition quiescentb (s : shard) : bool :=
  is_empty (jobs s) && is_empty (walq s) && (wcnt s <? cap s) && negb (wunlinked s) &&
  (alloc0 s <=? level_span).

(** [wcur s = alloc0 s]: the counts [li_cnt] and [li_mem] of the same list (the queue is empty, [D = P]) give
    [wcur <= alloc0] and leave [wcur + 1 = alloc0] with a full open file; [ei_clean] on the empty queue
    ([alloc0 <= wcur]) excludes it. *)
Lemma quiet_log : forall c P D s, lock_inv c P D s -> ext_inv c P D s -> jobs s = [] -> walq s = [] ->
  wcur s = alloc0 s /\ wcnt s = len (mem s) /\ walfiles s = [(alloc0 s, mem s)].
Proof.
  intros c P D s HI [Eclean Elow Esorted [es0 Hes0] Eget _ Emem] Ej Eq.
  destruct (li_cnt _ _ _ _ HI) as [Hcnt Hle]. destruct (li_mem _ _ _ _ HI) as [Hlen Hm].
  pose proof (li_fifo _ _ _ _ HI) as Hf. rewrite Eq, app_nil_r in Hf. subst D.
  rewrite Ej in Eclean, Elow. cbn [cleanedn] in Eclean, Elow.
  assert (Ew : wcur s = alloc0 s).
  { destruct (N.eq_dec (wcur s) (alloc0 s)) as [E|E]; [exact E|exfalso].
    assert (Hle2 : alloc0 s + 1 <= wcur s) by lia. pose proof (N.mul_le_mono_r _ _ c Hle2). lia. }
  split; [exact Ew|]. split; [lia|]. rewrite Emem, <- Ew, <- Eget. apply (single_file _ _ es0); [exact Esorted| |exact Hes0].
  intros f Hf. pose proof (li_ids _ _ _ _ HI f Hf). specialize (Elow f Hf). lia.
Qed.

Lemma quiet_alloc : forall c P D s, lock_inv c P D s -> ext_inv c P D s -> jobs s = [] -> alloc0 s <= level_span ->
  alloc0_from (sort_n (map sid (dirs s))) = alloc0 s.
Proof.
  intros c P D s HI HE Ej Qa. pose proof (li_dirs _ _ _ _ HI) as Idirs. pose proof (ei_dirs _ _ _ _ HE) as Edirs.
  rewrite Ej in Idirs, Edirs. cbn [dirbound pubn] in Idirs, Edirs. apply alloc0_from_is; [|exact Qa|].
  - intros i Hi. apply sort_n_in, in_sids in Hi as (d & Hd & <-). apply Idirs, Hd.
  - destruct (N.eqb_spec (alloc0 s) 0) as [E0|E0]; [left; exact E0|right]. apply sort_n_in, in_sids, Edirs. lia.
Qed.

(** of [quiescentb] only the empty queues and the band are used: [lockq_inv] gives the rest ([quiet_state_lockstep]) *)
Lemma quiet_restart : forall c P D s, lockq_inv c P D s -> quiescentb s = true ->
  restart (crash s) = set_live (set_inflight (set_passives s []) []) (sort_n (map sid (dirs s))).
Proof.
  intros c P D s (HI & Hu & _ & HE) Hq. unfold quiescentb in Hq. rewrite !andb_true_iff in Hq. destruct Hq as ((((Qj & Qq) & _) & _) & Qa).
  apply is_empty_true in Qj, Qq. apply N.leb_le in Qa.
  destruct (quiet_log c P D s HI HE Qj Qq) as (Ew & En & Ef). destruct (li_mem _ _ _ _ HI) as [_ Hm].
  rewrite <- (li_cap _ _ _ _ HI) in Hm. rewrite (restart_short (crash s) (alloc0 s) (mem s) Ef Hm).
  unfold set_live, set_inflight, set_passives; proj.
  rewrite (quiet_alloc c P D s HI HE Qj Qa), <- Ef, <- En, <- Ew, Qj, Qq, Hu. reflexivity.
Qed.

(** neither invariant reads the three fields that change *)
Lemma lockq_restart : forall c P D s, lockq_inv c P D s -> quiescentb s = true -> lockq_inv c P D (restart (crash s)).
Proof.
  intros c P D s HI Hq. rewrite (quiet_restart c P D s HI Hq). destruct HI as (HI & Hu & Hl & HE).
  split; [destruct HI; constructor; assumption|]. split; [exact Hu|]. split; [exact Hl|]. destruct HE; constructor; assumption.
Qed.

(** * Histories: lockstep lifetimes separated by quiescent kill/restart cycles *)

Fixpoint lockstep_q (s : shard) (ls : list label) : bool :=
  match ls with
  | [] => true
  | LCrash :: r =>
      match r with
      | LRestart :: r' => quiescentb s && lockstep_q (restart (crash s)) r'
      | _ => false
      end
  | l :: r => step_ok s l && lockstep_q (step s l) r
  end.

(** by induction on a bound of the length: a kill is the two labels [LCrash; LRestart] *)
Lemma lockq_run : forall n ls, (length ls <= n)%nat -> forall c P D s,
  lockq_inv c P D s -> lockstep_q s ls = true ->
  lockq_inv c (P ++ stored ls) (D ++ durable_from (walq s) ls) (run s ls).
Proof.
  induction n as [|n IH]; intros ls Hn c P D s HI Hq.
  { destruct ls; [|cbn [length] in Hn; lia]. cbn [stored durable_from run fold_left]. rewrite !app_nil_r. exact HI. }
  destruct ls as [|l r]; [cbn [stored durable_from run fold_left]; rewrite !app_nil_r; exact HI|].
  cbn [length] in Hn.
  assert (Hstep : step_ok s l && lockstep_q (step s l) r = true ->
                  lockq_inv c (P ++ stored (l :: r)) (D ++ durable_from (walq s) (l :: r)) (run s (l :: r))).
  { intros H. apply andb_true_iff in H. destruct H as [H1 H2].
    rewrite stored_cons. cbn [durable_from run fold_left]. rewrite !app_assoc, <- walq_step.
    apply IH; [lia|apply lockq_step; assumption|exact H2]. }
  destruct l as [e0| | | |f| |]; cbn [lockstep_q] in Hq; try (apply Hstep; exact Hq).
  destruct r as [|l2 r']; [discriminate Hq|].
  destruct l2 as [e0| | | |f| |]; try discriminate Hq.
  apply andb_true_iff in Hq. destruct Hq as [Hq1 Hq2]. cbn [length] in Hn.
  pose proof (lockq_restart c P D s HI Hq1) as HI'.
  cbn [stored durable_from written_by pend_step app run fold_left step].
  (* a restart starts with an empty FIFO: the [[]] left in the goal is the new state's [walq] *)
  assert (Ew : walq (restart (crash s)) = []) by reflexivity.
  rewrite <- Ew. apply IH; [lia|exact HI'|exact Hq2].
Qed.

Lemma lockq_init : forall c, 0 < c -> lockq_inv c [] [] (init c).
Proof. intros c Hc. split; [apply lock_init, Hc|]. split; [reflexivity|]. split; [reflexivity|apply ext_init]. Qed.

Lemma lockq_reach : forall c ls, 0 < c -> lockstep_q (init c) ls = true ->
  lockq_inv c (stored ls) (durable ls) (run (init c) ls).
Proof.
  intros c ls Hc Hq.
  exact (lockq_run (length ls) ls (le_n _) c [] [] (init c) (lockq_init c Hc) Hq).
Qed.

Theorem quiescent_restart_keeps_lockstep : forall c ls, 0 < c ->
  lockstep_q (init c) ls = true -> quiescentb (run (init c) ls) = true ->
  let s := run (init c) ls in
  let s' := restart (crash s) in
  alloc0 s' = alloc0 s /\ wcur s' = wcur s /\ wcnt s' = wcnt s /\ mem s' = mem s /\
  wcnt s' = len (mem s') /\ wcur s' = alloc0 s' /\
  walfiles s' = walfiles s /\ dirs s' = dirs s /\ wlost s' = [] /\ wunlinked s' = false /\
  lockq_inv c (stored ls) (durable ls) s'.
Proof.
  intros c ls Hc Hq Hqs s s'. pose proof (lockq_reach c ls Hc Hq) as HI. fold s in HI.
  pose proof (quiet_restart c _ _ s HI Hqs) as E. fold s' in E.
  pose proof (lockq_restart c _ _ s HI Hqs) as HI'. fold s' in HI'. destruct HI' as (H1 & H2 & H3 & H4).
  destruct (quiet_log c _ _ s' H1 H4 eq_refl eq_refl) as (Ew & En & _).
  repeat (split; [first [assumption | rewrite E; reflexivity]|]). exact H4.
Qed.

Theorem quiescent_restart_preserves_inv : forall c P D s, 0 < c ->
  lockq_inv c P D s -> quiescentb s = true -> lockq_inv c P D (restart (crash s)).
Proof. intros c P D s _. apply lockq_restart. Qed.

Theorem lockstep_q_no_prune : forall c ls, 0 < c -> lockstep_q (init c) ls = true ->
  let s := run (init c) ls in
  wlost s = [] /\ wunlinked s = false /\
  len (durable ls) = wcur s * c + wcnt s /\ len (stored ls) = alloc0 s * c + len (mem s) /\
  wcnt s <= c /\ len (mem s) < c /\
  wal_get (walfiles s) (wcur s) = drop (wcur s * c) (durable ls) /\
  mem s = drop (alloc0 s * c) (stored ls).
Proof.
  intros c ls Hc Hq s. destruct (lockq_reach c ls Hc Hq) as (HI & Hu & Hl & HE). fold s in HI, Hu, Hl, HE.
  destruct (li_cnt _ _ _ _ HI). destruct (li_mem _ _ _ _ HI).
  repeat split; try assumption; [apply (ei_get _ _ _ _ HE)|apply (ei_mem _ _ _ _ HE)].
Qed.

Lemma lockstep_is_q : forall ls s,
  lockstep ls = true -> wal_ordered s ls = true -> wal_idle_at_prune s ls = true -> lockstep_q s ls = true.
Proof.
  induction ls as [|l r IH]; intros s Hl Ho Hp; [reflexivity|].
  rewrite wal_idle_at_prune_cons in Hp. cbn [lockstep forallb wal_ordered] in Hl, Ho.
  apply andb_true_iff in Hl as [Hl1 Hl2], Ho as [Ho1 Ho2], Hp as [Hp1 Hp2].
  assert (E : lockstep_q s (l :: r) = step_ok s l && lockstep_q (step s l) r)
    by (destruct l; try reflexivity; discriminate Hl1).
  rewrite E, (IH _ Hl2 Ho2 Hp2). unfold step_ok. rewrite Hl1, Ho1, Hp1. reflexivity.
Qed.

Theorem lockstep_wlost_empty : forall c ls, 0 < c ->
  lockstep ls = true -> wal_ordered (init c) ls = true -> wal_idle_at_prune (init c) ls = true ->
  wunlinked (run (init c) ls) = false /\ wlost (run (init c) ls) = [].
Proof.
  intros c ls Hc Hl Ho Hp. destruct (lockstep_q_no_prune c ls Hc (lockstep_is_q ls _ Hl Ho Hp)) as (H1 & H2 & _).
  split; assumption.
Qed.

Theorem exactly_once_across_quiescent_restarts : forall c ls e, 0 < c ->
  lockstep_q (init c) ls = true -> NoDup (map ek (stored ls)) -> In e (durable ls) ->
  occ e (select (restart (crash (run (init c) ls))) (euid e)) = 1%nat /\
  occ e (select (restart (run (init c) ls)) (euid e)) = 1%nat /\
  wlost (run (init c) ls) = [] /\ wunlinked (run (init c) ls) = false.
Proof.
  intros c ls e Hc Hq Hn He. destruct (lockstep_q_no_prune c ls Hc Hq) as (Hl & Hu & _).
  destruct (survives_unless_pruned c ls e Hn He) as [H1 H2]; [rewrite Hl; intros []|].
  repeat split; assumption.
Qed.

(** the [wcnt < cap] conjunct of [quiescentb] is thus implied by the others *)
Theorem quiet_state_lockstep : forall c ls, 0 < c -> lockstep_q (init c) ls = true ->
  let s := run (init c) ls in
  jobs s = [] -> walq s = [] ->
  wcur s = alloc0 s /\ wcnt s = len (mem s) /\ wcnt s < c.
Proof.
  intros c ls Hc Hq s Ej Eq. destruct (lockq_reach c ls Hc Hq) as (HI & _ & _ & HE). fold s in HI, HE.
  destruct (quiet_log c _ _ s HI HE Ej Eq) as (Ew & En & _). destruct (li_mem _ _ _ _ HI) as [_ Hm].
  repeat split; [exact Ew | exact En | lia].
Qed.

(** [alloc0_from] only looks at ids inside the level-0 band: with more than
    [level_span] level-0 segments the restart would not find the next id (hence the
    bound in [quiescentb]; not reachable without compaction having run long before) *)
Theorem alloc0_outside_band_refuted :
  exists ids a, (forall i, In i ids -> i < a) /\ In (a - 1) ids /\ alloc0_from ids <> a.
Proof.
  exists [level_span], (level_span + 1). split; [|split].
  - intros i [<-|[]]. vm_compute. reflexivity.
  - left. reflexivity.
  - vm_compute. discriminate.
Qed.

(** a kill while a flush job is queued (not quiescent) *)
Theorem nonquiescent_restart_refuted :
  exists c ls, 0 < c /\ lockstep_q (init c) ls = true /\
    let s := run (init c) ls in
    quiescentb s = false /\ walq s = [] /\
    (alloc0 (restart (crash s)) <> alloc0 s /\ mem (restart (crash s)) <> mem s /\
     ~ (len (mem (restart (crash s))) < c)).
Proof.
  exists 2, [LStore (mkEv 1 0 0); LWalWrite; LStore (mkEv 2 0 0); LWalWrite]. by_eval.
Qed.

Module QTraces.
  Import Traces.
  Definition flush0 (k : N) : list label := [fb; fm; fw0; fi; fp; fc; wd k; fx; fd].
  (** cap 3.  First lifetime: one full rotation (flushed), two more events; kill; restart;
      second lifetime: four more events = rotations 1 and 2 (both flushed), one event left *)
  Definition two_lifetimes : list label :=
    [S 1; W; S 2; W; S 3; W; Wr] ++ flush0 0 ++ [S 4; W; S 5; W] ++ [K; T] ++
    [S 6; W; Wr] ++ flush0 1 ++ [S 7; W; S 8; W; S 9; W; Wr] ++ flush0 2 ++ [S 10; W].
End QTraces.

Example lockstep_q_nonvacuous :
  exists c ls e, 0 < c /\ lockstep_q (init c) ls = true /\ one_lifetime ls = false /\
    NoDup (map ek (stored ls)) /\ In e (durable ls) /\
    quiescentb (run (init c) ls) = true /\
    alloc0 (run (init c) ls) = 3 /\ wcur (run (init c) ls) = 3 /\ len (mem (run (init c) ls)) = 1 /\
    len (select (restart (crash (run (init c) ls))) 0) = 10.
Proof.
  exists 3, QTraces.two_lifetimes, (Traces.E 5). by_eval.
Qed.

(** the kill in that trace hits a partly filled memtable *)
Example quiescent_kill_nonvacuous :
  exists c ls, 0 < c /\ lockstep_q (init c) ls = true /\ quiescentb (run (init c) ls) = true /\
    len (mem (run (init c) ls)) = 2 /\ wcnt (run (init c) ls) = 2 /\ alloc0 (run (init c) ls) = 1.
Proof.
  exists 3, ([Traces.S 1; Traces.W; Traces.S 2; Traces.W; Traces.S 3; Traces.W; Traces.Wr] ++ QTraces.flush0 0 ++
             [Traces.S 4; Traces.W; Traces.S 5; Traces.W]).
  by_eval.
Qed.
