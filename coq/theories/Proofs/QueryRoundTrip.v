(** Printing then parsing a well-formed Query command is the identity (peg grammar level). *)
From Coq Require Import NArith ZArith List Bool Lia.
From Coq Require Import ZifyBool ZifyNat ZifyN.
From Snel Require Import Base.Bytes Model.Tokenizer Model.Parser Model.Printer
  Proofs.ListFacts Proofs.BytesFacts Proofs.ParserBasics Proofs.ExprRoundTrip Proofs.FuelProofs Proofs.ParserProofs.
Import ListNotations.
Open Scope N_scope.

Definition optl {A} (o : option A) (f : A -> clause) : list clause :=
  match o with Some a => [f a] | None => [] end.

Definition query_clauses (q : query) : list clause :=
  optl (q_ctx q) ClFor ++ optl (q_since q) ClSince ++ optl (q_time_field q) ClUsing
  ++ optl (q_seq_time_field q) ClUsingTime ++ optl (q_where q) ClWhere ++ optl (q_return q) ClReturn
  ++ optl (q_link q) ClLink ++ optl (q_aggs q) ClAggs ++ optl (q_bucket q) (fun g => ClTime g None)
  ++ optl (q_group q) (fun l => ClGroup l None) ++ optl (q_order q) (fun o => ClOrder (fst o) (snd o))
  ++ optl (q_limit q) ClLimit ++ optl (q_offset q) ClOffset.

(** [g] is the record as a function of the one field that the clause [f a] sets *)
Lemma fold_optl : forall A (o : option A) (f : A -> clause) (g : option A -> query) cs q,
  (forall a, apply_clause (g None) (f a) = g (Some a)) ->
  fold_left apply_clause cs (g o) = q ->
  fold_left apply_clause (optl o f ++ cs) (g None) = q.
Proof. intros A [a|] f g cs q H E; cbn [optl app fold_left]; [rewrite H|]; exact E. Qed.

Lemma fold_clauses : forall q,
  fold_left apply_clause (query_clauses q) (empty_query (q_event q) (q_seq q)) = q.
Proof.
  intros [ev ctx since tf stf wh lim off ord retf link aggs tb gb sq]. unfold query_clauses, empty_query.
  cbn [q_event q_seq q_ctx q_since q_time_field q_seq_time_field q_where q_return q_link q_aggs q_bucket q_group
       q_order q_limit q_offset].
  rewrite <- (app_nil_r (optl off ClOffset)).
  apply (fold_optl _ ctx _ (fun x => mkQuery ev x None None None None None None None None None None None None sq)); [reflexivity|].
  apply (fold_optl _ since _ (fun x => mkQuery ev ctx x None None None None None None None None None None None sq)); [reflexivity|].
  apply (fold_optl _ tf _ (fun x => mkQuery ev ctx since x None None None None None None None None None None sq)); [reflexivity|].
  apply (fold_optl _ stf _ (fun x => mkQuery ev ctx since tf x None None None None None None None None None sq)); [reflexivity|].
  apply (fold_optl _ wh _ (fun x => mkQuery ev ctx since tf stf x None None None None None None None None sq)); [reflexivity|].
  apply (fold_optl _ retf _ (fun x => mkQuery ev ctx since tf stf wh None None None x None None None None sq)); [reflexivity|].
  apply (fold_optl _ link _ (fun x => mkQuery ev ctx since tf stf wh None None None retf x None None None sq)); [reflexivity|].
  apply (fold_optl _ aggs _ (fun x => mkQuery ev ctx since tf stf wh None None None retf link x None None sq)); [reflexivity|].
  apply (fold_optl _ tb _ (fun x => mkQuery ev ctx since tf stf wh None None None retf link aggs x None sq)); [reflexivity|].
  apply (fold_optl _ gb _ (fun x => mkQuery ev ctx since tf stf wh None None None retf link aggs tb x sq)); [reflexivity|].
  apply (fold_optl _ ord _ (fun x => mkQuery ev ctx since tf stf wh None None x retf link aggs tb gb sq)); [intros []; reflexivity|].
  apply (fold_optl _ lim _ (fun x => mkQuery ev ctx since tf stf wh x None ord retf link aggs tb gb sq)); [reflexivity|].
  apply (fold_optl _ off _ (fun x => mkQuery ev ctx since tf stf wh lim x ord retf link aggs tb gb sq)); reflexivity.
Qed.

(** [first_of [p1; ...; pn]] is [alt p1 (alt ... pn)]; the last alternative stands alone, as in the
    rules of the grammar, so that a rule is convertible with [first_of] of the list of its alternatives *)
Fixpoint first_of {A} (ps : list (P A)) : P A :=
  match ps with
  | [] => fun _ => Err
  | p :: ps' => match ps' with [] => p | _ => alt p (first_of ps') end
  end.

Lemma first_of_cons : forall A (p : P A) ps s, first_of (p :: ps) s = alt p (first_of ps) s.
Proof. intros A p [|q ps] s; [|reflexivity]. cbn [first_of]. unfold alt. destruct (p s); reflexivity. Qed.

Section QRT.
Variable fx : bool.
Variable sp : bytes -> bytes.
Hypothesis Hsp : speller_ok sp.

Lemma sp_nows : forall K r, word K = true -> head_is is_tws (sp K ++ r) = false.
Proof. intros. apply alpha_not_ws, (sp_alpha_head sp Hsp); auto. Qed.

Lemma kw_same : forall A K (f : unit -> P A) r, word K = true -> head_is is_alpha r = false ->
  bind (kw K) f (sp K ++ r) = f tt r.
Proof. intros. apply kw_bind_ok, (ci_spell sp Hsp); auto. Qed.

Lemma kw_skip : forall A K (p : P A) x, word K = true -> head_is is_tws x = false ->
  (let* _ := kw K in let* _ := skip in p) (sp K ++ 32 :: x) = p x.
Proof. intros A K p x HK Hx. rewrite kw_same, skip_bind, ws_space, ws_nows; auto. Qed.

(** a rule that begins with one of the keywords [Ks] fails on a text that begins with any other; among alternatives
    each led by its keywords, a text that begins with [K] is read by those that list [K], in their order ([first_of_kw]) *)
Definition led_by {A} (Ks : list bytes) (p : P A) : Prop :=
  forall K r, word K = true -> head_is is_alpha r = false -> existsb (ci_eqb K) Ks = false -> p (sp K ++ r) = Err.

Lemma kw_led : forall A K' (f : unit -> P A), led_by [K'] (bind (kw K') f).
Proof.
  intros A K' f K r HK Hr E. cbn [existsb] in E. rewrite orb_false_r in E. apply kw_bind_err, (ci_spell_other sp Hsp); auto.
Qed.

Definition all_led {A} (tbl : list (list bytes * P A)) : Prop := Forall (fun e => led_by (fst e) (snd e)) tbl.

Definition on_kw {A} (K : bytes) (tbl : list (list bytes * P A)) : list (P A) :=
  map snd (filter (fun e => existsb (ci_eqb K) (fst e)) tbl).

Lemma first_of_kw : forall A (tbl : list (list bytes * P A)) K r sel,
  all_led tbl -> word K = true -> head_is is_alpha r = false -> on_kw K tbl = sel ->
  first_of (map snd tbl) (sp K ++ r) = first_of sel (sp K ++ r).
Proof.
  intros A tbl K r sel Hl HK Hr <-. unfold on_kw. induction Hl as [|[Ks p] tbl Hp Hl IH]; [reflexivity|].
  cbn [map snd filter fst]. rewrite first_of_cons. destruct (existsb (ci_eqb K) Ks) eqn:E.
  - cbn [map snd]. rewrite first_of_cons. unfold alt. rewrite IH. reflexivity.
  - rewrite alt_err; [exact IH|apply Hp; auto].
Qed.

Lemma first_of_led : forall A (tbl : list (list bytes * P A)),
  all_led tbl -> led_by (flat_map fst tbl) (first_of (map snd tbl)).
Proof.
  intros A tbl Hl K r HK Hr E. rewrite (first_of_kw _ tbl K r []); auto.
  unfold on_kw. rewrite filter_none; [reflexivity|]. intros e He. rewrite existsb_false in E |- *.
  intros k Hk. apply E, in_flat_map. eauto.
Qed.

Definition print_clause (c : clause) : bytes :=
  match c with
  | ClFor c => sp K_FOR ++ 32 :: quoted c
  | ClSince c => sp K_SINCE ++ 32 :: quoted c
  | ClUsing f => sp K_USING ++ 32 :: f
  | ClUsingTime f => sp K_USING ++ 32 :: sp K_TIME ++ 32 :: f
  | ClWhere e => sp K_WHERE ++ 32 :: print_expr sp e
  | ClReturn l => sp K_RETURN ++ 32 :: 91 :: print_list quoted l ++ [93]
  | ClLink f => sp K_LINKED ++ 32 :: sp K_BY ++ 32 :: f
  | ClAggs l => print_aggs sp l
  | ClTime g _ => sp K_PER ++ 32 :: sp (gran_kw g)
  | ClGroup l _ => sp K_BY ++ 32 :: print_list (fun f => f) l
  | ClOrder f d => sp K_ORDER ++ 32 :: sp K_BY ++ 32 :: f ++ 32 :: sp (if d then K_DESC else K_ASC)
  | ClLimit n => sp K_LIMIT ++ 32 :: dec_of_N n
  | ClOffset n => sp K_OFFSET ++ 32 :: dec_of_N n
  end.

Definition ctext (c : clause) : bytes := 32 :: print_clause c.
Definition ctail (cs : list clause) : bytes := flat_map ctext cs.

Lemma optl_text : forall A (o : option A) (f : A -> clause),
  flat_map ctext (optl o f) = opt_clause o (fun a => print_clause (f a)).
Proof. intros A [a|] f; cbn; [rewrite app_nil_r|]; reflexivity. Qed.

Lemma print_query_eq : forall q,
  print_query sp q = sp K_QUERY ++ 32 :: q_event q ++ concat (map (print_link sp) (q_seq q))
                     ++ ctail (query_clauses q).
Proof.
  intro q. unfold print_query, ctail, query_clauses. rewrite !flat_map_app, !optl_text. reflexivity.
Qed.

Definition agg_kw (a : agg) : bytes :=
  match a with
  | ACount _ | ACountField _ => K_COUNT | ATotal _ => K_TOTAL | AAvg _ => K_AVG | AMin _ => K_MIN | AMax _ => K_MAX
  end.

Definition first_kw (c : clause) : bytes :=
  match c with
  | ClFor _ => K_FOR | ClSince _ => K_SINCE | ClUsing _ | ClUsingTime _ => K_USING | ClWhere _ => K_WHERE
  | ClReturn _ => K_RETURN | ClLink _ => K_LINKED
  | ClAggs l => match l with a :: _ => agg_kw a | [] => K_COUNT end
  | ClTime _ _ => K_PER | ClGroup _ _ => K_BY | ClOrder _ _ => K_ORDER | ClLimit _ => K_LIMIT | ClOffset _ => K_OFFSET
  end.

(** [rank] is the place of a clause in the printer's order ([query_clauses]); [rank_kws], indexed by [rank], lists the
    keywords a clause of that rank can begin with (USING twice: [ClUsing] and [ClUsingTime]); [allowed c] are the
    keywords that can begin a later clause *)
Definition rank (c : clause) : nat :=
  match c with
  | ClFor _ => 0 | ClSince _ => 1 | ClUsing _ => 2 | ClUsingTime _ => 3 | ClWhere _ => 4 | ClReturn _ => 5
  | ClLink _ => 6 | ClAggs _ => 7 | ClTime _ _ => 8 | ClGroup _ _ => 9 | ClOrder _ _ => 10 | ClLimit _ => 11
  | ClOffset _ => 12
  end.

Definition agg_kws : list bytes := [K_COUNT; K_TOTAL; K_AVG; K_MIN; K_MAX].

Definition rank_kws : list (list bytes) :=
  [[K_FOR]; [K_SINCE]; [K_USING]; [K_USING]; [K_WHERE]; [K_RETURN]; [K_LINKED]; agg_kws; [K_PER]; [K_BY]; [K_ORDER];
   [K_LIMIT]; [K_OFFSET]].

Definition allowed (c : clause) : list bytes := concat (skipn (S (rank c)) rank_kws).

(** what follows the text of clause [c] in a printed query: nothing, or a blank and the spelled first keyword of a later
    clause.  The last conjunct: [clause_start] takes ORDER as a clause only with its BY *)
Definition cfollow (c : clause) (rest : bytes) : Prop :=
  rest = [] \/
  exists K r, rest = 32 :: sp K ++ r /\ word K = true /\ head_is is_alpha r = false /\ In K (allowed c) /\
    (K = K_ORDER -> exists r', r = 32 :: sp K_BY ++ r' /\ head_is is_alpha r' = false).

Lemma negb_nil : forall A (l : list A), negb (match l with [] => true | _ => false end) = true -> l <> [].
Proof. intros A [|x l] H; [discriminate|congruence]. Qed.

Definition wf_clause (c : clause) : bool :=
  match c with
  | ClFor s | ClSince s => no_quote s
  | ClUsing f | ClUsingTime f => wf_field f
  | ClWhere e => wf_expr e
  | ClReturn l => forallb no_quote l
  | ClLink f => wf_ident f
  | ClAggs l => negb (match l with [] => true | _ => false end) && forallb wf_agg l
  | ClTime _ u => match u with None => true | Some _ => false end
  | ClGroup l u => negb (match l with [] => true | _ => false end) && forallb wf_field l
                   && match u with None => true | Some _ => false end
  | ClOrder f _ => wf_field f
  | ClLimit n | ClOffset n => n <? 4294967296
  end.

Lemma first_kw_word : forall c, word (first_kw c) = true.
Proof. intros [| | | | | | |[|[[|]| | | | |] ?]| | | | |]; reflexivity. Qed.

Lemma first_kw_rank : forall c, In (first_kw c) (nth (rank c) rank_kws []).
Proof.
  intros c. destruct c as [| | | | | | |[|a l]| | | | |]; try (left; reflexivity).
  destruct a as [[|]| | | | |]; cbn [first_kw agg_kw rank nth rank_kws agg_kws In]; tauto.
Qed.

Lemma rank_allowed : forall c c', (rank c < rank c')%nat -> In (first_kw c') (allowed c).
Proof. intros c c' Hr. apply (in_concat_skipn rank_kws _ (rank c')); [lia|apply first_kw_rank]. Qed.

Lemma cf_head_ok : forall c rest, cfollow c rest -> head_ok rest = true.
Proof. intros c rest [->|(K & r & -> & _)]; reflexivity. Qed.

Lemma cf_ws : forall c rest, cfollow c rest ->
  rest = [] \/ exists K r, ws rest = sp K ++ r /\ word K = true /\ head_is is_alpha r = false /\ In K (allowed c).
Proof.
  intros c rest [->|(K & r & -> & HK & Hr & Ha & _)]; [left; auto|right]. exists K, r.
  rewrite ws_space, (ws_nows _ (sp_nows K r HK)). auto.
Qed.

Lemma cf_ci_none : forall c rest K', cfollow c rest -> existsb (fun K => ci_eqb K K') (allowed c) = false ->
  ci K' (ws rest) = None.
Proof.
  intros c rest K' H Hn. destruct (cf_ws c rest H) as [->|(K & r & E & HK & Hr & Ha)]; [reflexivity|].
  rewrite E. apply (ci_spell_other sp Hsp); auto. rewrite existsb_false in Hn. auto.
Qed.

Lemma cf_alpha : forall c rest, cfollow c rest -> rest = [] \/ head_is is_alpha (ws rest) = true.
Proof.
  intros c rest H. destruct (cf_ws c rest H) as [->|(K & r & E & HK & _)]; [left; reflexivity|right].
  rewrite E. apply (sp_alpha_head sp Hsp), HK.
Qed.

(** no clause begins with IN, AND or OR *)
Lemma cf_ostop : forall c rest, cfollow c rest -> ostop rest.
Proof.
  intros c rest H. repeat split; [eapply cf_head_ok; eauto| |apply (cf_ci_none c); auto; destruct c; reflexivity ..].
  destruct (cf_alpha c rest H) as [->|Ha]; [reflexivity|apply cmp_op_alpha, Ha].
Qed.

Lemma cf_nocomma : forall c rest, cfollow c rest -> comma_sep rest = None.
Proof. intros c rest H. destruct (cf_alpha c rest H) as [->|Ha]; [reflexivity|apply comma_sep_alpha, Ha]. Qed.

(** without [ws]: [rest] is empty or begins with a blank *)
Lemma cf_ci_none_raw : forall c rest K', cfollow c rest -> ci K' rest = None.
Proof. intros c rest K' [->|(K & r & -> & _)]; reflexivity. Qed.

Lemma cf_fld_stop : forall c rest, cfollow c rest -> fld_stop rest = true.
Proof. intros. apply head_ok_fld_stop. eapply cf_head_ok; eauto. Qed.

Lemma ident_nows : forall i rest, wf_ident i = true -> head_is is_tws (i ++ rest) = false.
Proof.
  intros i rest Hi. apply wf_ident_syntax in Hi. destruct i as [|c i']; [discriminate|]. cbn in Hi.
  apply andb_prop in Hi as [Hc _]. unfold head_is. cbn [app]. unfold is_ident_start, is_alpha in Hc. unfold is_tws. lia.
Qed.

Lemma digits_nows : forall d rest, all_digits d = true -> d <> [] -> head_is is_tws (d ++ rest) = false.
Proof. intros d rest Hd Hne. exact (signed_digits_head is_tws false d rest Hd Hne eq_refl digit_nonws). Qed.

Local Hint Resolve sp_nows wf_field_nows ident_nows digits_nows : nows.

Lemma fieldp_ok : forall f rest, wf_field f = true -> fld_stop rest = true -> fieldp (f ++ rest) = Ok (f, rest).
Proof. intros. apply lift_ok, field_print; auto. Qed.

Lemma identp_ok : forall i rest, wf_ident i = true -> fld_stop rest = true -> identp (i ++ rest) = Ok (i, rest).
Proof. intros. apply lift_ok, ident_print; auto using wf_ident_syntax, fld_stop_nonident. Qed.

Lemma strp_ok : forall s rest, no_quote s = true -> strp (34 :: s ++ 34 :: rest) = Ok (s, rest).
Proof. intros. apply lift_ok, string_lit_print; auto. Qed.

Lemma for_rt : forall s rest, no_quote s = true ->
  for_clause (sp K_FOR ++ 32 :: quoted s ++ rest) = Ok (ClFor s, rest).
Proof.
  intros s rest Hs. unfold for_clause, quoted. norm_app. rewrite kw_skip by reflexivity.
  apply bind_ret. rewrite alt_err by reflexivity. apply strp_ok, Hs.
Qed.

Lemma since_rt : forall s rest, no_quote s = true ->
  since_clause (sp K_SINCE ++ 32 :: quoted s ++ rest) = Ok (ClSince s, rest).
Proof.
  intros s rest Hs. unfold since_clause, quoted. norm_app. rewrite kw_skip by reflexivity. apply bind_ret, strp_ok, Hs.
Qed.

Lemma return_item_rt : forall s r, no_quote s = true -> return_item (quoted s ++ r) = Ok (s, r).
Proof.
  intros s r Hs. unfold return_item, quoted. norm_app. rewrite alt_err by reflexivity. apply strp_ok, Hs.
Qed.

Lemma return_rt : forall l rest, forallb no_quote l = true ->
  return_clause (sp K_RETURN ++ 32 :: 91 :: print_list quoted l ++ 93 :: rest) = Ok (ClReturn l, rest).
Proof.
  intros l rest Hl. unfold return_clause. rewrite kw_skip by reflexivity. rewrite sym_bind_ok, skip_bind.
  assert (Hws : ws (print_list quoted l ++ 93 :: rest) = print_list quoted l ++ 93 :: rest).
  { apply ws_nows. unfold print_list, sep_print. destruct l; reflexivity. }
  assert (E : sep_list return_item comma_sep (print_list quoted l ++ 93 :: rest) = Ok (l, 93 :: rest)).
  { apply (sep_print_rt _ quoted return_item (fun _ => True)); auto.
    intros x r Hx _. apply return_item_rt. rewrite forallb_forall in Hl. auto. }
  rewrite Hws, (bind_ok E). reflexivity.
Qed.

Lemma linked_rt : forall f rest, wf_ident f = true -> fld_stop rest = true ->
  linked_clause (sp K_LINKED ++ 32 :: sp K_BY ++ 32 :: f ++ rest) = Ok (ClLink f, rest).
Proof.
  intros f rest Hf Hr. unfold linked_clause. rewrite !kw_skip by auto with nows. apply bind_ret, identp_ok; auto.
Qed.

Lemma where_rt : forall e rest, wf_expr e = true -> ostop rest ->
  where_clause fx (sp K_WHERE ++ 32 :: print_expr sp e ++ rest) = Ok (ClWhere e, rest).
Proof.
  intros e rest He Hr. unfold where_clause. rewrite kw_same, skip_bind, ws_space by reflexivity.
  unfold print_expr at 1. rewrite (ws_nows _ (print_nows sp Hsp e 0 rest He)). apply bind_ret, parse_print_at; auto.
Qed.

Lemma using_rt : forall f rest, wf_field f = true -> fld_stop rest = true ->
  alt using_time_clause using_clause (sp K_USING ++ 32 :: f ++ rest) = Ok (ClUsing f, rest).
Proof.
  intros f rest Hf Hr. rewrite alt_err.
  - unfold using_clause. rewrite kw_skip by auto with nows. apply bind_ret, fieldp_ok; auto.
  - unfold using_time_clause. rewrite kw_skip by auto with nows.
    apply kw_bind_err. apply (ci_wf_field f K_TIME rest Hf); auto. apply (existsb_eqb_In _ bytes_eqb_eq); reflexivity.
Qed.

Lemma using_time_rt : forall f rest, wf_field f = true -> fld_stop rest = true ->
  using_time_clause (sp K_USING ++ 32 :: sp K_TIME ++ 32 :: f ++ rest) = Ok (ClUsingTime f, rest).
Proof.
  intros f rest Hf Hr. unfold using_time_clause. rewrite !kw_skip by auto with nows. apply bind_ret, fieldp_ok; auto.
Qed.

Definition gran_alts : list (list bytes * P gran) :=
  map (fun g => ([gran_kw g], let* _ := kw (gran_kw g) in ret g)) [GHour; GDay; GWeek; GMonth; GYear].

Lemma granularity_rt : forall g rest, head_is is_alpha rest = false ->
  granularity (sp (gran_kw g) ++ rest) = Ok (g, rest).
Proof.
  intros g rest Hr. assert (Hw : word (gran_kw g) = true) by (destruct g; reflexivity).
  change granularity with (first_of (map snd gran_alts)).
  rewrite (first_of_kw _ gran_alts _ _ [let* _ := kw (gran_kw g) in ret g]); auto.
  - cbn [first_of]. rewrite kw_same; auto.
  - repeat constructor; apply kw_led.
  - destruct g; reflexivity.
Qed.

Lemma opt_using_none : forall r, ci K_USING r = None -> opt_using r = Ok (None, r).
Proof. intros r H. apply opt_err, kw_bind_err, H. Qed.

Lemma time_rt : forall g rest, head_is is_alpha rest = false -> ci K_USING (ws rest) = None ->
  time_clause (sp K_PER ++ 32 :: sp (gran_kw g) ++ rest) = Ok (ClTime g None, ws rest).
Proof.
  intros g rest Hr Hu. unfold time_clause. rewrite kw_skip by (destruct g; auto with nows).
  rewrite (bind_ok (granularity_rt g rest Hr)), skip_bind. apply bind_ret, opt_using_none, Hu.
Qed.

Lemma order_rt : forall f (d : bool) rest, wf_field f = true -> head_is is_alpha rest = false ->
  order_clause (sp K_ORDER ++ 32 :: sp K_BY ++ 32 :: f ++ 32 :: sp (if d then K_DESC else K_ASC) ++ rest)
  = Ok (ClOrder f d, rest).
Proof.
  intros f d rest Hf Hr. unfold order_clause. rewrite !kw_skip by auto with nows.
  rewrite (bind_ok (fieldp_ok f (32 :: _) Hf eq_refl)), skip_bind, ws_space, ws_nows by (destruct d; auto with nows).
  assert (E : alt (let* _ := kw K_ASC in ret false) (let* _ := kw K_DESC in ret true) (sp (if d then K_DESC else K_ASC) ++ rest)
              = Ok (d, rest)).
  { destruct d; [rewrite alt_err by (apply kw_bind_err, (ci_spell_other sp Hsp); auto)|apply alt_ok]; rewrite kw_same; auto. }
  rewrite (bind_ok (opt_ok _ _ _ _ _ E)). reflexivity.
Qed.

Lemma u32_clause_rt : forall K site mk n rest, word K = true -> n < 4294967296 -> head_is is_digit rest = false ->
  (let* _ := kw K in let* _ := skip in let* m := intp in conv_clause fx site mk m) (sp K ++ 32 :: dec_of_N n ++ rest)
  = Ok (mk n, rest).
Proof.
  intros K site mk n rest HK Hn Hr. destruct (dec_of_N_spec n) as (Hd & Hne & Hv).
  rewrite kw_skip by auto with nows. rewrite (bind_ok (lift_ok _ _ _ _ (integer_digits _ _ Hd Hne Hr))).
  unfold conv_clause, conv_u32. cbn [fst snd]. rewrite Hv. replace (n <? 4294967296) with true by lia. reflexivity.
Qed.

Lemma fld_stop_comma : forall r, fld_stop (44 :: 32 :: r) = true.
Proof. reflexivity. Qed.

Lemma group_rt : forall l rest, l <> [] -> forallb wf_field l = true ->
  fld_stop rest = true -> comma_sep rest = None -> ci K_USING rest = None ->
  group_clause (sp K_BY ++ 32 :: print_list (fun f => f) l ++ rest) = Ok (ClGroup l None, rest).
Proof.
  intros l rest Hne Hl Hr Hc Hu. destruct l as [|f1 l']; [congruence|]. cbn [forallb] in Hl. apply andb_prop in Hl as [Hf1 Hl'].
  rewrite forallb_forall in Hl'.
  unfold group_clause, print_list, sep_print. norm_app. rewrite kw_skip by auto with nows.
  set (tl := flat_map (fun y : bytes => 44 :: 32 :: y) l' ++ rest).
  assert (Hs : fld_stop tl = true) by (destruct l'; [exact Hr|reflexivity]).
  assert (E : many_self (sepstep fieldp comma_sep) tl = Ok (l', rest)).
  { apply (many_sep_tail _ (fun f : bytes => f) fieldp (fun r => fld_stop r = true)); auto with nows.
    intros x r Hx Hrr. apply fieldp_ok; auto. }
  rewrite (bind_ok (fieldp_ok f1 tl Hf1 Hs)), (bind_ok E). apply bind_ret, opt_using_none, Hu.
Qed.

(** what may follow a printed aggregate for [agg_spec] to stop there: no UNIQUE (else a bare COUNT reads on), and a
    clause start or nothing that reads as a field (else a bare COUNT takes it for the field to count) *)
Definition agg_follow (r : bytes) : Prop :=
  fld_stop r = true /\ ci K_UNIQUE (ws r) = None /\ (clause_start (ws r) = Some tt \/ field (ws r) = None).

Lemma agg_follow_comma : forall r, agg_follow (44 :: 32 :: r).
Proof. intro r. repeat split; auto. Qed.

Lemma clause_start_field : forall f rest, wf_field f = true -> fld_stop rest = true -> clause_start (f ++ rest) = None.
Proof.
  intros f rest Hf Hr. unfold clause_start.
  rewrite !(ci_wf_field f _ rest Hf) by (auto; apply (existsb_eqb_In _ bytes_eqb_eq); reflexivity). reflexivity.
Qed.

Lemma agg_field_rt : forall K mk f r, word K = true -> wf_field f = true -> fld_stop r = true ->
  agg_field K mk (sp K ++ 32 :: f ++ r) = Ok (mk f, r).
Proof.
  intros K mk f r HK Hf Hr. unfold agg_field. rewrite kw_skip by auto with nows.
  rewrite notp_bind by (apply clause_start_field; auto). apply bind_ret, fieldp_ok; auto.
Qed.

Definition agg_alts : list (list bytes * P agg) :=
  [([K_COUNT], let* _ := kw K_COUNT in let* _ := skip in let* _ := kw K_UNIQUE in let* _ := skip in
               let* _ := notp clause_start in let* f := fieldp in ret (ACount (Some f)));
   ([K_COUNT], agg_field K_COUNT ACountField);
   ([K_COUNT], let* _ := kw K_COUNT in ret (ACount None));
   ([K_TOTAL], agg_field K_TOTAL ATotal); ([K_AVG], agg_field K_AVG AAvg); ([K_MIN], agg_field K_MIN AMin);
   ([K_MAX], agg_field K_MAX AMax)].

Lemma agg_alts_led : all_led agg_alts.
Proof. repeat constructor; apply kw_led. Qed.

Lemma agg_spec_kw : forall K r sel, word K = true -> head_is is_alpha r = false -> on_kw K agg_alts = sel ->
  agg_spec (sp K ++ r) = first_of sel (sp K ++ r).
Proof. intros. apply (first_of_kw _ agg_alts); auto using agg_alts_led. Qed.

Lemma agg_spec_rt : forall a r, wf_agg a = true -> agg_follow r -> agg_spec (print_agg sp a ++ r) = Ok (a, r).
Proof.
  intros a r Ha (Hr & Hu & Hcs). pose proof (fld_stop_nonalpha _ Hr) as Hal.
  destruct a as [[f|]|f|f|f|f|f]; cbn [print_agg wf_agg] in *; norm_app;
    try (rewrite (agg_spec_kw _ _ [agg_field _ _]) by reflexivity; apply agg_field_rt; auto);
    rewrite (agg_spec_kw K_COUNT _ (map snd (firstn 3 agg_alts))) by (reflexivity || exact Hal);
    cbn [first_of map snd firstn agg_alts].
  - (* COUNT UNIQUE f *)
    apply alt_ok. rewrite !kw_skip by auto with nows. rewrite notp_bind by (apply clause_start_field; auto).
    apply (bind_ret _ _ _ (fun x => ACount (Some x))), fieldp_ok; auto.
  - (* COUNT: no UNIQUE follows, and what follows is not a field to count *)
    rewrite alt_err.
    2:{ rewrite kw_same, skip_bind by auto. apply kw_bind_err. exact Hu. }
    rewrite alt_err.
    2:{ unfold agg_field. rewrite kw_same, skip_bind by auto.
        destruct (clause_start (ws r)) as [[]|] eqn:Ecs; [exact (notp_bind_err _ _ _ _ _ _ Ecs)|].
        destruct Hcs as [E|E]; [discriminate E|]. rewrite notp_bind by exact Ecs. apply lift_bind_err, E. }
    rewrite kw_same; auto.
  - (* COUNT f *)
    rewrite alt_err.
    2:{ rewrite kw_skip by auto with nows. apply kw_bind_err. apply (ci_wf_field f K_UNIQUE r Ha); auto. apply (existsb_eqb_In _ bytes_eqb_eq); reflexivity. }
    apply alt_ok. apply agg_field_rt; auto.
Qed.

Lemma agg_nows : forall a r, head_is is_tws (print_agg sp a ++ r) = false.
Proof. intros a r. destruct a as [[f|]|f|f|f|f|f]; cbn [print_agg]; norm_app; auto with nows. Qed.

Lemma aggs_rt : forall l rest, l <> [] -> forallb wf_agg l = true -> agg_follow rest -> comma_sep rest = None ->
  agg_clause (print_aggs sp l ++ rest) = Ok (ClAggs l, rest).
Proof.
  intros l rest Hne Hl Hr Hc. unfold agg_clause, print_aggs. apply bind_ret. rewrite sep_list1_peg.
  destruct l as [|a l']; [congruence|]. apply sep_list_cons.
  apply (sep_print_rt _ (print_agg sp) agg_spec agg_follow); auto.
  - intros x r Hx Hf. apply agg_spec_rt; auto. rewrite forallb_forall in Hl. auto.
  - intros x r Hx. apply agg_nows.
  - apply agg_follow_comma.
  - discriminate.
Qed.

Lemma agg_clause_led : led_by agg_kws agg_clause.
Proof.
  intros K r HK Hr E. unfold agg_clause. apply bind_err. rewrite sep_list1_peg. apply bind_err.
  change agg_spec with (first_of (map snd agg_alts)). apply (first_of_led _ _ agg_alts_led); auto.
  cbn [existsb flat_map agg_alts fst app agg_kws] in *. destruct (ci_eqb K K_COUNT); [discriminate|exact E].
Qed.

Definition clause_alts : list (list bytes * P clause) :=
  [([K_FOR], for_clause); ([K_SINCE], since_clause); ([K_RETURN], return_clause); ([K_LINKED], linked_clause);
   ([K_WHERE], where_clause fx); ([K_USING], using_time_clause); ([K_USING], using_clause); (agg_kws, agg_clause);
   ([K_PER], time_clause); ([K_BY], group_clause); ([K_LIMIT], limit_clause fx); ([K_OFFSET], offset_clause fx);
   ([K_ORDER], order_clause)].

Lemma clause_alts_led : all_led clause_alts.
Proof. repeat (constructor; [first [apply kw_led|apply agg_clause_led]|]). constructor. Qed.

(** the keywords after an aggregate list (PER, BY, ORDER, LIMIT, OFFSET) are all known to [clause_start] *)
Lemma clause_start_kw : forall l K r, In K (allowed (ClAggs l)) -> head_is is_alpha r = false ->
  (K = K_ORDER -> exists r', r = 32 :: sp K_BY ++ r' /\ head_is is_alpha r' = false) ->
  clause_start (sp K ++ r) = Some tt.
Proof.
  intros l K r HK Hr Ho. unfold clause_start.
  cbn [In allowed rank concat skipn app rank_kws agg_kws] in HK; repeat (destruct HK as [HK|HK]; [subst|]); try contradiction;
    try (rewrite ?(ci_spell sp Hsp), ?(ci_spell_other sp Hsp _ _ r) by (reflexivity || exact Hr); reflexivity).
  destruct (Ho eq_refl) as (r' & -> & Hr').
  rewrite (ci_spell sp Hsp), ?(ci_spell_other sp Hsp K_ORDER) by reflexivity.
  rewrite ws_space, ws_nows, (ci_spell sp Hsp) by auto with nows. reflexivity.
Qed.

Lemma cf_agg_follow : forall l rest, cfollow (ClAggs l) rest -> agg_follow rest.
Proof.
  intros l rest H. split; [eapply cf_fld_stop; eauto|]. split.
  - apply (cf_ci_none _ _ K_UNIQUE H). reflexivity.
  - destruct H as [->|(K & r & -> & HK & Hr & Ha & Ho)]; [right; reflexivity|left].
    rewrite ws_space, (ws_nows _ (sp_nows K r HK)).
    apply (clause_start_kw l); auto.
Qed.

Lemma clause_shape : forall c tail, wf_clause c = true -> head_is is_alpha tail = false ->
  exists r, print_clause c ++ tail = sp (first_kw c) ++ r /\ head_is is_alpha r = false /\
            (first_kw c = K_ORDER -> exists r', r = 32 :: sp K_BY ++ r' /\ head_is is_alpha r' = false).
Proof.
  intros c tail Hw Ht.
  destruct c as [s|s|l|f|e|f|f|l|g u|l u|n|n|f d]; cbn [print_clause first_kw wf_clause] in *; norm_app;
    try (eexists; split; [reflexivity|split; [reflexivity|discriminate]]).
  - (* aggregates *)
    apply andb_prop in Hw as [Hne Hl]. destruct l as [|a l']; [discriminate|].
    unfold print_aggs, sep_print. norm_app.
    assert (Hr0 : head_is is_alpha (flat_map (fun y => 44 :: 32 :: print_agg sp y) l' ++ tail) = false).
    { destruct l'; [exact Ht|reflexivity]. }
    destruct a as [[f|]|f|f|f|f|f]; cbn [print_agg agg_kw]; norm_app;
      (eexists; split; [reflexivity|split; [try reflexivity; exact Hr0|discriminate]]).
  - (* ORDER BY *)
    eexists. split; [reflexivity|]. split; [reflexivity|]. intros _. eexists. split; reflexivity.
Qed.

Lemma clause_p_first : forall c rest, wf_clause c = true -> head_is is_alpha rest = false ->
  clause_p fx (print_clause c ++ rest) = first_of (on_kw (first_kw c) clause_alts) (print_clause c ++ rest).
Proof.
  intros c rest Hw Hr. destruct (clause_shape c rest Hw Hr) as (R & -> & HR & _).
  apply (first_of_kw _ clause_alts); auto using clause_alts_led, first_kw_word.
Qed.

(** where the rule of a clause stops: PER also takes the blanks in front of a USING it does not find *)
Definition clause_rest (c : clause) (rest : bytes) : bytes := match c with ClTime _ _ => ws rest | _ => rest end.

Lemma ws_clause_rest : forall c rest, ws (clause_rest c rest) = ws rest.
Proof. intros [] rest; auto using ws_idem. Qed.

Lemma clause_rt : forall c rest, wf_clause c = true -> cfollow c rest ->
  clause_p fx (print_clause c ++ rest) = Ok (c, clause_rest c rest).
Proof.
  intros c rest Hw Hf. pose proof (cf_fld_stop _ _ Hf) as Hfs. pose proof (fld_stop_nonalpha _ Hfs) as Hal.
  rewrite (clause_p_first c rest Hw Hal).
  (* in each case [on_kw] computes to the one rule of the clause (USING: two), which [apply] finds by conversion *)
  destruct c as [s|s|l|f|e|f|f|l|g u|l u|n|n|f d]; cbn [print_clause clause_rest wf_clause] in *; norm_app.
  - apply (for_rt s rest Hw).
  - apply (since_rt s rest Hw).
  - apply return_rt; auto.
  - apply linked_rt; auto.
  - apply where_rt; auto. eapply cf_ostop; eauto.
  - apply using_rt; auto.
  - apply alt_ok, using_time_rt; auto.
  - apply andb_prop in Hw as [Hne Hl].
    replace (first_of _) with agg_clause by (destruct l as [|[[|]| | | | |] ?]; [discriminate|reflexivity..]).
    apply aggs_rt; auto using negb_nil; [eapply cf_agg_follow; eauto|eapply cf_nocomma; eauto].
  - destruct u; [discriminate|]. apply time_rt; auto. apply (cf_ci_none _ _ K_USING Hf). reflexivity.
  - destruct u; [apply andb_prop in Hw as [_ Hw]; discriminate|].
    apply andb_prop in Hw as [Hw _]. apply andb_prop in Hw as [Hne Hl]. apply group_rt; auto.
    + apply negb_nil, Hne.
    + eapply cf_nocomma; eauto.
    + eapply cf_ci_none_raw; eauto.
  - apply u32_clause_rt; [reflexivity|lia|apply fld_stop_nondigit; auto].
  - apply u32_clause_rt; [reflexivity|lia|apply fld_stop_nondigit; auto].
  - apply order_rt; auto.
Qed.

Fixpoint above (n : nat) (cs : list clause) : Prop :=
  match cs with
  | [] => True
  | c :: r => (n <= rank c)%nat /\ above (S (rank c)) r
  end.

Lemma above_weaken : forall cs n m, (n <= m)%nat -> above m cs -> above n cs.
Proof. intros [|c r] n m H Ha; cbn in *; auto. destruct Ha. split; auto. lia. Qed.

Lemma above_optl : forall A (o : option A) (f : A -> clause) n k r,
  (forall a, rank (f a) = k) -> (n <= k)%nat -> above (S k) r -> above n (optl o f ++ r).
Proof.
  intros A [a|] f n k r Hk Hn Hr; cbn [optl app].
  - cbn [above]. rewrite Hk. auto.
  - eapply above_weaken; [|exact Hr]. lia.
Qed.

Lemma clauses_sorted : forall q, above 0 (query_clauses q).
Proof.
  intro q. unfold query_clauses. rewrite <- (app_nil_r (optl (q_offset q) ClOffset)).
  do 13 (eapply above_optl; [intro; cbn [rank]; reflexivity|apply le_n|]). exact I.
Qed.

Definition all_wf (cs : list clause) : Prop := Forall (fun c => wf_clause c = true) cs.

Lemma wf_opt_any : forall A (o : option A), wf_opt (fun _ => true) o = true.
Proof. intros A [a|]; reflexivity. Qed.

Lemma Forall_optl : forall A (o : option A) (f : A -> clause) (p : A -> bool) (Q : clause -> Prop) r,
  wf_opt p o = true -> (forall a, p a = true -> Q (f a)) -> Forall Q r -> Forall Q (optl o f ++ r).
Proof. intros A [a|] f p Q r Ho Hf Hr; cbn [optl app]; auto. Qed.

Lemma wf_query_parts : forall q, wf_query q = true ->
  wf_ident (q_event q) = true /\ forallb (fun l => wf_ident (snd l)) (q_seq q) = true /\ all_wf (query_clauses q).
Proof.
  intros q H. unfold wf_query in H. rewrite !andb_true_iff in H.
  destruct H as [[[[[[[[[[[[[He Hs] ?] ?] ?] ?] ?] ?] ?] ?] ?] ?] ?] ?]. split; [exact He|]. split; [exact Hs|].
  (* the conjuncts of [wf_query] are not in the order of [query_clauses]: [eassumption] finds the one of each clause,
     and the bucket, which has none, takes [wf_opt_any] *)
  pose proof (wf_opt_any _ (q_bucket q)). unfold query_clauses. rewrite <- (app_nil_r (optl (q_offset q) ClOffset)).
  repeat (eapply Forall_optl; [eassumption|intros a Ha; cbn [wf_clause]; rewrite ?andb_true_r; exact Ha|]). constructor.
Qed.

Lemma ctail_cons : forall c cs, ctail (c :: cs) = 32 :: print_clause c ++ ctail cs.
Proof. reflexivity. Qed.

Lemma ctail_head : forall cs, head_is is_alpha (ctail cs) = false.
Proof. intros [|c r]; reflexivity. Qed.

Lemma next_follow : forall c cs, above (S (rank c)) cs -> all_wf cs -> cfollow c (ctail cs).
Proof.
  intros c [|c' cs'] Ha Hw; [left; reflexivity|right].
  cbn [above] in Ha. destruct Ha as [Hr _]. inversion Hw as [|x y Hc' Hw']; subst.
  rewrite ctail_cons.
  destruct (clause_shape c' (ctail cs') Hc' (ctail_head cs')) as (r & E & Hr1 & Ho).
  rewrite E. exists (first_kw c'), r. repeat split; auto using first_kw_word. apply rank_allowed; auto.
Qed.

Lemma ws_ctail : forall c cs, all_wf (c :: cs) ->
  ws (ctail (c :: cs)) = print_clause c ++ ctail cs /\ (1 <= length (print_clause c))%nat.
Proof.
  intros c cs Hw. inversion Hw as [|a b Hc Hcs]; subst. rewrite ctail_cons, ws_space.
  destruct (clause_shape c (ctail cs) Hc (ctail_head cs)) as (r & E & _ & _).
  pose proof (sp_alpha_head sp Hsp (first_kw c) r (first_kw_word c)) as Ha. rewrite <- E in Ha.
  split; [apply ws_nows, alpha_not_ws, Ha|].
  destruct (print_clause c); [cbn [app] in Ha; rewrite ctail_head in Ha; discriminate|cbn [length]; lia].
Qed.

Definition cstep : P clause := let* _ := skip in clause_p fx.

Lemma cstep_ws : forall r r', ws r = ws r' -> cstep r = cstep r'.
Proof. intros r r' H. unfold cstep. rewrite !skip_bind, H. reflexivity. Qed.

Definition GoodC (cs : list clause) : Prop := exists n, above n cs /\ all_wf cs.

Lemma clauses_parse : forall cs, GoodC cs ->
  exists r', many (S (length (ws (ctail cs)))) cstep (ws (ctail cs)) = Ok (cs, r') /\ ws r' = [].
Proof.
  intros cs HG.
  apply (many_seq _ cstep (fun r r' => ws r = ws r') (fun xs => ws (ctail xs)) GoodC cstep_ws); auto using ws_idem.
  intros x xs (n & Ha & Hw). cbn [above] in Ha. destruct Ha as [Hn Ha]. inversion Hw as [|a b Hx Hxs]; subst.
  destruct (ws_ctail x xs Hw) as [E Hl].
  split; [exists (S (rank x)); auto|]. split; [rewrite E, app_length; pose proof (ws_length (ctail xs)); lia|].
  exists (clause_rest x (ctail xs)). split; [|rewrite ws_clause_rest, ws_idem; reflexivity].
  unfold cstep. rewrite skip_bind, ws_idem, E. apply clause_rt; auto using next_follow.
Qed.

Definition lstep : P (seqlink * bytes) :=
  let* _ := skip in let* l := seq_link in let* _ := skip in let* t := identp in ret (l, t).

Lemma lstep_ws : forall r r', ws r = ws r' -> lstep r = lstep r'.
Proof. intros r r' H. unfold lstep. rewrite !skip_bind, H. reflexivity. Qed.

Definition link_kw (d : seqlink) : bytes := match d with FollowedBy => K_FOLLOWED | PrecededBy => K_PRECEDED end.

Lemma seq_link_rt : forall d r, head_is is_alpha r = false ->
  seq_link (sp (link_kw d) ++ 32 :: sp K_BY ++ r) = Ok (d, r).
Proof.
  intros d r Hr. unfold seq_link. destruct d; cbn [link_kw].
  - apply alt_ok. rewrite kw_skip, kw_same by auto with nows. reflexivity.
  - rewrite alt_err by (apply kw_bind_err, (ci_spell_other sp Hsp); auto). rewrite kw_skip, kw_same by auto with nows. reflexivity.
Qed.

Lemma link_rt : forall l rest, wf_ident (snd l) = true -> head_ok rest = true ->
  lstep (print_link sp l ++ rest) = Ok (l, rest).
Proof.
  intros [d e] rest He Hr. cbn [snd] in He. unfold lstep, print_link. cbn [fst snd]. fold (link_kw d). norm_app.
  rewrite skip_bind, ws_space, ws_nows by (destruct d; auto with nows).
  rewrite (bind_ok (seq_link_rt d (32 :: _) eq_refl)), skip_bind, ws_space, ws_nows by auto with nows.
  apply bind_ret, identp_ok; auto using head_ok_fld_stop.
Qed.

Lemma seq_link_led : led_by [K_FOLLOWED; K_PRECEDED] seq_link.
Proof. apply (first_of_led _ [([K_FOLLOWED], _); ([K_PRECEDED], _)]). repeat constructor; apply kw_led. Qed.

Lemma lstep_end : forall cs, all_wf cs -> lstep (ctail cs) = Err.
Proof.
  intros [|c cs'] Hw; [reflexivity|]. unfold lstep. rewrite skip_bind, (proj1 (ws_ctail c cs' Hw)).
  inversion Hw as [|a b Hc Hcs]; subst.
  destruct (clause_shape c (ctail cs') Hc (ctail_head cs')) as (r & E & Hr & _). rewrite E.
  apply bind_err, seq_link_led; auto using first_kw_word.
  destruct c as [| | | | | | |[|[[|]| | | | |] ?]| | | | |]; reflexivity.
Qed.

Lemma links_parse : forall ls cs, forallb (fun l => wf_ident (snd l)) ls = true -> all_wf cs ->
  exists r', many (S (length (flat_map (print_link sp) ls ++ ctail cs))) lstep (flat_map (print_link sp) ls ++ ctail cs)
             = Ok (ls, r') /\ ws r' = ws (ctail cs).
Proof.
  intros ls cs Hl Hw.
  apply (many_seq _ lstep (fun r r' => ws r = ws r') (fun ls => flat_map (print_link sp) ls ++ ctail cs)
           (fun ls => forallb (fun l => wf_ident (snd l)) ls = true) lstep_ws);
    [|exact (lstep_end cs Hw)|exact Hl|apply Nat.lt_succ_diag_r|reflexivity].
  intros l ls' H. cbn [forallb] in H. apply andb_prop in H as [H1 H2]. split; [exact H2|].
  cbn [flat_map]. rewrite <- app_assoc. split; [rewrite (app_length (print_link sp l)); unfold print_link at 2; cbn [length]; lia|].
  exists (flat_map (print_link sp) ls' ++ ctail cs). split; [|reflexivity].
  apply link_rt; auto. destruct ls' as [|[d e] ?]; [destruct cs|]; reflexivity.
Qed.

Theorem parse_print_query : forall q, wf_query q = true -> parse_query fx (print_query sp q) = Ok q.
Proof.
  intros q Hq. destruct (wf_query_parts q Hq) as (Hev & Hls & Hcw). pose proof (clauses_sorted q) as Hcs.
  rewrite print_query_eq, <- flat_map_concat_map.
  unfold parse_query, query_rule.
  rewrite skip_bind, ws_nows by auto with nows.
  rewrite (bind_ok (alt_ok _ _ _ _ _ (kw_ok _ _ _ (ci_spell sp Hsp K_QUERY (32 :: _) eq_refl eq_refl)))).
  rewrite skip_bind, ws_space, ws_nows by auto with nows.
  assert (Hrest : head_ok (flat_map (print_link sp) (q_seq q) ++ ctail (query_clauses q)) = true).
  { destruct (q_seq q) as [|[d e] ls']; [destruct (query_clauses q); reflexivity|reflexivity]. }
  destruct (links_parse (q_seq q) (query_clauses q) Hls Hcw) as (r1 & E1 & Hr1).
  assert (Ees : event_sequence (q_event q ++ flat_map (print_link sp) (q_seq q) ++ ctail (query_clauses q))
                = Ok ((q_event q, q_seq q), r1)).
  { unfold event_sequence. rewrite (bind_ok (identp_ok _ _ Hev (head_ok_fld_stop _ Hrest))).
    exact (bind_ret _ _ (many_self lstep) (fun t => (q_event q, t)) _ _ _ E1). }
  rewrite (bind_ok Ees), skip_bind, Hr1.
  destruct (clauses_parse (query_clauses q)) as (r' & E & Hr'); [exists 0%nat; auto|].
  rewrite (bind_ok (p := many_self cstep) E), skip_bind, Hr'. cbn [fst snd]. rewrite fold_clauses. reflexivity.
Qed.

End QRT.
