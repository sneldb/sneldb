(** Printing then parsing a well-formed Query command through the public entry point
    [parse_command] (trim, tokenize + validate, switch on the first word, peg grammar). *)
From Coq Require Import NArith ZArith Arith List Bool Lia.
From Coq Require Import ZifyBool ZifyNat ZifyN.
From Snel Require Import Base.Bytes Model.Tokenizer Model.Parser Model.Command Model.Printer
  Proofs.ParserBasics Proofs.ExprRoundTrip Proofs.QueryRoundTrip Proofs.LexProofs.
Import ListNotations.
Open Scope N_scope.

Section CRT.
Variable sp : bytes -> bytes.
Hypothesis Hsp : speller_ok sp.

Lemma kw_piece : forall K, word K = true -> piece (sp K).
Proof.
  intros K HK. apply (speller_word sp K Hsp), word_spec in HK as [Hal Hn].
  destruct (forallb_outc_edge is_alpha (sp K) alpha_outc Hal) as [H1 H2]. apply piece_of_chars; auto.
Qed.

Lemma ident_chars : forall i, ident_syntax i = true -> i <> [] /\ forallb outc i = true /\ forallb edge_ok i = true.
Proof.
  intros [|c r] H; [discriminate|]. cbn [ident_syntax] in H. apply andb_prop in H as [Hc Hr].
  assert (Hc' : is_ident_char c = true) by (unfold is_ident_start, is_alpha in Hc; unfold is_ident_char, is_alpha, is_digit; lia).
  destruct (identchar_outc c Hc') as [C1 C2]. destruct (forallb_outc_edge is_ident_char r identchar_outc Hr) as [R1 R2].
  split; [congruence|]. cbn [forallb]. rewrite C1, C2, R1, R2. auto.
Qed.

Lemma ident_piece : forall i, wf_ident i = true -> piece i.
Proof. intros i H. destruct (ident_chars i (wf_ident_syntax _ H)) as (H0 & H1 & H2). apply piece_of_chars; auto. Qed.

Lemma field_piece : forall f, wf_field f = true -> piece f.
Proof.
  intros f Hf. destruct (wf_field_cases f Hf) as [Ha|(a & b2 & -> & Ha & Hb)]; [apply ident_piece, Ha|].
  destruct (ident_chars a (wf_ident_syntax _ Ha)) as (A0 & A1 & A2).
  destruct (ident_chars b2 Hb) as (B0 & B1 & B2). apply piece_of_chars.
  - destruct a; [congruence|discriminate].
  - rewrite forallb_app. cbn [forallb]. rewrite A1, B1. reflexivity.
  - rewrite forallb_app. cbn [forallb]. rewrite A2, B2. reflexivity.
Qed.

Lemma quoted_piece : forall s, no_quote s = true -> no_backslash s = true -> piece (quoted s).
Proof.
  intros s H1 H2. split; [apply neutral_quoted; auto|]. apply (endok_last (34 :: s)). reflexivity.
Qed.

Lemma digits_piece : forall d, d <> [] -> all_digits d = true -> piece d.
Proof.
  intros d Hne Hd. destruct (forallb_outc_edge is_digit d digit_outc Hd) as [H1 H2]. apply piece_of_chars; auto.
Qed.

Lemma dec_of_N_piece : forall n, piece (dec_of_N n).
Proof. intro n. destruct (dec_of_N_spec n) as (H1 & H2 & _). apply digits_piece; auto. Qed.

Lemma val_piece : forall v, wf_val v = true -> clean_val v = true -> piece (print_val v).
Proof.
  intros [s|z|neg d fd|bv] Hw Hc; cbn [print_val wf_val clean_val] in *.
  - apply quoted_piece; auto.
  - destruct (dec_of_Z_shape z) as (neg & d & E & Hd & Hne & _). rewrite E.
    destruct neg; [apply (piece_cons 45); [reflexivity|]|]; apply digits_piece; auto.
  - destruct (wf_float_parts neg d fd Hw) as (Hd & Hfd & Hdne & Hfne & _).
    assert (P : piece (d ++ 46 :: fd)).
    { destruct (digits_piece d Hdne Hd) as [N1 _]. apply piece_app; auto. apply piece_cons; [reflexivity|]. apply digits_piece; auto. }
    destruct neg; [apply (piece_cons 45); [reflexivity|exact P]|exact P].
  - discriminate.
Qed.

Lemma op_piece : forall o, piece (print_op o).
Proof. intros []; apply piece_of_chars; try reflexivity; discriminate. Qed.

Lemma list_neutral : forall A (pr : A -> bytes) (l : list A), (forall x, In x l -> neutral (pr x)) -> neutral (sep_print pr l).
Proof.
  intros A pr [|x l] H; [apply neutral_nil|]. unfold sep_print.
  apply neutral_app; [apply H; left; reflexivity|]. apply neutral_flat_map, Forall_forall. intros y Hy.
  apply neutral_cons; [reflexivity|]. apply neutral_cons; [reflexivity|]. apply H. right. exact Hy.
Qed.

Lemma list_piece : forall A (pr : A -> bytes) (l : list A), l <> [] -> (forall x, In x l -> piece (pr x)) -> piece (sep_print pr l).
Proof.
  intros A pr [|x l] Hne H; [congruence|]. unfold sep_print.
  apply piece_flat_map; [apply H; left; reflexivity|]. apply Forall_forall. intros y Hy.
  apply piece_cons; [reflexivity|]. apply piece_cons; [reflexivity|]. apply H. right. exact Hy.
Qed.

Lemma paren_piece : forall (need : bool) s, piece s -> piece (if need then 40 :: s ++ [41] else s).
Proof. intros [] s P; [apply piece_wrap; try reflexivity; apply P|exact P]. Qed.

(** the printed texts are pieces joined by single spaces *)
Local Hint Resolve piece_blank kw_piece ident_piece field_piece quoted_piece dec_of_N_piece val_piece op_piece : piece.

Lemma expr_piece : forall e lvl, wf_expr e = true -> clean_expr e = true -> piece (print_expr_at sp lvl e).
Proof.
  induction e as [f o v | f vs | x IHx y IHy | x IHx y IHy | x IHx]; intros lvl Hw Hc.
  - destruct (wf_cmp sp f o v lvl Hw) as [Hf [(-> & -> & E)|(Hv & E)]]; rewrite E; auto with piece.
  - cbn [wf_expr clean_expr print_expr_at] in *. apply andb_prop in Hw as [Hf Hv].
    rewrite forallb_forall in Hv, Hc.
    apply piece_blank; auto with piece. apply piece_blank; auto with piece. apply piece_wrap; try reflexivity.
    apply list_neutral. intros v Hv'. apply val_piece; auto.
  - cbn [wf_expr clean_expr print_expr_at] in *. apply andb_prop in Hw as [Hx Hy]. apply andb_prop in Hc as [Cx Cy].
    apply paren_piece. auto with piece.
  - cbn [wf_expr clean_expr print_expr_at] in *. apply andb_prop in Hw as [Hx Hy]. apply andb_prop in Hc as [Cx Cy].
    apply paren_piece. auto with piece.
  - cbn [wf_expr clean_expr print_expr_at] in *. auto with piece.
Qed.

Definition clean_clause (c : clause) : bool :=
  match c with
  | ClFor s | ClSince s => no_backslash s
  | ClWhere e => clean_expr e
  | ClReturn l => forallb no_backslash l
  | _ => true
  end.

Lemma agg_piece : forall a, wf_agg a = true -> piece (print_agg sp a).
Proof. intros [[f|]|f|f|f|f|f] H; cbn [print_agg wf_agg] in *; auto 6 with piece. Qed.

Lemma clause_piece : forall c, wf_clause c = true -> clean_clause c = true -> piece (print_clause sp c).
Proof.
  intros c Hw Hc. destruct c as [s|s|l|f|e|f|f|l|g u|l u|n|n|f d]; cbn [print_clause wf_clause clean_clause] in *;
    auto 6 with piece.
  - (* RETURN *) rewrite forallb_forall in Hw, Hc. apply piece_blank; auto with piece. apply piece_wrap; try reflexivity.
    apply list_neutral. intros x Hx. apply (quoted_piece x); auto.
  - (* WHERE *) apply piece_blank; auto with piece. apply expr_piece; auto.
  - (* aggregates *) apply andb_prop in Hw as [Hne Hl]. rewrite forallb_forall in Hl.
    apply list_piece; [apply negb_nil, Hne|]. intros x Hx. apply agg_piece; auto.
  - (* PER *) destruct g; auto with piece.
  - (* BY *) apply andb_prop in Hw as [Hw _]. apply andb_prop in Hw as [Hne Hl]. rewrite forallb_forall in Hl.
    apply piece_blank; auto with piece. apply list_piece; [apply negb_nil, Hne|]. auto with piece.
  - (* ORDER BY *) destruct d; auto 6 with piece.
Qed.

Definition all_clean (cs : list clause) : Prop := Forall (fun c => clean_clause c = true) cs.

Lemma clauses_clean : forall q, clean_query q = true -> all_clean (query_clauses q).
Proof.
  intros q H. unfold clean_query in H. rewrite !andb_true_iff in H. destruct H as [[[? ?] ?] ?].
  unfold query_clauses. rewrite <- (app_nil_r (optl (q_offset q) ClOffset)).
  repeat (eapply Forall_optl; [first [eassumption|apply wf_opt_any]|intros a Ha; exact Ha|]). constructor.
Qed.

Lemma link_piece : forall l, wf_ident (snd l) = true -> piece (print_link sp l).
Proof.
  intros [d e] H. cbn [snd] in H. unfold print_link. cbn [fst snd].
  apply piece_cons; [reflexivity|]. destruct d; auto 6 with piece.
Qed.

Lemma query_text_piece : forall q, wf_query q = true -> clean_query q = true -> piece (print_query sp q).
Proof.
  intros q Hq Hc. destruct (wf_query_parts q Hq) as (Hev & Hls & Hcw). pose proof (clauses_clean q Hc) as Hcc.
  rewrite (print_query_eq sp), <- flat_map_concat_map.
  change (sp K_QUERY ++ 32 :: q_event q ++ ?x) with (sp K_QUERY ++ (32 :: q_event q) ++ x). rewrite !app_assoc.
  apply piece_flat_map; [apply piece_flat_map|].
  - auto with piece.
  - rewrite forallb_forall in Hls. apply Forall_forall. intros l Hl. apply link_piece; auto.
  - apply Forall_forall. intros c Hin. unfold all_wf, all_clean in *. rewrite Forall_forall in Hcw, Hcc.
    apply piece_cons; [reflexivity|]. apply clause_piece; auto.
Qed.

End CRT.

Theorem parse_print_command : forall fx sp q, speller_ok sp -> wf_query q = true -> clean_query q = true ->
  parse_command fx (print_query sp q) = POk (CQuery q).
Proof.
  intros fx sp q Hsp Hq Hc.
  rewrite (parse_command_query fx _ (sp K_QUERY) _ (query_text_piece sp Hsp q Hq Hc) (print_query_eq sp q)
             (speller_word sp K_QUERY Hsp eq_refl) eq_refl).
  - rewrite (parse_print_query fx sp Hsp q Hq). reflexivity.
  - apply ci_eqb_upper, Hsp.
Qed.
