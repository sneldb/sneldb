(** Proofs about Model/SipHash.v (C12): the hash is a 64-bit value, [route] lands below the
    shard count, and known answers of the reference SipHash-1-3 / of Rust's DefaultHasher. *)
From Coq Require Import NArith List Lia.
From Coq Require Import ZifyBool ZifyNat ZifyN.
From Snel Require Import Gen.Params Model.SipHash.
Import ListNotations.
Open Scope N_scope.

Lemma m64_pos : 0 < m64. Proof. reflexivity. Qed.

Lemma lt_pow2_log2 : forall a n, a < 2 ^ n -> a = 0 \/ N.log2 a < n.
Proof.
  intros a n H. destruct (N.eq_dec a 0) as [->|Hnz]; [left; reflexivity|right].
  apply N.log2_lt_pow2; [lia|exact H].
Qed.

Lemma bitop_lt_pow2 : forall op : N -> N -> N,
  (forall a b, N.log2 (op a b) <= N.max (N.log2 a) (N.log2 b)) ->
  (forall b, op 0 b = b) -> (forall a, op a 0 = a) ->
  forall a b n, a < 2 ^ n -> b < 2 ^ n -> op a b < 2 ^ n.
Proof.
  intros op Hl H0l H0r a b n Ha Hb.
  destruct (lt_pow2_log2 _ _ Ha) as [->|Ha']; [rewrite H0l; exact Hb|].
  destruct (lt_pow2_log2 _ _ Hb) as [->|Hb']; [rewrite H0r; exact Ha|].
  destruct (N.eq_dec (op a b) 0) as [->|Hnz]; [apply N.neq_0_lt_0, N.pow_nonzero; lia|].
  apply N.log2_lt_pow2; [lia|]. specialize (Hl a b). lia.
Qed.

Lemma lor_lt_pow2 : forall a b n, a < 2 ^ n -> b < 2 ^ n -> N.lor a b < 2 ^ n.
Proof. apply (bitop_lt_pow2 N.lor); [|exact N.lor_0_l|exact N.lor_0_r]. intros a b. rewrite N.log2_lor. apply N.le_refl. Qed.

Lemma add64_lt : forall a b, add64 a b < m64.
Proof. intros. unfold add64. apply N.mod_lt. discriminate. Qed.

Lemma rotl64_lt : forall x r, x < m64 -> rotl64 x r < m64.
Proof.
  intros x r Hx. unfold rotl64, m64 in *. apply lor_lt_pow2.
  - apply N.mod_lt. discriminate.
  - rewrite N.shiftr_div_pow2. apply N.le_lt_trans with x; [|exact Hx].
    apply N.div_le_upper_bound; [apply N.pow_nonzero; lia|].
    assert (1 <= 2 ^ (64 - r)) by (apply N.lt_pred_le, N.neq_0_lt_0, N.pow_nonzero; lia). nia.
Qed.

Definition wf (s : sip) : Prop := v0 s < m64 /\ v1 s < m64 /\ v2 s < m64 /\ v3 s < m64.

Lemma wf_mk : forall a b c d, a < m64 -> b < m64 -> c < m64 -> d < m64 -> wf (mkSip a b c d).
Proof. intros. repeat split; assumption. Qed.

Lemma xor64 : forall a b, a < m64 -> b < m64 -> N.lxor a b < m64.
Proof. intros a b. exact (bitop_lt_pow2 N.lxor N.log2_lxor N.lxor_0_l N.lxor_0_r a b 64). Qed.

Lemma sipround_wf : forall s, wf s -> wf (sipround s).
Proof.
  intros s (H0 & H1 & H2 & H3). apply wf_mk;
    repeat first [apply add64_lt | apply rotl64_lt | apply xor64 | assumption].
Qed.

Lemma rounds_wf : forall n s, wf s -> wf (rounds n s).
Proof. induction n as [|n IH]; intros s H; cbn [rounds]; [exact H|]. apply IH, sipround_wf, H. Qed.

Lemma absorb_wf : forall c s m, wf s -> m < m64 -> wf (absorb c s m).
Proof.
  intros c s m (H0 & H1 & H2 & H3) Hm.
  assert (Hin : wf (mkSip (v0 s) (v1 s) (v2 s) (N.lxor (v3 s) m))) by (apply wf_mk; auto using xor64).
  destruct (rounds_wf c _ Hin) as (A0 & A1 & A2 & A3). apply wf_mk; auto using xor64.
Qed.

Lemma le_word_lt : forall bs, le_word bs < 256 ^ N.of_nat (length bs).
Proof.
  induction bs as [|b r IH]; cbn [le_word length]; [reflexivity|].
  rewrite Nat2N.inj_succ, N.pow_succ_r'.
  assert (b mod 256 < 256) by (apply N.mod_lt; discriminate). lia.
Qed.

Lemma sip_blocks_spec : forall c bs s s' tail,
  wf s -> sip_blocks c s bs = (s', tail) -> wf s' /\ (length tail < 8)%nat.
Proof.
  (* by the recursion of [sip_blocks]: eight bytes at a time *)
  intro c. fix IH 1. intros bs s s' tail Hwf E.
  destruct bs as [|b0 [|b1 [|b2 [|b3 [|b4 [|b5 [|b6 [|b7 rest]]]]]]]];
    try (inversion E; subst; split; [exact Hwf|cbn [length]; lia]).
  cbn [sip_blocks] in E. apply (IH rest _ _ _ (absorb_wf c s _ Hwf (le_word_lt [b0; b1; b2; b3; b4; b5; b6; b7])) E).
Qed.

Lemma sip_init_wf : forall k0 k1, k0 < m64 -> k1 < m64 -> wf (sip_init k0 k1).
Proof. intros k0 k1 H0 H1. apply wf_mk; apply xor64; try assumption; reflexivity. Qed.

Lemma siphash_lt : forall c d k0 k1 msg, k0 < m64 -> k1 < m64 -> siphash c d k0 k1 msg < m64.
Proof.
  intros c d k0 k1 msg H0 H1. unfold siphash.
  destruct (sip_blocks c (sip_init k0 k1) msg) as [s tail] eqn:E.
  destruct (sip_blocks_spec _ _ _ _ _ (sip_init_wf _ _ H0 H1) E) as (Hs & Ht).
  set (b := _ + le_word tail).
  assert (Hb : b < m64).
  { unfold b. pose proof (le_word_lt tail) as Hw.
    assert (256 ^ N.of_nat (length tail) <= 256 ^ 7) by (apply N.pow_le_mono_r; lia).
    assert (N.of_nat (length msg) mod 256 < 256) by (apply N.mod_lt; discriminate).
    change (256 ^ 7) with (2 ^ 56) in *. change m64 with (256 * 2 ^ 56). nia. }
  destruct (absorb_wf c s b Hs Hb) as (A0 & A1 & A2 & A3).
  set (fin := mkSip _ _ _ _). assert (Hin : wf fin) by (apply wf_mk; try assumption; apply xor64; [assumption|reflexivity]).
  destruct (rounds_wf d _ Hin) as (B0 & B1 & B2 & B3). repeat apply xor64; assumption.
Qed.

Lemma default_hash_str_lt : forall ctx, default_hash_str ctx < 2 ^ 64.
Proof. intro ctx. unfold default_hash_str. apply siphash_lt; reflexivity. Qed.

Lemma route_lt_n : forall ctx n r, route ctx n = Some r -> r < n.
Proof.
  intros ctx n r H. unfold route in H. destruct (N.eqb_spec n 0) as [->|Hn]; [discriminate|].
  inversion H. apply N.mod_lt. exact Hn.
Qed.

Lemma route_some : forall ctx n, n <> 0 -> exists r, route ctx n = Some r /\ r < n.
Proof.
  intros ctx n Hn. unfold route. destruct (N.eqb_spec n 0) as [E|_]; [contradiction|].
  eexists. split; [reflexivity|]. apply N.mod_lt. exact Hn.
Qed.

Lemma route_none_iff : forall ctx n, route ctx n = None <-> n = 0.
Proof. intros ctx n. unfold route. destruct (N.eqb_spec n 0); split; intro; congruence. Qed.

(** The pointer-width truncation is the identity ([route_usize_bits] = 64): the shard is hash mod n. *)
Lemma route_is_hash_mod : forall ctx n, n <> 0 -> route ctx n = Some (default_hash_str ctx mod n).
Proof.
  intros ctx n Hn. unfold route. destruct (N.eqb_spec n 0) as [E|_]; [contradiction|].
  change route_usize_bits with 64. rewrite (N.mod_small (default_hash_str ctx)); [reflexivity|]. apply default_hash_str_lt.
Qed.

(** Known answers.  SipHash-1-3 under the reference key 00 .. 0f of the messages (), 00..07 and
    00..0e: entries 0, 8 and 15 of the vector table of Rust's core tests ([test_siphash_1_3]);
    and Rust's [DefaultHasher] on "" and "a" as observed on sneldb's rust-toolchain. *)
Example siphash13_reference_vectors :
  siphash 1 3 506097522914230528 1084818905618843912 [] = 12370263754033579228 /\
  siphash 1 3 506097522914230528 1084818905618843912 [0;1;2;3;4;5;6;7] = 3931806377309739662 /\
  siphash 1 3 506097522914230528 1084818905618843912
    [0;1;2;3;4;5;6;7;8;9;10;11;12;13;14] = 15213397504630561110.
Proof. vm_compute. repeat split; reflexivity. Qed.

Example default_hasher_known_answers :
  default_hash_str [] = 3476900567878811119 /\ default_hash_str [97] = 8186225505942432243.
Proof. vm_compute. split; reflexivity. Qed.
