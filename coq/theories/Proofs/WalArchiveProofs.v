(** Proofs about Model/WalArchive.v (C19). *)
From Coq Require Import ZArith List Bool Lia.
From Coq Require Import ZifyBool ZifyNat ZifyN.
From Snel Require Import Base.Bytes Gen.Params Model.WalArchive Proofs.BytesFacts Proofs.ListFacts Proofs.AssocFacts Proofs.DecimalFacts.
Import ListNotations.
Open Scope N_scope.

(** [d] is a decimal numeral of [n]: what a reader of numbers needs to know of a printed field *)
Definition numeral (d : bytes) (n : N) : Prop := all_digit d /\ d <> [] /\ dec_val d = n.

Lemma dec_of_N_numeral : forall n, numeral (dec_of_N n) n.
Proof. intro n. destruct (dec_of_N_digits n) as (H1 & H2 & H3 & _). repeat split; assumption. Qed.

Lemma pad_dec_numeral : forall w n, w <> 0%nat -> numeral (pad_dec w n) n.
Proof.
  intros w n Hw. unfold pad_dec. destruct (N.ltb_spec n (10 ^ N.of_nat w)) as [H|H]; [|apply dec_of_N_numeral].
  split; [apply pad_digits_digit|]. split; [|rewrite pad_digits_val; apply N.mod_small, H].
  intro E. apply (f_equal (@length N)) in E. rewrite pad_digits_length in E. exact (Hw E).
Qed.

Lemma numeral_inj : forall d n n', numeral d n -> numeral d n' -> n = n'.
Proof. intros d n n' (_ & _ & H) (_ & _ & H'). congruence. Qed.

(* one direction of [BytesFacts.bytes_eqb_neq], an iff, which this name hides where WalArchiveProofs is imported later *)
Lemma bytes_eqb_neq : forall a b, bytes_eqb a b = false -> a <> b.
Proof. intros a b. apply BytesFacts.bytes_eqb_neq. Qed.

Lemma bytes_eqb_sym : forall a b, bytes_eqb a b = bytes_eqb b a.
Proof. exact BytesFacts.bytes_eqb_sym. Qed.

Lemma lookup_put_same : forall A n (o : A) d, lookup n (put n o d) = Some o.
Proof.
  intros A n o d. induction d as [|[n' o'] r IH]; cbn [put lookup].
  - rewrite bytes_eqb_refl. reflexivity.
  - destruct (bytes_eqb n n') eqn:E; cbn [lookup]; [rewrite bytes_eqb_refl; reflexivity|].
    rewrite E. exact IH.
Qed.

Lemma lookup_put_other : forall A n m (o : A) d, bytes_eqb n m = false -> lookup n (put m o d) = lookup n d.
Proof.
  intros A n m o d Hnm. induction d as [|[n' o'] r IH]; cbn [put lookup].
  - rewrite Hnm. reflexivity.
  - destruct (bytes_eqb m n') eqn:E; cbn [lookup].
    + apply bytes_eqb_eq in E. subst n'. rewrite Hnm. reflexivity.
    + destruct (bytes_eqb n n'); [reflexivity|exact IH].
Qed.

Definition names {A} (d : list (bytes * A)) : list bytes := map fst d.

Lemma lookup_in : forall A n (o : A) d, lookup n d = Some o -> In (n, o) d.
Proof. intro A. apply (assoc_In bytes_eqb _ bytes_eqb_eq); reflexivity. Qed.

Lemma in_lookup : forall A n (o : A) d, NoDup (names d) -> In (n, o) d -> lookup n d = Some o.
Proof. intro A. apply (In_assoc bytes_eqb _ bytes_eqb_eq); reflexivity. Qed.

Lemma lookup_none_not_in : forall A n (o : A) d, lookup n d = None -> ~ In (n, o) d.
Proof.
  intros A n o d H Hin. apply (assoc_none_iff bytes_eqb lookup bytes_eqb_eq) in H; [|reflexivity..].
  apply H. change n with (fst (n, o)). now apply in_map.
Qed.

Lemma dec_fold_ge : forall s acc, acc <= fold_left dec_step s acc.
Proof.
  induction s as [|c s IH]; intro acc; cbn [fold_left]; [reflexivity|].
  etransitivity; [|apply IH]. unfold dec_step. lia.
Qed.

(** on digits whose value fits u64, the reader's evaluator is the fold of Proofs/DecimalFacts.v *)
Lemma digits_val_ok : forall s acc,
  all_digit s -> fold_left dec_step s acc <= u64_max -> digits_val s acc = Some (fold_left dec_step s acc).
Proof.
  intros s acc Hd. revert acc.
  induction Hd as [|c s H1 H2 IH]; intros acc Hv; cbn [digits_val fold_left] in *; [reflexivity|].
  rewrite H1, (N.mul_comm acc 10). fold (dec_step acc c).
  pose proof (dec_fold_ge s (dec_step acc c)) as Hge.
  destruct (N.leb_spec (dec_step acc c) u64_max) as [_|Hgt]; [|lia]. apply IH, Hv.
Qed.

Lemma digits_val_le : forall s acc n, digits_val s acc = Some n -> acc <= u64_max -> n <= u64_max.
Proof.
  induction s as [|c s IH]; intros acc n H Ha; cbn [digits_val] in H.
  - inversion H. subst. exact Ha.
  - destruct (is_digit c); [|discriminate].
    destruct (N.leb_spec (acc * 10 + digit_val c) u64_max) as [Hle|_]; [|discriminate]. eapply IH; eassumption.
Qed.

Lemma parse_u64_le : forall s n, parse_u64 s = Some n -> n <= u64_max.
Proof.
  intros s n H. unfold parse_u64 in H.
  destruct (match s with [] => s | c :: r => if c =? 43 then r else s end) as [|c r]; [discriminate|].
  eapply digits_val_le; [exact H|]. unfold u64_max. lia.
Qed.

Lemma parse_u64_numeral : forall d n, numeral d n -> n <= u64_max -> parse_u64 d = Some n.
Proof.
  intros [|c r] n (Hd & Hne & <-) Hv; [congruence|]. unfold parse_u64.
  assert (Hc : (c =? 43) = false).
  { inversion Hd as [|? ? H1 _]. unfold is_digit in H1. lia. }
  rewrite Hc. apply digits_val_ok; assumption.
Qed.

Lemma parse_log_name_le : forall n id, parse_log_name n = Some id -> id <= u64_max.
Proof.
  intros n id H. unfold parse_log_name in H.
  destruct (strip_prefix walarch_log_prefix n); [|discriminate].
  destruct (strip_suffix walarch_log_suffix b); [|discriminate]. eapply parse_u64_le; exact H.
Qed.

Lemma split_on_nonempty : forall c s, exists h t, split_on c s = h :: t.
Proof.
  intros c s. induction s as [|x s IH]; cbn [split_on]; [eauto|].
  destruct (x =? c); [eauto|]. destruct IH as (h & t & ->). eauto.
Qed.

Lemma split_on_app_sep : forall c a r, split_on c (a ++ c :: r) = split_on c a ++ split_on c r.
Proof.
  intros c a r. induction a as [|x a IH]; cbn [app split_on].
  - rewrite N.eqb_refl. reflexivity.
  - destruct (x =? c); [rewrite IH; reflexivity|].
    rewrite IH. destruct (split_on_nonempty c a) as (h & t & ->). reflexivity.
Qed.

Lemma split_on_no_sep : forall c l, forallb (fun x => negb (x =? c)) l = true -> split_on c l = [l].
Proof.
  intros c l. induction l as [|x l IH]; intro H; cbn [split_on]; [reflexivity|].
  cbn [forallb] in H. apply andb_true_iff in H. destruct H as [H1 H2]. apply negb_true_iff in H1.
  rewrite H1, (IH H2). reflexivity.
Qed.

Lemma numeral_no_sep : forall d n,
  numeral d n -> forallb (fun x => negb (x =? walarch_key_sep)) d = true.
Proof.
  intros d n (H & _). apply forallb_forall. intros x Hx. apply (proj1 (Forall_forall _ _) H) in Hx.
  unfold walarch_key_sep, is_digit in *. lia.
Qed.

Lemma strip_prefix_app : forall p y, strip_prefix p (p ++ y) = Some y.
Proof. induction p as [|c p IH]; intro y; cbn [app strip_prefix]; [reflexivity|]. rewrite N.eqb_refl. apply IH. Qed.

Lemma strip_suffix_app : forall q x, strip_suffix q (x ++ q) = Some x.
Proof. intros q x. unfold strip_suffix. rewrite rev_app_distr, strip_prefix_app, rev_involutive. reflexivity. Qed.

(** the scan reads back the id of the name [archive_log] opens *)
Lemma parse_log_name_log_name : forall id, id <= u64_max -> parse_log_name (log_name id) = Some id.
Proof.
  intros id Hi. unfold parse_log_name, log_name. rewrite strip_prefix_app, strip_suffix_app.
  apply parse_u64_numeral; [apply pad_dec_numeral; discriminate|exact Hi].
Qed.

(** what [generate_filename] writes is what [archive_sort_key] and the ".zst" filter read (constants
    regenerated independently) *)
Lemma name_pieces_agree :
  walarch_arch_prefix = walarch_key_prefix /\ walarch_arch_suffix = walarch_key_suffix /\
  walarch_arch_sep1 = [walarch_key_sep] /\ walarch_arch_sep2 = [walarch_key_sep].
Proof. repeat split. Qed.
Lemma arch_suffix_ext : walarch_arch_suffix = [46; 119; 97; 108] ++ walarch_ext.
Proof. reflexivity. Qed.

(** between prefix and suffix an archive name is numerals of its three numbers, separated by [walarch_key_sep] *)
Lemma archive_name_fields : forall id s e, exists m a b c,
  archive_name id s e = walarch_key_prefix ++ m ++ walarch_key_suffix /\
  split_on walarch_key_sep m = [a; b; c] /\ numeral a id /\ numeral b s /\ numeral c e.
Proof.
  intros id s e.
  pose proof (pad_dec_numeral walarch_arch_pad_width id ltac:(discriminate)) as Na.
  pose proof (dec_of_N_numeral s) as Nb. pose proof (dec_of_N_numeral e) as Nc.
  exists (pad_dec walarch_arch_pad_width id ++ walarch_key_sep :: dec_of_N s ++ walarch_key_sep :: dec_of_N e).
  do 3 eexists. destruct name_pieces_agree as (E1 & E2 & E3 & E4). split; [|split; [|eauto]].
  - unfold archive_name. rewrite E1, E2, E3, E4, <- !app_assoc. cbn [app]. rewrite <- !app_assoc. reflexivity.
  - rewrite !split_on_app_sep, !split_on_no_sep by (eapply numeral_no_sep; eassumption). reflexivity.
Qed.

Lemma archive_name_inj : forall id s e id' s' e',
  archive_name id s e = archive_name id' s' e' -> id = id' /\ s = s' /\ e = e'.
Proof.
  intros id s e id' s' e' H.
  destruct (archive_name_fields id s e) as (m & a & b & c & E & F & Na & Nb & Nc).
  destruct (archive_name_fields id' s' e') as (m' & a' & b' & c' & E' & F' & Na' & Nb' & Nc').
  rewrite E, E' in H. apply app_inv_head, app_inv_tail in H. subst m'. rewrite F in F'. injection F' as <- <- <-.
  repeat split; eapply numeral_inj; eassumption.
Qed.

Lemma archive_sort_key_name : forall id s e,
  id <= u64_max -> s <= u64_max -> e <= u64_max ->
  archive_sort_key (archive_name id s e) = (id, s, e).
Proof.
  intros id s e Hi Hs He. destruct (archive_name_fields id s e) as (m & a & b & c & -> & F & Na & Nb & Nc).
  unfold archive_sort_key. rewrite strip_prefix_app, strip_suffix_app, F.
  rewrite (parse_u64_numeral _ _ Na Hi), (parse_u64_numeral _ _ Nb Hs), (parse_u64_numeral _ _ Nc He). reflexivity.
Qed.

Lemma afile_name_inj_id : forall id es id' es',
  afile_name (make_archive id es) = afile_name (make_archive id' es') -> id = id'.
Proof. intros id es id' es' H. exact (proj1 (archive_name_inj _ _ _ _ _ _ H)). Qed.

(** serde_json never produces a non-finite float from text *)
Definition jvalue_wf (v : jvalue) : Prop :=
  match v with JFloat bits => f64_finite bits = true | _ => True end.
(** a timestamp is a u64 *)
Definition jentry_wf (j : jentry) : Prop :=
  j_ts j <= u64_max /\ Forall (fun p => jvalue_wf (snd p)) (j_payload j).
Definition line_wf (l : line) : Prop := match l with LEntry j => jentry_wf j | _ => True end.

Definition stable (v : scalar) : Prop := mp_roundtrip v = v.

Lemma scalar_of_json_stable : forall v, jvalue_wf v -> stable (scalar_of_json v).
Proof.
  intros [| b | z | bits | s | c] H; unfold stable; cbn [scalar_of_json mp_roundtrip]; try reflexivity.
  - destruct (z <=? i64_max)%Z; reflexivity.
  - cbn [jvalue_wf] in H. rewrite H. reflexivity.
Qed.

Lemma map_insert_forall : forall A (P : A -> Prop) k v m,
  P v -> Forall (fun p => P (snd p)) m -> Forall (fun p => P (snd p)) (map_insert k v m).
Proof.
  intros A P k v m Hv. induction m as [|[k' v'] r IH]; intro Hm; cbn [map_insert].
  - constructor; [exact Hv|constructor].
  - inversion Hm as [|? ? H1 H2]. subst. destruct (bytes_cmp k k').
    + constructor; assumption.
    + constructor; [exact Hv|exact Hm].
    + constructor; [exact H1|auto].
Qed.

Lemma build_map_forall : forall A (P : A -> Prop) ps,
  Forall (fun p => P (snd p)) ps -> Forall (fun p => P (snd p)) (build_map ps).
Proof.
  intros A P ps. unfold build_map.
  assert (G : forall m, Forall (fun p => P (snd p)) m -> Forall (fun p => P (snd p)) ps ->
                        Forall (fun p => P (snd p)) (fold_left (fun m p => map_insert (fst p) (snd p) m) ps m)).
  { induction ps as [|p ps IH]; intros m Hm Hps; cbn [fold_left]; [exact Hm|].
    inversion Hps as [|? ? H1 H2]. subst. apply IH; [|exact H2]. apply map_insert_forall; assumption. }
  intro H. apply G; [constructor|exact H].
Qed.

Lemma mp_entry_line_born : forall j, jentry_wf j -> mp_entry (entry_of_json j) = entry_of_json j.
Proof.
  intros j Hj. unfold mp_entry, entry_of_json. cbn [e_ts e_ctx e_type e_payload e_id]. f_equal.
  assert (F : Forall (fun p => stable (snd p)) (build_map (map (fun p => (fst p, scalar_of_json (snd p))) (j_payload j)))).
  { apply build_map_forall. destruct Hj as [_ Hj]. induction Hj as [|p l Hp Hl IH]; cbn [map]; constructor; auto.
    cbn [snd]. apply scalar_of_json_stable. exact Hp. }
  induction F as [|[k v] l Hv Hl IH]; cbn [map]; [reflexivity|].
  cbn [fst snd] in *. unfold stable in Hv. rewrite Hv, IH. reflexivity.
Qed.

Lemma parse_lines_forall : forall P : entry -> Prop,
  (forall j, jentry_wf j -> P (entry_of_json j)) ->
  forall ls es, Forall line_wf ls -> parse_lines ls = Some es -> Forall P es.
Proof.
  intros P HP. induction ls as [|l ls IH]; intros es Hwf H; cbn [parse_lines] in H.
  - inversion H. constructor.
  - inversion Hwf as [|? ? Hl Hls]. subst. destruct l as [| | |j]; try discriminate; auto.
    destruct (parse_lines ls) as [es'|] eqn:E; [|discriminate]. inversion H. subst. constructor; auto.
Qed.

Lemma parse_lines_lossless : forall ls es,
  Forall line_wf ls -> parse_lines ls = Some es -> map mp_entry es = es.
Proof.
  intros ls es Hwf H. pose proof (parse_lines_forall (fun e => mp_entry e = e) mp_entry_line_born ls es Hwf H) as F.
  rewrite <- (map_id es) at 2. apply map_ext_in. apply Forall_forall. exact F.
Qed.

Theorem archive_roundtrip_lossless : forall id ls es,
  Forall line_wf ls -> parse_lines ls = Some es ->
  a_entries (make_archive id es) = es.
Proof. intros id ls es H1 H2. unfold make_archive. cbn [a_entries]. exact (parse_lines_lossless ls es H1 H2). Qed.

(** Flags regenerated from the Rust text (tools/params/p40_walarch.py), each consumed below by rewriting with its
    lemma: the proofs stop compiling if one flips. *)
Lemma scan_flag : walarch_scan_canonical_only = true.
Proof. reflexivity. Qed.
Lemma own_dir_flag : walarch_cleaner_archives_own_dir = true.
Proof. reflexivity. Qed.
Lemma numeric_sort_flag : walarch_recovery_numeric_sort = true.
Proof. reflexivity. Qed.
Lemma abort_flag : walarch_abort_on_failure = true.
Proof. reflexivity. Qed.
Lemma create_truncates_flag : walarch_create_truncates = true.
Proof. reflexivity. Qed.
Definition dir_of (root : aroot) : adir := match root with RDir d => d | _ => [] end.
Definition root_lookup (nm : bytes) (root : aroot) : option aobj := lookup nm (dir_of root).

Lemma root_lookup_put_same : forall nm o d, root_lookup nm (RDir (put nm o d)) = Some o.
Proof. intros. apply lookup_put_same. Qed.

Lemma root_lookup_put_other : forall nm m o root,
  bytes_eqb nm m = false -> root_lookup nm (RDir (put m o (dir_of root))) = root_lookup nm root.
Proof. intros. apply lookup_put_other. assumption. Qed.

(** a call either fails leaving the directory content alone, or writes exactly the archive name of the log it read *)
Lemma archive_log_char : forall io wal root id root' r,
  archive_log io wal root id = (root', r) ->
  (r = None /\ (root' = root \/ root <> RNotDir /\ root' = RDir (dir_of root))) \/
  (exists ls es, lookup (log_name id) wal = Some (WFile ls) /\ parse_lines ls = Some es /\
     root <> RNotDir /\ lookup (afile_name (make_archive id es)) (dir_of root) <> Some ADirEnt /\
     ((io id = IoFailLate /\ r = None /\
       root' = RDir (put (afile_name (make_archive id es)) AGarbage (dir_of root))) \/
      (io id = IoOk /\ r = Some (afile_name (make_archive id es)) /\
       root' = RDir (put (afile_name (make_archive id es)) (AFile (make_archive id es)) (dir_of root))))).
Proof.
  intros io wal root id root' r H.
  (* the write of the archive [f] of the log's entries into the directory [d] of [root], where no directory occupies
     its name, by what [io] says *)
  match goal with |- ?Goal =>
    assert (W : forall ls es d, lookup (log_name id) wal = Some (WFile ls) -> parse_lines ls = Some es ->
              dir_of root = d -> root <> RNotDir ->
              let f := make_archive id es in
              lookup (afile_name f) d <> Some ADirEnt ->
              match io id with
              | IoOk => (RDir (put (afile_name f) (AFile f) d), Some (afile_name f))
              | IoFailEarly => (RDir d, None)
              | IoFailLate => (RDir (put (afile_name f) AGarbage d), None)
              end = (root', r) -> Goal)
  end.
  { intros ls es d EL EP <- ND f NS HW. destruct (io id); injection HW as <- <-.
    - (* written *) right. exists ls, es. repeat split; auto.
    - (* failed before the file was created *) left. auto.
    - (* failed after: garbage under the name *) right. exists ls, es. repeat split; auto. }
  unfold archive_log in H. rewrite create_truncates_flag in H.
  (* the log is not there, is a directory, or has a line that is not UTF-8: nothing is touched *)
  destruct (lookup (log_name id) wal) as [[ls|]|] eqn:EL; [|injection H as <- <-; left; auto..].
  destruct (parse_lines ls) as [es|] eqn:EP; [|injection H as <- <-; left; auto].
  specialize (fun d => W ls es d eq_refl EP) as W. cbv zeta in W.
  destruct root as [| |d].
  - (* missing: created empty *) apply (W []); [reflexivity|discriminate|discriminate|exact H].
  - (* not a directory *) injection H as <- <-. left. auto.
  - destruct (lookup (afile_name (make_archive id es)) d) as [[f0| |]|] eqn:ED.
    + (* a file under the name is overwritten *) apply (W d); [reflexivity|discriminate|congruence|exact H].
    + (* so is garbage *) apply (W d); [reflexivity|discriminate|congruence|exact H].
    + (* a directory occupies the name *)
      injection H as <- <-. left. split; [reflexivity|right; split; [discriminate|reflexivity]].
    + (* the name is free *) apply (W d); [reflexivity|discriminate|congruence|exact H].
Qed.

Lemma archive_log_frame : forall io wal root id root' r nm,
  archive_log io wal root id = (root', r) ->
  (forall ls es, lookup (log_name id) wal = Some (WFile ls) -> parse_lines ls = Some es ->
                 bytes_eqb nm (afile_name (make_archive id es)) = false) ->
  root_lookup nm root' = root_lookup nm root.
Proof.
  intros io wal root id root' r nm H Hnm.
  destruct (archive_log_char _ _ _ _ _ _ H) as [(_ & [->|(_ & ->)])|(ls & es & EL & EP & _ & _ & [(_ & _ & ->)|(_ & _ & ->)])];
    try reflexivity; apply root_lookup_put_other; eauto.
Qed.

Definition holds (root : aroot) (id : N) (es : list entry) : Prop :=
  root_lookup (afile_name (make_archive id es)) root = Some (AFile (make_archive id es)).

Lemma archive_log_keeps : forall io wal root id ls es id2 root' r,
  holds root id es -> io id = IoOk ->
  lookup (log_name id) wal = Some (WFile ls) -> parse_lines ls = Some es ->
  archive_log io wal root id2 = (root', r) -> holds root' id es.
Proof.
  intros io wal root id ls es id2 root' r Hh Hio EL EP H. unfold holds in *.
  destruct (archive_log_char _ _ _ _ _ _ H) as [(_ & [->|(_ & ->)])|(ls2 & es2 & EL2 & EP2 & _ & _ & Hc)];
    try exact Hh.
  destruct (bytes_eqb (afile_name (make_archive id es)) (afile_name (make_archive id2 es2))) eqn:E.
  - apply bytes_eqb_eq in E. assert (id = id2) by (eapply afile_name_inj_id; eassumption). subst id2.
    rewrite EL in EL2. inversion EL2. subst ls2. rewrite EP in EP2. inversion EP2. subst es2.
    destruct Hc as [(Hio2 & _)|(_ & _ & ->)]; [congruence|]. apply root_lookup_put_same.
  - destruct Hc as [(_ & _ & ->)|(_ & _ & ->)]; rewrite root_lookup_put_other by exact E; exact Hh.
Qed.

Lemma archive_log_ok_holds : forall io wal root id root' nm,
  archive_log io wal root id = (root', Some nm) ->
  exists ls es, lookup (log_name id) wal = Some (WFile ls) /\ parse_lines ls = Some es /\ io id = IoOk /\
                nm = afile_name (make_archive id es) /\ holds root' id es.
Proof.
  intros io wal root id root' nm H.
  destruct (archive_log_char _ _ _ _ _ _ H) as [(E & _)|(ls & es & EL & EP & _ & _ & [(_ & E & _)|(Hio & E & ->)])];
    try discriminate.
  exists ls, es. inversion E. repeat split; try assumption. apply root_lookup_put_same.
Qed.

Lemma scan_id_spec : forall n keep id,
  scan_id n keep = Some id ->
  parse_log_name n = Some id /\ walarch_eligible id keep = true /\ n = log_name id.
Proof.
  intros n keep id H. unfold scan_id in H. rewrite scan_flag in H. cbn [negb orb] in H.
  destruct (parse_log_name n) as [id'|]; [|discriminate].
  destruct (walarch_eligible id' keep) eqn:He; [|discriminate]. cbn [andb] in H.
  destruct (bytes_eqb n (log_name id')) eqn:E; [|discriminate]. inversion H. subst id'.
  apply bytes_eqb_eq in E. auto.
Qed.

Lemma scan_id_none : forall n keep,
  (forall id, parse_log_name n = Some id -> walarch_eligible id keep = true -> n <> log_name id) ->
  scan_id n keep = None.
Proof.
  intros n keep H. destruct (scan_id n keep) as [id|] eqn:E; [|reflexivity].
  destruct (scan_id_spec _ _ _ E) as (H1 & H2 & H3). exfalso. exact (H id H1 H2 H3).
Qed.

Definition accepted (keep : N) (todo : wdir) : list N :=
  flat_map (fun p => match scan_id (fst p) keep with Some id => [id] | None => [] end) todo.

Lemma accepted_in : forall keep todo n o id,
  In (n, o) todo -> scan_id n keep = Some id -> In id (accepted keep todo).
Proof.
  intros keep todo n o id Hin Hs. apply in_flat_map. exists (n, o). split; [exact Hin|].
  cbn [fst]. rewrite Hs. left. reflexivity.
Qed.

(** [scanned io wal ids root root' res]: archiving the logs [ids] in turn takes the archive directory from [root]
    to [root'], with the results [res] *)
Inductive scanned (io : N -> io_outcome) (wal : wdir) : list N -> aroot -> aroot -> list (option bytes) -> Prop :=
| scanned_nil root : scanned io wal [] root root []
| scanned_cons id ids root root1 r root2 rs :
    archive_log io wal root id = (root1, r) -> scanned io wal ids root1 root2 rs ->
    scanned io wal (id :: ids) root root2 (r :: rs).

Lemma archive_scan_scanned : forall io wal todo root keep root' res,
  archive_scan io wal todo root keep = (root', res) -> scanned io wal (accepted keep todo) root root' res.
Proof.
  intros io wal todo. induction todo as [|[n o] r IH]; intros root keep root' res H;
    cbn [archive_scan accepted flat_map fst] in *.
  - inversion H. constructor.
  - destruct (scan_id n keep) as [id|]; [|eauto].
    destruct (archive_log io wal root id) as [root1 r1] eqn:E1.
    destruct (archive_scan io wal r root1 keep) as [root2 rs] eqn:E2.
    inversion H. subst. econstructor; eauto.
Qed.

Lemma scanned_inv : forall io wal (P : aroot -> Prop) ids root root' res,
  scanned io wal ids root root' res ->
  (forall id root0 root1 r, In id ids -> P root0 -> archive_log io wal root0 id = (root1, r) -> P root1) ->
  P root -> P root'.
Proof.
  intros io wal P ids root root' res S. induction S as [|id ids root root1 r root2 rs E S IH]; intros HP H0; [exact H0|].
  apply IH; [intros; eapply HP; eauto; right; assumption|]. eapply HP; eauto. left. reflexivity.
Qed.

Lemma scanned_length : forall io wal ids root root' res,
  scanned io wal ids root root' res -> length res = length ids.
Proof. induction 1; cbn [length]; congruence. Qed.

Lemma scanned_keeps : forall io wal id ls es ids root root' res,
  holds root id es -> io id = IoOk ->
  lookup (log_name id) wal = Some (WFile ls) -> parse_lines ls = Some es ->
  scanned io wal ids root root' res -> holds root' id es.
Proof.
  intros io wal id ls es ids root root' res Hh Hio EL EP S.
  apply (scanned_inv _ _ (fun root => holds root id es) _ _ _ _ S); [|exact Hh].
  intros id2 root0 root1 r _ Hh0 E. eapply archive_log_keeps; eassumption.
Qed.

Lemma scanned_results : forall io wal ids root root' res nm,
  scanned io wal ids root root' res -> In (Some nm) res ->
  exists id ls es, lookup (log_name id) wal = Some (WFile ls) /\ parse_lines ls = Some es /\
                   nm = afile_name (make_archive id es) /\ holds root' id es.
Proof.
  intros io wal ids root root' res nm S. induction S as [|id ids root root1 r root2 rs E S IH]; intros Hin; [destruct Hin|].
  destruct Hin as [->|Hin]; [|auto].
  destruct (archive_log_ok_holds _ _ _ _ _ _ E) as (ls & es & EL & EP & Hio & En & Hh).
  exists id, ls, es. repeat split; try assumption. eapply scanned_keeps; eassumption.
Qed.

Lemma scanned_entry : forall io wal ids root root' res id,
  scanned io wal ids root root' res -> In id ids -> existsb is_none res = false ->
  exists ls es, lookup (log_name id) wal = Some (WFile ls) /\ parse_lines ls = Some es /\ io id = IoOk /\
                holds root' id es.
Proof.
  intros io wal ids root root' res id S. induction S as [|id0 ids root root1 r root2 rs E S IH]; intros Hin Hok; [destruct Hin|].
  cbn [existsb] in Hok. apply orb_false_iff in Hok. destruct Hok as [Hr Hrs].
  destruct Hin as [->|Hin]; [|auto]. destruct r as [nm|]; [|discriminate].
  destruct (archive_log_ok_holds _ _ _ _ _ _ E) as (ls & es & EL & EP & Hio & En & Hh).
  exists ls, es. repeat split; try assumption. eapply scanned_keeps; eassumption.
Qed.

Lemma in_round_names : forall wal keep n o id ls es,
  In (n, o) wal -> scan_id n keep = Some id ->
  lookup (log_name id) wal = Some (WFile ls) -> parse_lines ls = Some es ->
  In (afile_name (make_archive id es)) (round_archive_names wal keep).
Proof.
  intros wal keep n o id ls es Hin Hs EL EP. unfold round_archive_names.
  apply in_flat_map. exists (n, o). split; [exact Hin|]. cbn [fst]. rewrite Hs, EL, EP. left. reflexivity.
Qed.

Lemma name_reused_false : forall nm wal keep x,
  name_reused nm wal keep = false -> In x (round_archive_names wal keep) -> bytes_eqb nm x = false.
Proof.
  intros nm wal keep x H. exact (proj1 (existsb_false _ _) H x).
Qed.

Lemma archive_scan_frame : forall io wal todo keep nm root root' res,
  incl todo wal -> name_reused nm wal keep = false ->
  archive_scan io wal todo root keep = (root', res) ->
  root_lookup nm root' = root_lookup nm root.
Proof.
  intros io wal todo keep nm root root' res Hincl Hnr H. apply archive_scan_scanned in H.
  apply (scanned_inv _ _ (fun r => root_lookup nm r = root_lookup nm root) _ _ _ _ H); [|reflexivity].
  intros id root0 root1 r Hin E0 E1. rewrite <- E0. eapply archive_log_frame; [exact E1|]. intros ls es EL EP.
  apply in_flat_map in Hin. destruct Hin as ([n o] & Hin & Hid). cbn [fst] in Hid.
  destruct (scan_id n keep) as [id'|] eqn:Hs; [|destruct Hid]. destruct Hid as [->|[]].
  eapply name_reused_false; [exact Hnr|]. eapply in_round_names; eauto.
Qed.

(** the archive pass reads the directory the cleaner deletes from (sneldb db8e58e) *)
Lemma archiver_dir_eq : forall w, archiver_dir w = cleaner_dir w.
Proof. intro w. unfold archiver_dir. rewrite own_dir_flag. reflexivity. Qed.

Lemma cleaner_dir_set : forall w d root, cleaner_dir (set_cleaner_dir w d root) = d.
Proof. intros [wal [c|] r] d root; reflexivity. Qed.
Lemma w_root_set : forall w d root, w_root (set_cleaner_dir w d root) = root.
Proof. intros [wal [c|] r] d root; reflexivity. Qed.

Definition scan_hits (keep : N) (d : wdir) : wdir :=
  filter (fun p => negb (is_none (scan_id (fst p) keep))) d.

Lemma accepted_length : forall keep todo, length (accepted keep todo) = length (scan_hits keep todo).
Proof.
  intros keep todo. induction todo as [|[n o] r IH]; cbn [accepted flat_map scan_hits filter fst]; [reflexivity|].
  destruct (scan_id n keep); cbn [is_none negb app length]; [f_equal|]; exact IH.
Qed.

Lemma set_cleaner_dir_same : forall w root, set_cleaner_dir w (cleaner_dir w) root = mkWorld (w_wal w) (w_cwal w) root.
Proof. intros [wal [c|] r] root; reflexivity. Qed.

(** a cleanup is an archive pass over the cleaner's directory (over nothing in plain mode), then the deletion pass
    unless a failure was reported *)
Lemma cleanup_char : forall c fl w keep w' res,
  cleanup_up_to c fl w keep = (w', res) ->
  exists root1,
    archive_scan (f_io fl) (cleaner_dir w) (if c then cleaner_dir w else []) (w_root w) keep = (root1, res) /\
    w' = set_cleaner_dir w (if existsb is_none res then cleaner_dir w
                            else delete_pass (f_del_ok fl) keep (cleaner_dir w)) root1.
Proof.
  intros c fl w keep w' res H. unfold cleanup_up_to in H. destruct c; [|inversion H; exists (w_root w); auto].
  rewrite archiver_dir_eq, abort_flag in H. unfold archive_logs_up_to in H. cbn [andb] in H.
  destruct (archive_scan (f_io fl) (cleaner_dir w) (cleaner_dir w) (w_root w) keep) as [root1 res1].
  exists root1. destruct (existsb is_none res1) eqn:Ex; inversion H; subst res; rewrite Ex, ?set_cleaner_dir_same; auto.
Qed.

(** [walarch_archives_every_eligible] occurs in no model definition: it records that [archive_logs_up_to] in the Rust
    text has the shape of [archive_scan].  That rests on what the translator checks before it writes the flag; the
    first conjunct below only repeats it. *)
Lemma archives_all_flag : walarch_archives_every_eligible = true.
Proof. reflexivity. Qed.

Lemma results_cover_every_eligible : forall fl w keep w' res,
  walarch_archives_every_eligible = true /\
  (cleanup_up_to true fl w keep = (w', res) -> length res = length (scan_hits keep (cleaner_dir w))).
Proof.
  intros fl w keep w' res. split; [exact archives_all_flag|]. intro H.
  destruct (cleanup_char _ _ _ _ _ _ H) as [root1 [E _]].
  rewrite (scanned_length _ _ _ _ _ _ (archive_scan_scanned _ _ _ _ _ _ _ E)). apply accepted_length.
Qed.

Theorem no_delete_on_any_failure : forall fl w keep w' res,
  cleanup_up_to true fl w keep = (w', res) ->
  existsb is_none res = true ->
  w_wal w' = w_wal w /\ w_cwal w' = w_cwal w.
Proof.
  intros fl w keep w' res H Hf. destruct (cleanup_char _ _ _ _ _ _ H) as (root1 & _ & ->).
  rewrite Hf, set_cleaner_dir_same. auto.
Qed.

Theorem partial_failure_keeps_archives : forall fl w keep w' res nm,
  cleanup_up_to true fl w keep = (w', res) -> In (Some nm) res ->
  exists id ls es, lookup (log_name id) (cleaner_dir w) = Some (WFile ls) /\ parse_lines ls = Some es /\
                   nm = afile_name (make_archive id es) /\
                   root_lookup nm (w_root w') = Some (AFile (make_archive id es)).
Proof.
  intros fl w keep w' res nm H Hin.
  destruct (cleanup_char _ _ _ _ _ _ H) as (root1 & E & ->). rewrite w_root_set.
  destruct (scanned_results _ _ _ _ _ _ _ (archive_scan_scanned _ _ _ _ _ _ _ E) Hin) as (id & ls & es & EL & EP & En & Hh).
  exists id, ls, es. repeat split; try assumption. subst nm. exact Hh.
Qed.

(** no archive can be created under [nm] *)
Definition blocked (nm : bytes) (root : aroot) : Prop := root = RNotDir \/ root_lookup nm root = Some ADirEnt.

Lemma archive_log_blocked : forall io wal root id root' r nm,
  blocked nm root -> archive_log io wal root id = (root', r) -> blocked nm root'.
Proof.
  intros io wal root id root' r nm B H.
  destruct (archive_log_char _ _ _ _ _ _ H) as [(_ & [->|(Hnd & ->)])|(ls & es & _ & _ & Hnd & Hsq & Hc)]; [exact B| |];
    destruct B as [B|B]; try contradiction; right; [exact B|].
  (* the call wrote, so the name it wrote under was not occupied: it is not [nm] *)
  assert (E : bytes_eqb nm (afile_name (make_archive id es)) = false).
  { destruct (bytes_eqb nm (afile_name (make_archive id es))) eqn:E; [|reflexivity].
    apply bytes_eqb_eq in E. subst nm. contradiction. }
  destruct Hc as [(_ & _ & ->)|(_ & _ & ->)]; rewrite root_lookup_put_other by exact E; exact B.
Qed.

Lemma archive_scan_blocked : forall io wal nm todo root keep root' res,
  blocked nm root -> archive_scan io wal todo root keep = (root', res) -> blocked nm root'.
Proof.
  intros io wal nm todo root keep root' res B H. apply archive_scan_scanned in H.
  apply (scanned_inv _ _ (blocked nm) _ _ _ _ H); [|exact B].
  intros id root0 root1 r _ B0 E. eapply archive_log_blocked; eassumption.
Qed.

Lemma blocked_not_held : forall root id es, blocked (afile_name (make_archive id es)) root -> ~ holds root id es.
Proof. intros root id es [->|B] Hh; unfold holds in Hh; [discriminate Hh|congruence]. Qed.

(** the hypothesis on [parse_log_name] holds of every [id <= u64_max] ([parse_log_name_log_name]) *)
Theorem fault_patterns_fail : forall fl w keep w' res o id,
  cleanup_up_to true fl w keep = (w', res) ->
  In (log_name id, o) (cleaner_dir w) -> parse_log_name (log_name id) = Some id -> walarch_eligible id keep = true ->
  (w_root w = RNotDir
   \/ lookup (log_name id) (cleaner_dir w) = Some WDir
   \/ (exists ls, lookup (log_name id) (cleaner_dir w) = Some (WFile ls) /\ parse_lines ls = None)
   \/ f_io fl id <> IoOk
   \/ (exists ls es, lookup (log_name id) (cleaner_dir w) = Some (WFile ls) /\ parse_lines ls = Some es /\
                     root_lookup (afile_name (make_archive id es)) (w_root w) = Some ADirEnt)) ->
  existsb is_none res = true.
Proof.
  intros fl w keep w' res o id H Hin Hp He Hcause.
  destruct (cleanup_char _ _ _ _ _ _ H) as (root1 & E & _).
  assert (Hs : scan_id (log_name id) keep = Some id).
  { unfold scan_id. rewrite Hp, He, bytes_eqb_refl, orb_true_r. reflexivity. }
  destruct (existsb is_none res) eqn:Ex; [reflexivity|exfalso].
  destruct (scanned_entry _ _ _ _ _ _ _ (archive_scan_scanned _ _ _ _ _ _ _ E) (accepted_in _ _ _ _ _ Hin Hs) Ex) as (ls & es & EL & EP & Hio & Hh).
  (* the two causes that block the archive name still block it after the pass, where the archive is held *)
  assert (B : ~ blocked (afile_name (make_archive id es)) (w_root w)).
  { intro B. exact (blocked_not_held _ _ _ (archive_scan_blocked _ _ _ _ _ _ _ _ B E) Hh). }
  destruct Hcause as [C|[C|[(ls' & C1 & C2)|[C|(ls' & es' & C1 & C2 & C3)]]]]; try congruence; apply B.
  - left. exact C.
  - right. congruence.
Qed.

Lemma delete_pass_in : forall del keep d p,
  In p (delete_pass del keep d) <-> In p d /\ delete_hits del keep p = false.
Proof. intros. unfold delete_pass. rewrite filter_In, negb_true_iff. reflexivity. Qed.

Lemma delete_pass_gone : forall del keep d n o,
  In (n, o) d -> lookup n (delete_pass del keep d) = None -> delete_hits del keep (n, o) = true.
Proof.
  intros del keep d n o Hin Hl. destruct (delete_hits del keep (n, o)) eqn:E; [reflexivity|exfalso].
  eapply lookup_none_not_in; [exact Hl|]. apply delete_pass_in. split; [exact Hin|exact E].
Qed.

Theorem deleted_implies_archived : forall fl w keep w' res n ls,
  NoDup (names (cleaner_dir w)) ->
  cleanup_up_to true fl w keep = (w', res) ->
  In (n, WFile ls) (cleaner_dir w) -> lookup n (cleaner_dir w') = None ->
  exists id es, n = log_name id /\ parse_log_name n = Some id /\ parse_lines ls = Some es /\
    root_lookup (afile_name (make_archive id es)) (w_root w') = Some (AFile (make_archive id es)).
Proof.
  intros fl w keep w' res n ls ND H Hin Hgone.
  destruct (cleanup_char _ _ _ _ _ _ H) as (root1 & E & ->). rewrite cleaner_dir_set in Hgone. rewrite w_root_set.
  destruct (existsb is_none res) eqn:Ex.
  - rewrite (in_lookup _ _ _ _ ND Hin) in Hgone. discriminate.
  - pose proof (delete_pass_gone _ _ _ _ _ Hin Hgone) as Hh.
    unfold delete_hits in Hh. cbn [fst snd] in Hh.
    destruct (scan_id n keep) as [id|] eqn:Hs; [|discriminate].
    destruct (scanned_entry _ _ _ _ _ _ _ (archive_scan_scanned _ _ _ _ _ _ _ E) (accepted_in _ _ _ _ _ Hin Hs) Ex) as (ls' & es & EL & EP & _ & Hhold).
    destruct (scan_id_spec _ _ _ Hs) as (Hp & _ & En). subst n.
    rewrite (in_lookup _ _ _ _ ND Hin) in EL. inversion EL. subst ls'.
    exists id, es. repeat split; assumption.
Qed.

Theorem foreign_names_untouched : forall c fl w keep w' res n o,
  cleanup_up_to c fl w keep = (w', res) ->
  In (n, o) (cleaner_dir w) ->
  (forall id, parse_log_name n = Some id -> walarch_eligible id keep = true -> n <> log_name id) ->
  In (n, o) (cleaner_dir w').
Proof.
  intros c fl w keep w' res n o H Hin Hf. destruct (cleanup_char _ _ _ _ _ _ H) as (root1 & _ & ->).
  rewrite cleaner_dir_set. destruct (existsb is_none res); [exact Hin|].
  apply delete_pass_in. split; [exact Hin|]. unfold delete_hits. cbn [fst].
  rewrite (scan_id_none _ _ Hf). reflexivity.
Qed.

Theorem archive_kept_outside_known : forall c fl w keep w' res nm,
  cleanup_up_to c fl w keep = (w', res) ->
  name_reused nm (cleaner_dir w) keep = false ->
  root_lookup nm (w_root w') = root_lookup nm (w_root w).
Proof.
  intros c fl w keep w' res nm H Hnr. destruct (cleanup_char _ _ _ _ _ _ H) as (root1 & E & ->). rewrite w_root_set.
  eapply archive_scan_frame; [|exact Hnr|exact E]. destruct c; [apply incl_refl|apply incl_nil_l].
Qed.

Lemma run_history_kept : forall h root nm,
  Forall (fun r => name_reused nm (r_wal r) (r_keep r) = false) h ->
  root_lookup nm (run_history root h) = root_lookup nm root.
Proof.
  induction h as [|r h IH]; intros root nm HF; cbn [run_history]; [reflexivity|].
  inversion HF as [|? ? H1 H2]. subst. rewrite (IH _ _ H2).
  unfold run_round. destruct (cleanup_up_to true (r_faults r) (mkWorld (r_wal r) None root) (r_keep r)) as [w' res] eqn:E.
  cbn [fst]. apply (archive_kept_outside_known _ _ _ _ _ _ nm E). exact H1.
Qed.

Theorem history_deleted_stay_archived : forall root r h root1 wal1 res n ls,
  NoDup (names (r_wal r)) ->
  run_round root r = (root1, wal1, res) ->
  In (n, WFile ls) (r_wal r) -> lookup n wal1 = None ->
  exists id es, n = log_name id /\ parse_lines ls = Some es /\
    (Forall (fun r' => name_reused (afile_name (make_archive id es)) (r_wal r') (r_keep r') = false) h ->
     root_lookup (afile_name (make_archive id es)) (run_history root1 h) = Some (AFile (make_archive id es))).
Proof.
  intros root r h root1 wal1 res n ls ND Hr Hin Hgone. unfold run_round in Hr.
  destruct (cleanup_up_to true (r_faults r) (mkWorld (r_wal r) None root) (r_keep r)) as [w' res'] eqn:E.
  inversion Hr. subst root1 wal1 res'.
  assert (Hc : cleaner_dir w' = w_wal w') by (destruct (cleanup_char _ _ _ _ _ _ E) as (root1 & _ & ->); reflexivity).
  rewrite <- Hc in Hgone.
  destruct (deleted_implies_archived (r_faults r) (mkWorld (r_wal r) None root) (r_keep r) w' res n ls
              ND E Hin Hgone) as (id & es & En & Hp & EP & Hh).
  exists id, es. repeat split; try assumption. intro HF. rewrite run_history_kept by exact HF. exact Hh.
Qed.

Fixpoint eligible_entries (wal : wdir) (keep : N) : list (N * list entry) :=
  match wal with
  | [] => []
  | (n, o) :: r =>
      match scan_id n keep, o with
      | Some id, WFile ls =>
          match parse_lines ls with
          | Some es => (id, es) :: eligible_entries r keep
          | None => eligible_entries r keep
          end
      | _, _ => eligible_entries r keep
      end
  end.
Definition id_leb (a b : N * list entry) : bool := fst a <=? fst b.
(** the entries of the archived logs in log-id order *)
Definition expected_recovery (wal : wdir) (keep : N) : list entry :=
  flat_map snd (isort_by id_leb (eligible_entries wal keep)).

Definition arch_of (x : N * list entry) : bytes * aobj :=
  (afile_name (make_archive (fst x) (snd x)), AFile (make_archive (fst x) (snd x))).

Lemma eligible_entries_in : forall wal keep id es,
  In (id, es) (eligible_entries wal keep) ->
  exists n ls, In (n, WFile ls) wal /\ scan_id n keep = Some id /\ parse_lines ls = Some es.
Proof.
  induction wal as [|[n o] r IH]; intros keep id es H; cbn [eligible_entries] in H; [destruct H|].
  assert (G : In (id, es) (eligible_entries r keep) ->
              exists n0 ls, In (n0, WFile ls) ((n, o) :: r) /\ scan_id n0 keep = Some id /\ parse_lines ls = Some es).
  { intro H'. destruct (IH _ _ _ H') as (n0 & ls & H1 & H2). exists n0, ls. split; [right; exact H1|exact H2]. }
  destruct (scan_id n keep) as [id'|] eqn:Hs; [|auto]. destruct o as [ls|]; [|auto].
  destruct (parse_lines ls) as [es'|] eqn:EP; [|auto].
  destruct H as [E|H]; [|auto]. inversion E. subst. exists n, ls. repeat split; auto. left. reflexivity.
Qed.

Lemma put_fresh : forall A n (o : A) d, ~ In n (names d) -> put n o d = d ++ [(n, o)].
Proof.
  intros A n o d. induction d as [|[n' o'] r IH]; intro H; cbn [put app]; [reflexivity|].
  destruct (bytes_eqb n n') eqn:E.
  - apply bytes_eqb_eq in E. subst n'. exfalso. apply H. left. reflexivity.
  - rewrite IH; [reflexivity|]. intro Hin. apply H. right. exact Hin.
Qed.

Lemma archive_scan_success_dir : forall io wal keep,
  NoDup (names wal) ->
  forall todo root root' res,
  incl todo wal -> root <> RNotDir ->
  archive_scan io wal todo root keep = (root', res) -> existsb is_none res = false ->
  (forall x, In x (eligible_entries todo keep) -> ~ In (fst (arch_of x)) (names (dir_of root))) ->
  NoDup (map fst (eligible_entries todo keep)) ->
  root' <> RNotDir /\ dir_of root' = dir_of root ++ map arch_of (eligible_entries todo keep).
Proof.
  intros io wal keep ND todo. induction todo as [|[n o] r IH]; intros root root' res Hincl Hroot H Hok Hfresh Hnd;
    cbn [archive_scan eligible_entries] in *.
  - inversion H. subst. cbn [map]. rewrite app_nil_r. auto.
  - assert (Hr : incl r wal) by (intros x Hx; apply Hincl; right; exact Hx).
    destruct (scan_id n keep) as [id|] eqn:Hs; [|eauto].
    destruct (archive_log io wal root id) as [root1 r1] eqn:E1.
    destruct (archive_scan io wal r root1 keep) as [root2 rs] eqn:E2.
    inversion H. subst root2 res. cbn [existsb] in Hok. apply orb_false_iff in Hok. destruct Hok as [Hr1 Hrs].
    destruct r1 as [nm|]; [|discriminate].
    destruct (archive_log_char _ _ _ _ _ _ E1) as [(C & _)|(ls & es & EL & EP & _ & _ & [(_ & C & _)|(Hio & _ & Eroot)])];
      try discriminate.
    destruct (scan_id_spec _ _ _ Hs) as (_ & _ & ->).
    rewrite (in_lookup _ _ _ _ ND (Hincl _ (or_introl eq_refl))) in EL. injection EL as ->.
    rewrite EP in Hfresh, Hnd |- *. cbn [map fst] in Hnd. apply NoDup_cons_iff in Hnd. destruct Hnd as [Hnotin Hnd'].
    rewrite put_fresh in Eroot by (apply (Hfresh (id, es)); left; reflexivity). subst root1.
    destruct (IH (RDir _) _ _ Hr ltac:(discriminate) E2 Hrs) as (G1 & G2);
      [|exact Hnd'|].
    + (* the archive just written is under the name of [id], which no later entry carries *)
      intros x Hx. cbn [dir_of]. unfold names. rewrite map_app. cbn [map fst]. intro Hc. apply in_app_or in Hc.
      destruct Hc as [Hc|[Hc|[]]]; [exact (Hfresh x (or_intror Hx) Hc)|].
      apply Hnotin. rewrite (afile_name_inj_id _ _ _ _ Hc). apply in_map. exact Hx.
    + split; [exact G1|]. rewrite G2. cbn [dir_of map]. rewrite <- app_assoc. reflexivity.
Qed.

Lemma eligible_ids_nodup : forall wal keep,
  NoDup (names wal) -> NoDup (map fst (eligible_entries wal keep)).
Proof.
  induction wal as [|[n o] r IH]; intros keep ND; cbn [eligible_entries]; [constructor|].
  cbn [names map fst] in ND. inversion ND as [|? ? Hnotin ND']. subst.
  pose proof (IH keep ND') as IHr.
  destruct (scan_id n keep) as [id|] eqn:Hs; [|exact IHr]. destruct o as [ls|]; [|exact IHr].
  destruct (parse_lines ls) as [es|]; [|exact IHr].
  cbn [map fst]. constructor; [|exact IHr]. intro Hin. apply in_map_iff in Hin. destruct Hin as ([id' es'] & E & Hin).
  cbn [fst] in E. subst id'. destruct (eligible_entries_in _ _ _ _ Hin) as (n' & ls' & H1 & H2 & _).
  destruct (scan_id_spec _ _ _ H2) as (_ & _ & E1). destruct (scan_id_spec _ _ _ Hs) as (_ & _ & E2).
  subst n n'. apply Hnotin. apply in_map_iff. exists (log_name id, WFile ls'). auto.
Qed.

Lemma insert_by_in : forall A (leb : A -> A -> bool) x l y, In y (insert_by leb x l) <-> y = x \/ In y l.
Proof.
  intros A leb x. apply insert_in; [reflexivity|].
  intros z r. cbn [insert_by]. destruct (leb x z); auto.
Qed.

Lemma isort_by_in : forall A (leb : A -> A -> bool) l y, In y (isort_by leb l) <-> In y l.
Proof.
  intros A leb l y. unfold isort_by. rewrite (fold_insert_in _ (insert_by_in A leb)). cbn [In]. tauto.
Qed.

Lemma insert_by_map : forall A B (f : A -> B) (leA : A -> A -> bool) (leB : B -> B -> bool) a s,
  (forall b, In b s -> leB (f a) (f b) = leA a b) ->
  insert_by leB (f a) (map f s) = map f (insert_by leA a s).
Proof.
  intros A B f leA leB a s. induction s as [|b s IH]; intro H; cbn [map insert_by]; [reflexivity|].
  rewrite (H b) by (left; reflexivity). destruct (leA a b); cbn [map]; [reflexivity|].
  rewrite IH; [reflexivity|]. intros b' Hb'. apply H. right. exact Hb'.
Qed.

Lemma isort_by_map : forall A B (f : A -> B) (leA : A -> A -> bool) (leB : B -> B -> bool) l,
  (forall a b, In a l -> In b l -> leB (f a) (f b) = leA a b) ->
  isort_by leB (map f l) = map f (isort_by leA l).
Proof.
  intros A B f leA leB l. induction l as [|a l IH]; intro H; cbn [map isort_by fold_right]; [reflexivity|].
  fold (isort_by leB (map f l)). fold (isort_by leA l).
  rewrite IH by (intros x y Hx Hy; apply H; right; assumption).
  apply insert_by_map. intros b Hb. apply H; [left; reflexivity|]. right. apply isort_by_in in Hb. exact Hb.
Qed.

Lemma key_cmp_refl : forall k, key_cmp k k = Eq.
Proof. intros [[a b] c]. unfold key_cmp. rewrite !N.compare_refl. reflexivity. Qed.

(** the header of an archive stays within u64 when ids and timestamps are *)
Definition bounded (x : N * list entry) : Prop :=
  fst x <= u64_max /\ Forall (fun e => e_ts e <= u64_max) (snd x).

Lemma ts_min_le : forall es a, fold_left (fun a e => N.min a (e_ts e)) es a <= a.
Proof. induction es as [|e es IH]; intro a; cbn [fold_left]; [lia|]. specialize (IH (N.min a (e_ts e))). lia. Qed.

Lemma ts_max_le : forall es a,
  a <= u64_max -> Forall (fun e => e_ts e <= u64_max) es -> fold_left (fun a e => N.max a (e_ts e)) es a <= u64_max.
Proof.
  induction es as [|e es IH]; intros a Ha HF; cbn [fold_left]; [exact Ha|].
  inversion HF as [|? ? H1 H2]. subst. apply IH; [lia|exact H2].
Qed.

Lemma arch_key : forall x, bounded x -> archive_sort_key (fst (arch_of x)) = (fst x, a_start (make_archive (fst x) (snd x)), a_end (make_archive (fst x) (snd x))).
Proof.
  intros [id es] [Hi Hts]. cbn [fst snd] in *. unfold arch_of. cbn [fst]. unfold afile_name.
  apply archive_sort_key_name; [exact Hi| |].
  - unfold make_archive. cbn [a_start]. destruct (N.of_nat (length es) =? 0); [unfold u64_max; lia|].
    unfold ts_min. apply ts_min_le.
  - unfold make_archive. cbn [a_end]. unfold ts_max. apply ts_max_le; [unfold u64_max; lia|exact Hts].
Qed.

(** name order of archives = id order of their logs, for ids of any width *)
Lemma name_leb_arch : forall x y,
  bounded x -> bounded y -> (fst x = fst y -> x = y) ->
  name_leb (arch_of x) (arch_of y) = id_leb x y.
Proof.
  intros x y Bx By Hinj. unfold name_leb. rewrite numeric_sort_flag.
  destruct (N.eq_dec (fst x) (fst y)) as [E|E].
  - specialize (Hinj E). subst y. rewrite key_cmp_refl, bytes_cmp_refl. unfold id_leb. symmetry. apply N.leb_le. lia.
  - rewrite (arch_key x Bx), (arch_key y By). unfold key_cmp, id_leb.
    destruct (N.compare_spec (fst x) (fst y)); destruct (N.leb_spec (fst x) (fst y)); try lia; reflexivity.
Qed.

Lemma archive_name_has_ext : forall id s e, has_ext (archive_name id s e) = true.
Proof.
  intros id s e. unfold has_ext, archive_name. rewrite arch_suffix_ext, !app_assoc. rewrite strip_suffix_app. rewrite <- !app_assoc.
  unfold walarch_arch_prefix. cbn [app]. reflexivity.
Qed.

Lemma arch_has_ext : forall x, has_ext (fst (arch_of x)) = true.
Proof. intros x. apply archive_name_has_ext. Qed.

Definition wal_wf (wal : wdir) : Prop :=
  Forall (fun p => match snd p with WFile ls => Forall line_wf ls | WDir => True end) wal.

Lemma parse_lines_ts : forall ls es,
  Forall line_wf ls -> parse_lines ls = Some es -> Forall (fun e => e_ts e <= u64_max) es.
Proof. apply parse_lines_forall. intros j [Hts _]. exact Hts. Qed.

Theorem recover_roundtrip : forall fl w keep w' res,
  NoDup (names (cleaner_dir w)) -> wal_wf (cleaner_dir w) ->
  w_root w <> RNotDir -> (forall n o, In (n, o) (dir_of (w_root w)) -> has_ext n = false) ->
  cleanup_up_to true fl w keep = (w', res) ->
  existsb is_none res = false ->
  recover_all (w_root w') = Some (expected_recovery (cleaner_dir w) keep).
Proof.
  intros fl w keep w' res ND Hwf Hroot Hold H Hok.
  destruct (cleanup_char _ _ _ _ _ _ H) as (root1 & E & ->). rewrite w_root_set. clear H.
  set (wal := cleaner_dir w) in *. set (l := eligible_entries wal keep).
  pose proof (eligible_ids_nodup wal keep ND) as Hids. fold l in Hids.
  assert (Hfresh : forall x, In x l -> ~ In (fst (arch_of x)) (names (dir_of (w_root w)))).
  { intros x _ Hin. apply in_map_iff in Hin. destruct Hin as ([n o] & En & Hin). cbn [fst] in En.
    pose proof (Hold n o Hin) as Hne. rewrite En, arch_has_ext in Hne. discriminate. }
  destruct (archive_scan_success_dir _ wal keep ND wal _ root1 res (incl_refl _) Hroot E Hok Hfresh Hids) as (G1 & G2).
  assert (Hx : forall x, In x l -> bounded x /\ map mp_entry (snd x) = snd x).
  { intros [id es] Hx. destruct (eligible_entries_in _ _ _ _ Hx) as (n & ls & H1 & H2 & H3).
    unfold wal_wf in Hwf. rewrite Forall_forall in Hwf. specialize (Hwf _ H1). cbn [snd] in Hwf |- *.
    split; [split|]; [eapply parse_log_name_le, scan_id_spec; exact H2|eapply parse_lines_ts; eassumption|
                      eapply parse_lines_lossless; eassumption]. }
  unfold recover_all, expected_recovery. fold l.
  assert (list_archives root1 = Some (isort_by name_leb (filter (fun p => has_ext (fst p)) (dir_of root1)))) as ->
    by (destruct root1; [reflexivity|congruence|reflexivity]).
  rewrite G2, filter_app, filter_none by (intros [n o]; apply Hold).
  rewrite filter_all by (intros p Hp; apply in_map_iff in Hp; destruct Hp as (x & <- & _); apply arch_has_ext). cbn [app].
  rewrite (isort_by_map _ _ arch_of id_leb name_leb).
  2:{ intros a b Ha Hb. apply name_leb_arch; [apply Hx; exact Ha|apply Hx; exact Hb|].
      apply (nodup_map_inj_on fst l Hids); assumption. }
  f_equal. rewrite !flat_map_concat_map, map_map. f_equal. apply map_ext_in. intros x Hin. apply isort_by_in in Hin.
  cbn [arch_of snd entries_of make_archive a_entries]. apply Hx. exact Hin.
Qed.

Definition wit_line (ts id : N) : line := LEntry (mkJEntry ts [99] [116] [] id).
Definition wit_entry (ts id : N) : entry := entry_of_json (mkJEntry ts [99] [116] [] id).
Definition no_faults : faults := mkFaults (fun _ => IoOk) (fun _ => true).

(** [NoDup] of a one-element list *)
Ltac nodup1 := constructor; [intros []|constructor].

(** two lifetimes: the WAL id restarts at 0, the second log 0 covers the same second as the first *)
Definition wit_round1 : round := mkRound [(log_name 0, WFile [wit_line 5 1])] 1 no_faults.
Definition wit_round2 : round := mkRound [(log_name 0, WFile [wit_line 5 2])] 1 no_faults.

Theorem archive_names_unique_refuted :
  exists root r1 r2 n ls es,
    NoDup (names (r_wal r1)) /\ wal_wf (r_wal r1) /\
    NoDup (names (r_wal r2)) /\ wal_wf (r_wal r2) /\
    In (n, WFile ls) (r_wal r1) /\ parse_lines ls = Some es /\ es <> [] /\
    lookup n (snd (fst (run_round root r1))) = None /\
    existsb is_none (snd (run_round (fst (fst (run_round root r1))) r2)) = false /\
    forall nm f, root_lookup nm (run_history root [r1; r2]) = Some (AFile f) -> a_entries f <> es.
Proof.
  exists RMissing, wit_round1, wit_round2, (log_name 0), [wit_line 5 1], [wit_entry 5 1].
  split; [cbn [wit_round1 r_wal names map fst]; nodup1|].
  split; [repeat constructor; vm_compute; discriminate|].
  split; [cbn [wit_round2 r_wal names map fst]; nodup1|].
  split; [repeat constructor; vm_compute; discriminate|].
  split; [left; reflexivity|]. split; [reflexivity|]. split; [discriminate|].
  split; [vm_compute; reflexivity|]. split; [vm_compute; reflexivity|].
  intros nm f H. remember (run_history RMissing [wit_round1; wit_round2]) as r eqn:Er. vm_compute in Er. subst r.
  unfold root_lookup in H. cbn [dir_of lookup] in H.
  destruct (bytes_eqb nm _); [|discriminate]. inversion H. subst f. vm_compute. discriminate.
Qed.

(** ** The hypotheses of the positive theorems are satisfiable, with a non-trivial outcome *)

Definition ex_wal : wdir :=
  [(log_name 1, WFile [wit_line 7 3; LJunk]); (log_name 0, WFile [wit_line 5 1; LBlank; wit_line 6 2]);
   (log_name 2, WFile [wit_line 9 4])].

(** a squatting directory on the archive name of log 1: log 0 is archived, nothing is deleted *)
Definition ex_squat_root : aroot := RDir [(archive_name 1 7 7, ADirEnt)].

Lemma ex_wal_nodup : NoDup (names ex_wal).
Proof. (* three concrete names, told apart by evaluation *)
  cbn [ex_wal names map fst].
  constructor; [intros [H|[H|[]]]; vm_compute in H; discriminate H|].
  constructor; [intros [H|[]]; vm_compute in H; discriminate H|]. nodup1.
Qed.

Example ex_no_delete_on_failure :
  let r := cleanup_up_to true no_faults (mkWorld ex_wal None ex_squat_root) 2 in
  existsb is_none (snd r) = true /\ w_wal (fst r) = ex_wal /\
  In (Some (archive_name 0 5 6)) (snd r) /\
  root_lookup (archive_name 0 5 6) (w_root (fst r)) = Some (AFile (make_archive 0 [wit_entry 5 1; wit_entry 6 2])).
Proof. vm_compute. repeat split; auto. Qed.

Example ex_deleted_archived_recovered :
  let r := cleanup_up_to true no_faults (mkWorld ex_wal None RMissing) 2 in
  NoDup (names ex_wal) /\ wal_wf ex_wal /\
  existsb is_none (snd r) = false /\
  names (w_wal (fst r)) = [log_name 2] /\
  recover_all (w_root (fst r)) = Some [wit_entry 5 1; wit_entry 6 2; wit_entry 7 3].
Proof.
  cbv zeta. split; [exact ex_wal_nodup|].
  split; [repeat constructor; vm_compute; discriminate|]. vm_compute. repeat split; reflexivity.
Qed.

(** "wal-1.log" next to "wal-00001.log": only the canonical file is archived and deleted, the foreign
    one is left alone (sneldb 1c3fa90) *)
Definition alias_1 : bytes := walarch_log_prefix ++ [49] ++ walarch_log_suffix.
Example ex_alias_left_alone :
  let w := mkWorld [(alias_1, WFile [wit_line 5 2]); (log_name 1, WFile [wit_line 5 1])] None RMissing in
  let r := cleanup_up_to true no_faults w 2 in
  parse_log_name alias_1 = Some 1 /\ existsb is_none (snd r) = false /\
  w_wal (fst r) = [(alias_1, WFile [wit_line 5 2])] /\
  recover_all (w_root (fst r)) = Some [wit_entry 5 1].
Proof. vm_compute. repeat split; reflexivity. Qed.

(** a cleaner built on its own directory archives that directory (sneldb db8e58e) *)
Example ex_own_dir_archived :
  let w := mkWorld [] (Some [(log_name 0, WFile [wit_line 5 1])]) RMissing in
  let r := cleanup_up_to true no_faults w 1 in
  cleaner_dir (fst r) = [] /\ recover_all (w_root (fst r)) = Some [wit_entry 5 1].
Proof. vm_compute. split; reflexivity. Qed.

(** ids 99999 and 100000 come back in id order (sneldb 06752f6) although "wal-100000-…" < "wal-99999-…" as strings *)
Example ex_wide_ids_in_order :
  let wal := [(log_name 100000, WFile [wit_line 6 2]); (log_name 99999, WFile [wit_line 5 1])] in
  let r := cleanup_up_to true no_faults (mkWorld wal None RMissing) 100001 in
  bytes_cmp (archive_name 100000 6 6) (archive_name 99999 5 5) = Lt /\
  existsb is_none (snd r) = false /\ w_wal (fst r) = [] /\
  recover_all (w_root (fst r)) = Some [wit_entry 5 1; wit_entry 6 2] /\
  expected_recovery wal 100001 = [wit_entry 5 1; wit_entry 6 2].
Proof. vm_compute. repeat split; reflexivity. Qed.

Example ex_name_not_reused :
  name_reused (archive_name 0 5 5) (r_wal wit_round2) (r_keep wit_round2) = true /\
  name_reused (archive_name 0 5 5) ex_wal 3 = false.
Proof. vm_compute. split; reflexivity. Qed.

Example ex_fault_oracle :
  let fl := mkFaults (fun id => if id =? 1 then IoFailLate else IoOk) (fun _ => true) in
  let r := cleanup_up_to true fl (mkWorld ex_wal None RMissing) 3 in
  existsb is_none (snd r) = true /\ w_wal (fst r) = ex_wal /\
  root_lookup (archive_name 1 7 7) (w_root (fst r)) = Some AGarbage /\
  root_lookup (archive_name 2 9 9) (w_root (fst r)) = Some (AFile (make_archive 2 [wit_entry 9 4])).
Proof. vm_compute. repeat split; reflexivity. Qed.

Example ex_lossless :
  Forall line_wf [wit_line 5 1; LJunk; LEntry (mkJEntry 6 [99] [116] [([98], JInt 18446744073709551615); ([97], JFloat 4609434218613702656); ([98], JNested [91; 93])] 2)]
  /\ parse_lines [wit_line 5 1; LJunk; LEntry (mkJEntry 6 [99] [116] [([98], JInt 18446744073709551615); ([97], JFloat 4609434218613702656); ([98], JNested [91; 93])] 2)]
     = Some [wit_entry 5 1; mkEntry 6 [99] [116] [([97], SFloat 4609434218613702656); ([98], SUtf8 [91; 93])] 2].
Proof.
  split; [|vm_compute; reflexivity].
  repeat constructor; try (vm_compute; discriminate).
Qed.

Example ex_history_kept :
  let r1 := mkRound ex_wal 2 no_faults in
  let r2 := mkRound [(log_name 5, WFile [wit_line 9 9]); (log_name 2, WFile [wit_line 9 4])] 6 no_faults in
  NoDup (names (r_wal r1)) /\
  lookup (log_name 0) (snd (fst (run_round RMissing r1))) = None /\
  Forall (fun r' => name_reused (archive_name 0 5 6) (r_wal r') (r_keep r') = false) [r2] /\
  root_lookup (archive_name 0 5 6) (run_history RMissing [r1; r2])
  = Some (AFile (make_archive 0 [wit_entry 5 1; wit_entry 6 2])) /\
  recover_all (run_history RMissing [r1; r2])
  = Some [wit_entry 5 1; wit_entry 6 2; wit_entry 7 3; wit_entry 9 4; wit_entry 9 9].
Proof.
  cbv zeta. split; [exact ex_wal_nodup|].
  split; [vm_compute; reflexivity|].
  split; [constructor; [vm_compute; reflexivity|constructor]|].
  split; vm_compute; reflexivity.
Qed.

Definition no_nl (l : bytes) : Prop := forallb (fun x => negb (x =? 10)) l = true.

Lemma lines_of_pieces_app : forall A R, R <> [] -> lines_of_pieces (A ++ R) = map strip_cr A ++ lines_of_pieces R.
Proof.
  induction A as [|p A IH]; intros R HR; [reflexivity|].
  cbn [app map]. rewrite <- (IH R HR). cbn [lines_of_pieces].
  destruct (A ++ R) eqn:E; [|reflexivity].
  apply app_eq_nil in E. destruct E as [_ E]. contradiction.
Qed.

Lemma split_lines_app_nl : forall a r, split_lines (a ++ 10 :: r) = map strip_cr (split_on 10 a) ++ split_lines r.
Proof.
  intros a r. unfold split_lines. rewrite split_on_app_sep. apply lines_of_pieces_app.
  destruct (split_on_nonempty 10 r) as (h & t & ->). discriminate.
Qed.

Lemma split_lines_terminated : forall a, split_lines (a ++ [10]) = map strip_cr (split_on 10 a).
Proof. intro a. rewrite split_lines_app_nl. cbn. apply app_nil_r. Qed.

Lemma split_lines_app : forall a r, split_lines (a ++ 10 :: r) = split_lines (a ++ [10]) ++ split_lines r.
Proof. intros a r. rewrite split_lines_app_nl, split_lines_terminated. reflexivity. Qed.

Lemma split_lines_single : forall l, no_nl l -> l <> [] -> split_lines l = [l].
Proof.
  intros l H Hne. unfold split_lines. rewrite (split_on_no_sep 10 l H). cbn [lines_of_pieces].
  destruct l; [congruence|reflexivity].
Qed.

Lemma strip_cr_crlf : forall l, strip_cr (l ++ [13]) = l.
Proof.
  intro l. unfold strip_cr. rewrite <- !rev_alt, rev_app_distr. cbn [rev app]. rewrite N.eqb_refl, <- rev_alt.
  apply rev_involutive.
Qed.

Lemma file_lines_empty : forall cls, file_lines cls [] = [].
Proof. reflexivity. Qed.
Lemma file_lines_only_newline : forall cls, file_lines cls [10] = [cls []].
Proof. reflexivity. Qed.

(** after nothing, or after a newline, the lines of what follows do not depend on what came before *)
Lemma split_lines_boundary : forall pre x, (pre = [] \/ exists b, pre = b ++ [10]) ->
  split_lines (pre ++ x) = split_lines pre ++ split_lines x.
Proof. intros pre x [->|(b & ->)]; [reflexivity|]. rewrite <- app_assoc. apply split_lines_app. Qed.

Theorem last_line_without_newline : forall cls pre l,
  (pre = [] \/ exists b, pre = b ++ [10]) -> no_nl l -> l <> [] ->
  file_lines cls (pre ++ l) = file_lines cls pre ++ [cls l].
Proof.
  intros cls pre l Hpre Hl Hne. unfold file_lines.
  rewrite (split_lines_boundary _ _ Hpre), (split_lines_single l Hl Hne), map_app. reflexivity.
Qed.

Theorem crlf_terminated_line : forall cls pre l,
  (pre = [] \/ exists b, pre = b ++ [10]) -> no_nl l ->
  file_lines cls (pre ++ l ++ [13; 10]) = file_lines cls pre ++ [cls l].
Proof.
  intros cls pre l Hpre Hl. unfold file_lines.
  assert (E : split_lines (l ++ [13; 10]) = [l]).
  { change (l ++ [13; 10]) with (l ++ [13] ++ [10]). rewrite app_assoc, split_lines_terminated.
    rewrite (split_on_no_sep 10 (l ++ [13])).
    - cbn [map]. rewrite strip_cr_crlf. reflexivity.
    - unfold no_nl in Hl. rewrite forallb_app, Hl. reflexivity. }
  rewrite (split_lines_boundary _ _ Hpre), E, map_app. reflexivity.
Qed.

Lemma replay_entries_app : forall a b, replay_entries (a ++ b) = replay_entries a ++ replay_entries b.
Proof.
  induction a as [|l a IH]; intro b; cbn [app replay_entries]; [reflexivity|].
  destruct l; rewrite IH; reflexivity.
Qed.

(** what the archiver reads from a file is what WAL replay would restore from it *)
Lemma parse_lines_replay : forall ls es, parse_lines ls = Some es -> es = replay_entries ls.
Proof.
  induction ls as [|l ls IH]; intros es H; cbn [parse_lines replay_entries] in *.
  - inversion H. reflexivity.
  - destruct l as [| | |j]; try discriminate; auto.
    destruct (parse_lines ls) as [es'|]; [|discriminate]. inversion H. f_equal. auto.
Qed.

Theorem archive_complete_for_replay : forall fl w keep w' res n ls,
  NoDup (names (cleaner_dir w)) -> Forall line_wf ls ->
  cleanup_up_to true fl w keep = (w', res) ->
  In (n, WFile ls) (cleaner_dir w) -> lookup n (cleaner_dir w') = None ->
  exists id f, n = log_name id /\ a_log_id f = id /\
               root_lookup (afile_name f) (w_root w') = Some (AFile f) /\
               a_entries f = replay_entries ls.
Proof.
  intros fl w keep w' res n ls ND Hwf H Hin Hgone.
  destruct (deleted_implies_archived _ _ _ _ _ _ _ ND H Hin Hgone) as (id & es & En & _ & EP & Hh).
  exists id, (make_archive id es). repeat split; try assumption.
  rewrite (archive_roundtrip_lossless id ls es Hwf EP). apply parse_lines_replay. exact EP.
Qed.

Theorem unterminated_last_entry_archived : forall fl w keep w' res n cls pre l j,
  NoDup (names (cleaner_dir w)) -> Forall line_wf (file_lines cls (pre ++ l)) ->
  (pre = [] \/ exists b, pre = b ++ [10]) -> no_nl l -> l <> [] -> cls l = LEntry j ->
  cleanup_up_to true fl w keep = (w', res) ->
  In (n, WFile (file_lines cls (pre ++ l))) (cleaner_dir w) -> lookup n (cleaner_dir w') = None ->
  exists f, root_lookup (afile_name f) (w_root w') = Some (AFile f) /\
            a_entries f = replay_entries (file_lines cls pre) ++ [entry_of_json j].
Proof.
  intros fl w keep w' res n cls pre l j ND Hwf Hpre Hl Hne Hc H Hin Hgone.
  destruct (archive_complete_for_replay _ _ _ _ _ _ _ ND Hwf H Hin Hgone) as (id & f & _ & _ & Hr & He).
  exists f. split; [exact Hr|]. rewrite He, (last_line_without_newline cls pre l Hpre Hl Hne), replay_entries_app, Hc.
  reflexivity.
Qed.

Example ex_unterminated_last_entry :
  let cls := fun b => if bytes_eqb b [65] then wit_line 5 1 else if bytes_eqb b [66] then wit_line 6 2 else LJunk in
  (* content "A\r\nB" : entry, CRLF, entry without newline *)
  let w := mkWorld [(log_name 0, WFile (file_lines cls [65; 13; 10; 66]))] None RMissing in
  let r := cleanup_up_to true no_faults w 1 in
  file_lines cls [65; 13; 10; 66] = [wit_line 5 1; wit_line 6 2] /\
  w_wal (fst r) = [] /\ recover_all (w_root (fst r)) = Some [wit_entry 5 1; wit_entry 6 2].
Proof. vm_compute. repeat split; reflexivity. Qed.
