(** Proofs about Model/Agg.v (C09).  The states of one metric kind form a commutative monoid under
    [merge_state] with unit [agg_init k].  A row update is a merge with the one-cell state, so
    [run k] is a morphism from lists of cells, of whatever cells.  The wire cannot be observed (it
    is the identity up to [nf]) except that it maps the unit of MIN to a state that is not a unit:
    the one known class. *)
From Coq Require Import ZArith List Bool Lia Permutation Sorting.Sorted.
From Coq Require Import ZifyN.
From Snel Require Import Base.Bytes Model.Order Model.Bucket Model.Agg.
From Snel Require Import Proofs.ListFacts Proofs.BytesFacts Proofs.AssocFacts Proofs.SortMergeProofs Proofs.OrderProofs.
Import ListNotations.
Open Scope Z_scope.

(* a proposition; the [in_i64] of Model/Validate.v and Model/Value.v are booleans, and whichever is imported
   last hides the other *)
Definition in_i64 (z : Z) : Prop := - two63 <= z < two63.

Lemma wrap_i64_range : forall z, in_i64 (wrap_i64 z).
Proof.
  intros z. unfold in_i64, wrap_i64, two63, two64.
  pose proof (Z.mod_pos_bound (z + 9223372036854775808) 18446744073709551616 ltac:(lia)). lia.
Qed.

Lemma wrap_i64_id : forall z, in_i64 z -> wrap_i64 z = z.
Proof.
  intros z H. unfold in_i64, wrap_i64, two63, two64 in *.
  rewrite Z.mod_small by lia. lia.
Qed.

Lemma wrap_i64_add_l : forall x y, wrap_i64 (wrap_i64 x + y) = wrap_i64 (x + y).
Proof.
  intros x y. unfold wrap_i64.
  replace ((x + two63) mod two64 - two63 + y + two63) with ((x + two63) mod two64 + y) by lia.
  rewrite Zplus_mod_idemp_l. f_equal. f_equal. lia.
Qed.

Lemma wrap_i64_add_r : forall x y, wrap_i64 (x + wrap_i64 y) = wrap_i64 (x + y).
Proof. intros x y. rewrite Z.add_comm, wrap_i64_add_l. f_equal. lia. Qed.

Lemma min_z_min : forall a b, min_z a b = Z.min a b.
Proof. intros a b. unfold min_z. destruct (Z.ltb_spec b a); lia. Qed.
Lemma max_z_max : forall a b, max_z a b = Z.max a b.
Proof. intros a b. unfold max_z. destruct (Z.ltb_spec a b); lia. Qed.
Lemma min_z_comm : forall a b, min_z a b = min_z b a.
Proof. intros. rewrite !min_z_min. apply Z.min_comm. Qed.
Lemma min_z_assoc : forall a b c, min_z (min_z a b) c = min_z a (min_z b c).
Proof. intros. rewrite !min_z_min. symmetry. apply Z.min_assoc. Qed.
Lemma max_z_comm : forall a b, max_z a b = max_z b a.
Proof. intros. rewrite !max_z_max. apply Z.max_comm. Qed.
Lemma max_z_assoc : forall a b c, max_z (max_z a b) c = max_z a (max_z b c).
Proof. intros. rewrite !max_z_max. symmetry. apply Z.max_assoc. Qed.

Lemma min_z_range : forall a b, in_i64 a -> in_i64 b -> in_i64 (min_z a b).
Proof. intros a b. unfold min_z. destruct (b <? a); auto. Qed.
Lemma max_z_range : forall a b, in_i64 a -> in_i64 b -> in_i64 (max_z a b).
Proof. intros a b. unfold max_z. destruct (a <? b); auto. Qed.

Lemma bytes_ltb_lt : forall a b, bytes_ltb a b = true <-> bytes_cmp a b = Lt.
Proof. intros a b. unfold bytes_ltb. destruct (bytes_cmp a b); split; congruence. Qed.

Lemma min_b_lesser : forall a b, min_b a b = lesser bytes_cmp a b.
Proof. intros a b. unfold min_b, bytes_ltb, lesser. destruct (bytes_cmp b a); reflexivity. Qed.

Lemma max_b_lesser : forall a b, max_b a b = lesser (fun x y => CompOpp (bytes_cmp x y)) a b.
Proof.
  intros a b. unfold max_b, bytes_ltb, lesser. rewrite (bytes_cmp_antisym a b).
  destruct (bytes_cmp a b); reflexivity.
Qed.

Lemma bytes_cmp_flip_eq : forall a b, CompOpp (bytes_cmp a b) = Eq -> a = b.
Proof. intros a b H. apply bytes_cmp_eq. destruct (bytes_cmp a b); [reflexivity|discriminate H|discriminate H]. Qed.

Lemma min_b_comm : forall a b, min_b a b = min_b b a.
Proof. intros. rewrite !min_b_lesser. apply (lesser_comm _ bytes_cmp_tp bytes_cmp_eq). Qed.
Lemma max_b_comm : forall a b, max_b a b = max_b b a.
Proof. intros. rewrite !max_b_lesser. apply (lesser_comm _ (flip_tp _ bytes_cmp_tp) bytes_cmp_flip_eq). Qed.
Lemma min_b_assoc : forall a b c, min_b (min_b a b) c = min_b a (min_b b c).
Proof. intros. rewrite !min_b_lesser. apply (lesser_assoc _ bytes_cmp_tp bytes_cmp_eq). Qed.
Lemma max_b_assoc : forall a b c, max_b (max_b a b) c = max_b a (max_b b c).
Proof. intros. rewrite !max_b_lesser. apply (lesser_assoc _ (flip_tp _ bytes_cmp_tp) bytes_cmp_flip_eq). Qed.

Lemma opt_merge_comm : forall {A} (f : A -> A -> A), (forall a b, f a b = f b a) ->
  forall a b, opt_merge f a b = opt_merge f b a.
Proof. intros A f H [a|] [b|]; cbn; try reflexivity. now rewrite H. Qed.

Lemma opt_merge_assoc : forall {A} (f : A -> A -> A), (forall a b c, f (f a b) c = f a (f b c)) ->
  forall a b c, opt_merge f (opt_merge f a b) c = opt_merge f a (opt_merge f b c).
Proof. intros A f H [a|] [b|] [c|]; cbn; try reflexivity. now rewrite H. Qed.

Lemma opt_merge_none_r : forall {A} (f : A -> A -> A) a, opt_merge f a None = a.
Proof. intros A f [a|]; reflexivity. Qed.

Definition blt (a b : bytes) : Prop := bytes_cmp a b = Lt.
Definition sset (l : list bytes) : Prop := StronglySorted blt l.

Lemma set_insert_in : forall x y l, In y (set_insert x l) <-> y = x \/ In y l.
Proof.
  intros x y l. apply (insert_in set_insert); [reflexivity|]. intros z r. cbn [set_insert].
  destruct (bytes_cmp x z) eqn:E; auto. apply bytes_cmp_eq in E. auto.
Qed.

Lemma set_insert_sset : forall x l, sset l -> sset (set_insert x l).
Proof.
  induction l as [|z r IH]; intros S; cbn.
  - repeat constructor.
  - inversion S as [|? ? S' F]; subst. destruct (bytes_cmp x z) eqn:E.
    + exact S.
    + constructor; [exact S|]. constructor; [exact E|].
      apply Forall_forall. intros w Hw. rewrite Forall_forall in F.
      eapply bytes_cmp_lt_trans; [exact E|apply F, Hw].
    + constructor; [apply IH; exact S'|]. apply Forall_forall. intros w Hw. apply set_insert_in in Hw.
      destruct Hw as [->|Hw]; [now apply bytes_cmp_gt_lt|]. rewrite Forall_forall in F. auto.
Qed.

Lemma sset_ext : forall l1 l2, sset l1 -> sset l2 -> (forall x, In x l1 <-> In x l2) -> l1 = l2.
Proof.
  induction l1 as [|a l1 IH]; intros l2 S1 S2 H.
  - destruct l2 as [|b l2]; [reflexivity|]. exfalso. apply (H b). now left.
  - destruct l2 as [|b l2]; [exfalso; apply (H a); now left|].
    inversion S1 as [|? ? S1' F1]; subst. inversion S2 as [|? ? S2' F2]; subst.
    rewrite Forall_forall in F1, F2.
    assert (a = b).
    { destruct (proj1 (H a) (or_introl eq_refl)) as [E|Ha]; [now symmetry|].
      destruct (proj2 (H b) (or_introl eq_refl)) as [E|Hb]; [exact E|].
      pose proof (F1 b Hb) as L1. pose proof (F2 a Ha) as L2. unfold blt in *.
      pose proof (bytes_cmp_lt_trans a b a L1 L2) as C. rewrite bytes_cmp_refl in C. discriminate. }
    subst b. f_equal. apply IH; auto. intros x. split; intros Hx.
    + destruct (proj1 (H x) (or_intror Hx)) as [E|Hx']; [|exact Hx'].
      subst x. pose proof (F1 a Hx) as C. unfold blt in C. rewrite bytes_cmp_refl in C. discriminate.
    + destruct (proj2 (H x) (or_intror Hx)) as [E|Hx']; [|exact Hx'].
      subst x. pose proof (F2 a Hx) as C. unfold blt in C. rewrite bytes_cmp_refl in C. discriminate.
Qed.

Lemma set_union_in : forall a b x, In x (set_union a b) <-> In x a \/ In x b.
Proof.
  intros a b x. unfold set_union. rewrite (fold_insert_in set_insert (fun z s y => set_insert_in z y s)). tauto.
Qed.

Lemma set_union_sset : forall a b, sset a -> sset (set_union a b).
Proof. intros a b S. induction b as [|y b IH]; cbn; [exact S|now apply set_insert_sset]. Qed.

Lemma set_union_comm : forall a b, sset a -> sset b -> set_union a b = set_union b a.
Proof.
  intros a b Sa Sb. apply sset_ext; try now apply set_union_sset.
  intros x. rewrite !set_union_in. tauto.
Qed.

Lemma set_union_assoc : forall a b c, sset a ->
  set_union (set_union a b) c = set_union a (set_union b c).
Proof.
  intros a b c Sa. apply sset_ext.
  - now apply set_union_sset, set_union_sset.
  - now apply set_union_sset.
  - intros x. rewrite !set_union_in. tauto.
Qed.

Lemma set_union_nil_l : forall b, sset b -> set_union [] b = b.
Proof.
  intros b Sb. apply sset_ext; [apply set_union_sset; constructor|exact Sb|].
  intros x. rewrite set_union_in. cbn. tauto.
Qed.

Definition unparsable (s : option bytes) : Prop :=
  match s with Some x => parse_i64 x = None | None => True end.
Definition opt_in_i64 (n : option Z) : Prop :=
  match n with Some v => in_i64 v | None => True end.

Definition wf (k : mkind) (a : agg) : Prop :=
  match k, a with
  | (MCountAll | MCountField), ACount n => in_i64 n
  | MCountUnique, AUnique s => sset s
  | MTotal, ASum s => in_i64 s
  | MAvg, AAvg s c => in_i64 s /\ in_i64 c
  | MMin, AMin n s => opt_in_i64 n /\ unparsable s
  | MMax, AMax n s => opt_in_i64 n /\ unparsable s
  | _, _ => False
  end.

(** [wf] without the range of a MIN/MAX number: what the monoid laws and the wire need of a state, and every fold of
    cells has ([run_shaped]) *)
Definition shaped (k : mkind) (a : agg) : Prop :=
  match k, a with
  | (MCountAll | MCountField), ACount n => in_i64 n
  | MCountUnique, AUnique s => sset s
  | MTotal, ASum s => in_i64 s
  | MAvg, AAvg s c => in_i64 s /\ in_i64 c
  | MMin, AMin _ s | MMax, AMax _ s => unparsable s
  | _, _ => False
  end.

Definition ranged (a : agg) : Prop :=
  match a with AMin n _ | AMax n _ => opt_in_i64 n | _ => True end.

Lemma wf_split : forall k a, wf k a <-> shaped k a /\ ranged a.
Proof. intros k a. destruct k, a; cbn; tauto. Qed.

Lemma in_i64_0 : in_i64 0.
Proof. unfold in_i64, two63. lia. Qed.

Lemma shaped_init : forall k, shaped k (agg_init k).
Proof. intros []; cbn; auto using in_i64_0; try constructor. Qed.

Lemma parse_i64_range : forall s z, parse_i64 s = Some z -> in_i64 z.
Proof.
  intros s z H. unfold parse_i64 in H. destruct (parse_int s) as [y|]; [|discriminate].
  destruct ((i64_lo <=? y) && (y <=? i64_hi)) eqn:E; [|discriminate]. injection H as <-.
  unfold in_i64, i64_lo, i64_hi, two63 in *. lia.
Qed.

(** the cells of well-typed batches: typed integers are i64 values *)
Definition cell_ok (c : cell) : Prop := match c with CInt z => in_i64 z | _ => True end.

Lemma cell_i64_range : forall c z, cell_ok c -> cell_i64 c = Some z -> in_i64 z.
Proof. intros [z'| |s] z H E; cbn in *; try discriminate; [congruence|eapply parse_i64_range; eassumption]. Qed.

Definition run (k : mkind) (l : list cell) : agg := fold_left (upd k) l (agg_init k).

Lemma run_one : forall k c, run k [c] = upd k (agg_init k) c.
Proof. reflexivity. Qed.

Lemma upd_as_merge : forall k a c, shaped k a -> upd k a c = merge_state a (run k [c]).
Proof.
  intros k a c W. rewrite run_one.
  destruct k, a; cbn in W; try contradiction; cbn [upd agg_init merge_state].
  6, 7: destruct (cell_i64 c); cbn [merge_state opt_merge]; [now rewrite opt_merge_none_r|];
    destruct (cell_str c); cbn [merge_state opt_merge]; rewrite ?opt_merge_none_r; reflexivity.
  - now rewrite wrap_i64_add_r.
  - destruct c; rewrite ?wrap_i64_add_r; try reflexivity. now rewrite Z.add_0_r, wrap_i64_id.
  - reflexivity.
  - destruct (cell_i64 c); cbn [merge_state]; [now rewrite wrap_i64_add_r|]. now rewrite Z.add_0_r, wrap_i64_id.
  - destruct (cell_i64 c); cbn [merge_state]; [now rewrite !wrap_i64_add_r|].
    now rewrite !Z.add_0_r, !wrap_i64_id.
Qed.

Lemma unparsable_merge : forall f a b, (forall x y, f x y = x \/ f x y = y) ->
  unparsable a -> unparsable b -> unparsable (opt_merge f a b).
Proof.
  intros f [a|] [b|] Hf Ha Hb; cbn in *; auto. destruct (Hf a b) as [->| ->]; assumption.
Qed.

Lemma min_b_either : forall x y, min_b x y = x \/ min_b x y = y.
Proof. intros x y. rewrite min_b_lesser. apply (lesser_glb _ bytes_cmp_tp). Qed.
Lemma max_b_either : forall x y, max_b x y = x \/ max_b x y = y.
Proof. intros x y. rewrite max_b_lesser. apply (lesser_glb _ (flip_tp _ bytes_cmp_tp)). Qed.

Lemma shaped_merge : forall k a b, shaped k a -> shaped k b -> shaped k (merge_state a b).
Proof.
  intros k a b Wa Wb. destruct k, a; cbn in Wa; try contradiction; destruct b; cbn in Wb; try contradiction;
    cbn [merge_state shaped]; try apply wrap_i64_range.
  - now apply set_union_sset.
  - split; apply wrap_i64_range.
  - apply unparsable_merge; auto using min_b_either.
  - apply unparsable_merge; auto using max_b_either.
Qed.

Theorem merge_state_comm : forall k a b, shaped k a -> shaped k b -> merge_state a b = merge_state b a.
Proof.
  intros k a b Wa Wb. destruct k, a; cbn in Wa; try contradiction; destruct b; cbn in Wb; try contradiction;
    cbn [merge_state]; try (f_equal; f_equal; lia).
  - f_equal. now apply set_union_comm.
  - f_equal; apply opt_merge_comm; auto using min_z_comm, min_b_comm.
  - f_equal; apply opt_merge_comm; auto using max_z_comm, max_b_comm.
Qed.

Theorem merge_state_assoc : forall k a b c, shaped k a -> shaped k b -> shaped k c ->
  merge_state (merge_state a b) c = merge_state a (merge_state b c).
Proof.
  intros k a b c Wa Wb Wc.
  destruct k, a; cbn in Wa; try contradiction; destruct b; cbn in Wb; try contradiction;
    destruct c; cbn in Wc; try contradiction; cbn [merge_state];
    try (f_equal; rewrite wrap_i64_add_l, wrap_i64_add_r; f_equal; lia).
  - f_equal. now apply set_union_assoc.
  - f_equal; apply opt_merge_assoc; auto using min_z_assoc, min_b_assoc.
  - f_equal; apply opt_merge_assoc; auto using max_z_assoc, max_b_assoc.
Qed.

Lemma merge_init_l : forall k a, shaped k a -> merge_state (agg_init k) a = a.
Proof.
  intros k a W. destruct k, a; cbn in W; try contradiction; cbn [agg_init merge_state];
    rewrite ?Z.add_0_l; try (f_equal; now apply wrap_i64_id).
  f_equal. now apply set_union_nil_l.
Qed.

Lemma merge_init_r : forall k a, shaped k a -> merge_state a (agg_init k) = a.
Proof.
  intros k a W. rewrite (merge_state_comm k) by auto using shaped_init. now apply merge_init_l.
Qed.

Lemma shaped_upd : forall k a c, shaped k a -> shaped k (upd k a c).
Proof.
  intros k a c W. destruct k, a; cbn in W; try contradiction; cbn [upd].
  - apply wrap_i64_range.
  - destruct c; try apply wrap_i64_range; exact W.
  - now apply set_insert_sset.
  - destruct (cell_i64 c); [apply wrap_i64_range|exact W].
  - destruct (cell_i64 c); [split; apply wrap_i64_range|exact W].
  - destruct (cell_i64 c) eqn:E; [exact W|]. destruct c; cbn [cell_str]; try exact W.
    apply unparsable_merge; auto using min_b_either.
  - destruct (cell_i64 c) eqn:E; [exact W|]. destruct c; cbn [cell_str]; try exact W.
    apply unparsable_merge; auto using max_b_either.
Qed.

Lemma fold_upd_shaped : forall k l a, shaped k a -> shaped k (fold_left (upd k) l a).
Proof. induction l as [|c l IH]; intros a W; cbn; auto using shaped_upd. Qed.

Lemma run_shaped : forall k l, shaped k (run k l).
Proof. intros k l. apply fold_upd_shaped, shaped_init. Qed.

Lemma fold_upd_merge : forall k l a, shaped k a -> fold_left (upd k) l a = merge_state a (run k l).
Proof.
  intros k l. induction l as [|c l IH]; intros a W.
  - cbn. now rewrite merge_init_r.
  - unfold run. cbn [fold_left].
    rewrite (IH (upd k a c)), (IH (upd k (agg_init k) c)), (upd_as_merge k a c W)
      by auto using shaped_upd, shaped_init.
    apply (merge_state_assoc k); auto using shaped_upd, shaped_init, run_shaped.
Qed.

Theorem run_app : forall k l1 l2, run k (l1 ++ l2) = merge_state (run k l1) (run k l2).
Proof.
  intros k l1 l2. unfold run at 1. rewrite fold_left_app. fold (run k l1). apply fold_upd_merge, run_shaped.
Qed.

(* [rewrite !run_cons] does not end: [run k [c]] is a cons again *)
Lemma run_cons : forall k c l, run k (c :: l) = merge_state (run k [c]) (run k l).
Proof. intros k c l. apply (run_app k [c] l). Qed.

Theorem run_perm : forall k l1 l2, Permutation l1 l2 -> run k l1 = run k l2.
Proof.
  intros k l1 l2 P. induction P as [|x l l' P IH|x y l|l l' l'' P1 IH1 P2 IH2].
  - reflexivity.
  - now rewrite (run_cons k x l), (run_cons k x l'), IH.
  - rewrite (run_cons k y (x :: l)), (run_cons k x l), (run_cons k x (y :: l)), (run_cons k y l).
    rewrite <- !(merge_state_assoc k) by apply run_shaped.
    f_equal. apply (merge_state_comm k); apply run_shaped.
  - now rewrite IH1.
Qed.

Lemma wf_init : forall k, wf k (agg_init k).
Proof. intros k. apply wf_split. split; [apply shaped_init|]. destruct k; exact I. Qed.

Lemma opt_in_i64_merge : forall f a b, (forall x y, in_i64 x -> in_i64 y -> in_i64 (f x y)) ->
  opt_in_i64 a -> opt_in_i64 b -> opt_in_i64 (opt_merge f a b).
Proof. intros f [a|] [b|] Hf Ha Hb; cbn in *; auto. Qed.

Lemma wf_merge : forall k a b, wf k a -> wf k b -> wf k (merge_state a b).
Proof.
  intros k a b Wa Wb. apply wf_split in Wa, Wb. destruct Wa as [Sa Ra], Wb as [Sb Rb].
  apply wf_split. split; [now apply (shaped_merge k)|].
  destruct a, b; try exact Ra; cbn [merge_state ranged];
    apply opt_in_i64_merge; auto using min_z_range, max_z_range.
Qed.

Lemma wf_cell : forall k c, cell_ok c -> wf k (run k [c]).
Proof.
  intros k c Hc. apply wf_split. split; [apply run_shaped|]. rewrite run_one.
  destruct k; cbn [agg_init upd]; try exact I.
  - destruct c; exact I.
  - destruct (cell_i64 c); exact I.
  - destruct (cell_i64 c); exact I.
  - destruct (cell_i64 c) as [v|] eqn:E; [exact (cell_i64_range c v Hc E)|]. destruct (cell_str c); exact I.
  - destruct (cell_i64 c) as [v|] eqn:E; [exact (cell_i64_range c v Hc E)|]. destruct (cell_str c); exact I.
Qed.

Lemma run_wf : forall k l, Forall cell_ok l -> wf k (run k l).
Proof.
  intros k l F. induction F as [|c l Hc F IH]; [apply wf_init|].
  rewrite run_cons. apply wf_merge; [now apply wf_cell|exact IH].
Qed.

Definition cell_ints (l : list cell) : list Z :=
  flat_map (fun c => match cell_i64 c with Some v => [v] | None => [] end) l.

Definition zsum (l : list Z) : Z := fold_right Z.add 0 l.

Lemma cell_ints_cons : forall c l,
  cell_ints (c :: l) = match cell_i64 c with Some v => [v] | None => [] end ++ cell_ints l.
Proof. reflexivity. Qed.

Theorem total_is_wrapped_sum : forall l,
  run MTotal l = ASum (wrap_i64 (zsum (cell_ints l))).
Proof.
  induction l as [|c l IH]; [reflexivity|]. rewrite run_cons, IH, cell_ints_cons, run_one. cbn [agg_init upd].
  destruct (cell_i64 c) as [v|]; cbn [merge_state app]; rewrite ?wrap_i64_add_l, wrap_i64_add_r; reflexivity.
Qed.

Corollary total_exact_when_fits : forall l,
  in_i64 (zsum (cell_ints l)) -> finalize (run MTotal l) = FInt (zsum (cell_ints l)).
Proof. intros l H. rewrite total_is_wrapped_sum. cbn. now rewrite wrap_i64_id. Qed.

(** what of a state can be observed, by [finalize] now or after further merges *)
Definition nf (a : agg) : agg :=
  match a with
  | AMin (Some n) _ => AMin (Some n) None
  | AMax (Some n) _ => AMax (Some n) None
  | AMax None (Some []) => AMax None None
  | _ => a
  end.

Lemma finalize_nf : forall a, finalize (nf a) = finalize a.
Proof. intros [ | | | |[n|] [s|]|[n|] [[|c s]|]]; reflexivity. Qed.

Lemma nf_merge : forall a b, nf (merge_state a b) = nf (merge_state (nf a) (nf b)).
Proof.
  intros [ | | | |[n|] [s|]|[n|] [[|c s]|]] [ | | | |[m|] [t|]|[m|] [[|d t]|]]; reflexivity.
Qed.

Lemma nf_fold_merge : forall xs ys a a', nf a = nf a' -> map nf xs = map nf ys ->
  nf (fold_left merge_state xs a) = nf (fold_left merge_state ys a').
Proof.
  induction xs as [|x xs IH]; intros [|y ys] a a' Ha H; try discriminate H; [exact Ha|].
  injection H as Hx H. cbn [fold_left]. apply IH; [|exact H]. rewrite nf_merge, Ha, Hx. symmetry. apply nf_merge.
Qed.

Definition min_untouched (k : mkind) (a : agg) : Prop :=
  k = MMin /\ a = AMin None None.

(** a MIN that was never updated arrives as the empty string, which [min_b] returns (and [max_b] ignores) *)
Theorem wire_nf : forall k a, shaped k a -> ~ min_untouched k a -> nf (wire a) = nf a.
Proof.
  intros k a W U. destruct k, a; cbn in W; try contradiction; try reflexivity.
  - destruct num as [n|]; [reflexivity|]. destruct str as [s|].
    + cbn in W. unfold wire, snapshot, snap_minmax. now rewrite W.
    + exfalso. apply U. split; reflexivity.
  - destruct num as [n|]; [reflexivity|]. destruct str as [s|]; [|reflexivity].
    cbn in W. unfold wire, snapshot, snap_minmax. now rewrite W.
Qed.

Definition abc : bytes := [97; 98; 99]%N.
Theorem agg_partition_min_refuted :
  exists l1 l2, finalize (merge_state (wire (run MMin l1)) (wire (run MMin l2)))
                <> finalize (wire (run MMin (l1 ++ l2))).
Proof. exists [CNull], [CStr abc]. vm_compute. discriminate. Qed.

Definition part (k : mkind) (l : list cell) : agg := wire (run k l).

(** The first part stands apart: the coordinator keeps the first partial row that arrives for a key as it is
    ([coord_step], [None => snd e]) and merges the later ones into it, and [wire (agg_init MMin)] is not a unit of
    [merge_state] from which the fold could start. *)
Definition merge_parts (k : mkind) (p : list cell) (ps : list (list cell)) : agg :=
  fold_left merge_state (map (part k) ps) (part k p).

(** the part updates the MIN aggregator at least once *)
Definition touches (k : mkind) (l : list cell) : Prop :=
  k = MMin -> exists c, In c l /\ c <> CNull.

Lemma merge_untouched : forall a b, shaped MMin a -> shaped MMin b ->
  merge_state a b = AMin None None -> a = AMin None None /\ b = AMin None None.
Proof.
  intros [| | | |[n|] [s|]|] [| | | |[m|] [t|]|] Wa Wb; cbn in Wa, Wb; try contradiction; cbn; intros [=]; auto.
Qed.

Lemma touched_not_untouched : forall k l, touches k l -> ~ min_untouched k (run k l).
Proof.
  intros k l T [-> E]. destruct (T eq_refl) as (c & Hc & Nc).
  apply in_split in Hc. destruct Hc as (l1 & l2 & ->). change (c :: l2) with ([c] ++ l2) in *.
  rewrite (run_app _ l1), (run_app _ [c]) in E.
  apply merge_untouched in E; auto using run_shaped, shaped_merge. destruct E as [_ E].
  apply merge_untouched in E; auto using run_shaped. destruct E as [E _].
  rewrite run_one in E. destruct c as [z| |x]; [discriminate E|congruence|].
  cbn [upd agg_init cell_i64] in E. destruct (parse_i64 x); discriminate E.
Qed.

Lemma part_nf : forall k l, touches k l -> nf (part k l) = nf (run k l).
Proof. intros k l T. apply (wire_nf k); auto using run_shaped, touched_not_untouched. Qed.

Lemma run_concat : forall k ps p, fold_left merge_state (map (run k) ps) (run k p) = run k (p ++ concat ps).
Proof.
  intros k ps. induction ps as [|q ps IH]; intros p; cbn [map fold_left concat].
  - now rewrite app_nil_r.
  - now rewrite <- run_app, IH, app_assoc.
Qed.

Theorem agg_partition_cells : forall k p ps, touches k p -> Forall (touches k) ps ->
  nf (merge_parts k p ps) = nf (part k (p ++ concat ps)).
Proof.
  intros k p ps Tp Tps. rewrite part_nf, <- run_concat.
  - apply nf_fold_merge; [now apply part_nf|]. rewrite !map_map. apply map_ext_in. intros q Hq.
    rewrite Forall_forall in Tps. apply part_nf; auto.
  - intros Hk. destruct (Tp Hk) as (c & Hc & Nc). exists c. split; [apply in_or_app; now left|exact Nc].
Qed.

Corollary agg_partition_final : forall k p ps, touches k p -> Forall (touches k) ps ->
  finalize (merge_parts k p ps) = finalize (part k (p ++ concat ps)).
Proof.
  intros. rewrite <- (finalize_nf (merge_parts _ _ _)), <- (finalize_nf (part _ _)).
  f_equal. now apply agg_partition_cells.
Qed.

Example agg_partition_nonvacuous :
  let p := [CInt 5; CNull] in let ps := [[CStr abc]; [CInt (-2); CStr [55%N]]] in
  Forall cell_ok p /\ Forall (Forall cell_ok) ps /\ touches MMin p /\ Forall (touches MMin) ps
  /\ finalize (merge_parts MMin p ps) = FInt (-2).
Proof.
  cbn. repeat split; try (repeat constructor; unfold in_i64, two63; try lia).
  - intros _. exists (CInt 5). split; [now left|discriminate].
  - intros _. exists (CStr abc). split; [now left|discriminate].
  - intros _. exists (CInt (-2)). split; [now left|discriminate].
Qed.

Lemma list_eqb_eq : forall {A} (e : A -> A -> bool), (forall a b, e a b = true <-> a = b) ->
  forall a b, list_eqb e a b = true <-> a = b.
Proof.
  intros A e He. induction a as [|x a IH]; intros [|y b]; cbn; split; try discriminate; try reflexivity.
  - rewrite andb_true_iff, He, IH. intros [-> ->]. reflexivity.
  - intros [= -> ->]. rewrite andb_true_iff, He, IH. auto.
Qed.

Lemma gkey_eqb_eq : forall a b : gkey, gkey_eqb a b = true <-> a = b.
Proof.
  intros [[x|] ga] [[y|] gb]; unfold gkey_eqb; cbn [fst snd];
    rewrite ?andb_true_iff, ?(list_eqb_eq bytes_eqb bytes_eqb_eq), ?Z.eqb_eq; split;
    try (intros [H1 H2]; congruence); try (intros [= ]; subst; auto).
Qed.

Lemma gkey_eqb_refl : forall a, gkey_eqb a a = true.
Proof. intros a. now apply gkey_eqb_eq. Qed.

Lemma gkey_eqb_neq : forall a b, gkey_eqb a b = false <-> a <> b.
Proof. intros a b. rewrite <- gkey_eqb_eq. destruct (gkey_eqb a b); split; congruence. Qed.

Section Assoc.
  Context {V : Type}.

  Fixpoint lookup (k : gkey) (st : list (gkey * V)) : option V :=
    match st with
    | [] => None
    | (k', v) :: r => if gkey_eqb k k' then Some v else lookup k r
    end.

  Lemma lookup_upsert : forall k k' f st,
    lookup k' (upsert k f st) = if gkey_eqb k' k then Some (f (lookup k st)) else lookup k' st.
  Proof. intros. apply (assoc_upd_get gkey_eqb lookup gkey_eqb_eq); reflexivity. Qed.

  Lemma lookup_upsert_same : forall k f st, lookup k (upsert k f st) = Some (f (lookup k st)).
  Proof. intros. now rewrite lookup_upsert, gkey_eqb_refl. Qed.

  Lemma lookup_upsert_other : forall k k' f st, k <> k' -> lookup k' (upsert k f st) = lookup k' st.
  Proof. intros k k' f st N. rewrite lookup_upsert, (proj2 (gkey_eqb_neq k' k)); congruence. Qed.

  Lemma upsert_keys_in : forall k f (st : list (gkey * V)) k', In k' (map fst (upsert k f st)) <-> k' = k \/ In k' (map fst st).
  Proof. intros. apply (assoc_upd_keys_in gkey_eqb lookup gkey_eqb_eq); reflexivity. Qed.

  Lemma upsert_nodup : forall k f (st : list (gkey * V)), NoDup (map fst st) -> NoDup (map fst (upsert k f st)).
  Proof. intros k f st. apply (assoc_upd_nodup gkey_eqb lookup gkey_eqb_eq); reflexivity. Qed.

  Lemma lookup_in_keys : forall k (st : list (gkey * V)), lookup k st <> None <-> In k (map fst st).
  Proof. intros. apply (assoc_some_iff gkey_eqb lookup gkey_eqb_eq); reflexivity. Qed.

  (** A fold that files every element under its key, as the sink does with the rows of a flow and the coordinator
      with the partial rows: the entry of [k] is the fold over exactly the elements whose key is [k], in order. *)
  Lemma fold_upsert_lookup {E} (key : E -> gkey) (g : option V -> E -> V) : forall rows st k,
    lookup k (fold_left (fun st e => upsert (key e) (fun o => g o e) st) rows st) =
    match filter (fun e => gkey_eqb (key e) k) rows with
    | [] => lookup k st
    | e :: es => Some (fold_left (fun v e => g (Some v) e) es (g (lookup k st) e))
    end.
  Proof.
    induction rows as [|e rows IH]; intros st k; cbn [fold_left filter]; [reflexivity|].
    rewrite IH. destruct (gkey_eqb (key e) k) eqn:Ek.
    - apply gkey_eqb_eq in Ek. subst k. rewrite lookup_upsert_same.
      destruct (filter (fun e0 => gkey_eqb (key e0) (key e)) rows); reflexivity.
    - apply gkey_eqb_neq in Ek. rewrite lookup_upsert_other by exact Ek. reflexivity.
  Qed.

  Lemma fold_upsert_nodup {E} (key : E -> gkey) (g : option V -> E -> V) : forall rows st,
    NoDup (map fst st) -> NoDup (map fst (fold_left (fun st e => upsert (key e) (fun o => g o e) st) rows st)).
  Proof.
    induction rows as [|e rows IH]; intros st ND; cbn [fold_left]; [exact ND|]. now apply IH, upsert_nodup.
  Qed.
End Assoc.

Definition sel (p : plan) (k : gkey) (rs : list crow) : list crow :=
  filter (fun r => gkey_eqb (row_key p r) k) rs.

Lemma sel_In : forall p k rs r, In r (sel p k rs) <-> In r rs /\ row_key p r = k.
Proof. intros p k rs r. unfold sel. rewrite filter_In, gkey_eqb_eq. reflexivity. Qed.

Lemma sink_lookup : forall p rs st k,
  lookup k (fold_left (sink_step p) rs st) =
  match sel p k rs with
  | [] => lookup k st
  | l => Some (fold_left (upd_all (p_metrics p)) l
                 (match lookup k st with Some a => a | None => init_all (p_metrics p) end))
  end.
Proof.
  intros p rs st k.
  exact (fold_upsert_lookup (row_key p)
           (fun o r => upd_all (p_metrics p) (match o with Some a => a | None => init_all (p_metrics p) end) r) rs st k).
Qed.

Theorem each_event_one_group : forall p rs,
  NoDup (map fst (sink_rows p rs))
  /\ (forall k, lookup k (sink_rows p rs) =
                match sel p k rs with
                | [] => None
                | l => Some (fold_left (upd_all (p_metrics p)) l (init_all (p_metrics p)))
                end)
  /\ (forall r, In r rs -> In r (sel p (row_key p r) rs)
                           /\ forall k, k <> row_key p r -> ~ In r (sel p k rs))
  /\ (forall r, In r rs -> In (row_key p r) (map fst (sink_rows p rs))).
Proof.
  intros p rs. unfold sink_rows.
  assert (L : forall k, lookup k (fold_left (sink_step p) rs []) =
                match sel p k rs with
                | [] => None
                | l => Some (fold_left (upd_all (p_metrics p)) l (init_all (p_metrics p)))
                end).
  { intros k. rewrite sink_lookup. reflexivity. }
  split; [apply fold_upsert_nodup; constructor|]. split; [exact L|]. split.
  - intros r Hr. split; [apply sel_In; auto|].
    intros k Nk Hin. apply sel_In in Hin. destruct Hin as [_ E]. congruence.
  - intros r Hr. apply lookup_in_keys. rewrite L.
    assert (Hs : In r (sel p (row_key p r) rs)) by (apply sel_In; auto).
    destruct (sel p (row_key p r) rs); [contradiction|discriminate].
Qed.

(** Of the list the window is cut from, the statement says only that it is a permutation of the groups (the bound
    name [sorted] promises no more): its order is [lex_cmp] over [out_key], which compares the group texts as [VStr]
    with [scalar_compare], no preorder there ([cmp_total_refuted]). *)
Theorem limit_caps_groups : forall {V} p limit offset (groups : list (gkey * V)),
  let out := emit_groups p limit offset groups in
  (forall e, In e out -> In e groups)
  /\ (exists sorted, Permutation sorted groups
        /\ out = take_opt limit (match offset with Some o => dropN o | None => fun x => x end sorted))
  /\ (forall n, limit = Some n ->
        N.of_nat (length out) = N.min n (N.of_nat (length groups) - match offset with Some o => o | None => 0%N end)).
Proof.
  intros V p limit offset groups out. subst out. unfold emit_groups.
  set (cmp := fun a b : gkey * V => lex_cmp (out_key p (fst a)) (out_key p (fst b))).
  pose proof (sort_by_perm cmp groups) as P.
  split; [|split].
  - intros e He. eapply Permutation_in; [exact P|].
    destruct limit as [n|], offset as [o|]; cbn [take_opt] in He; eauto using In_takeN, In_dropN.
  - exists (sort_by cmp groups). split; [exact P|reflexivity].
  - intros n ->. cbn [take_opt]. rewrite takeN_length.
    pose proof (Permutation_length P) as HL.
    destruct offset as [o|].
    + rewrite dropN_length. rewrite HL. reflexivity.
    + rewrite N.sub_0_r, HL. reflexivity.
Qed.

Definition is_cnull (c : cell) : bool := match c with CNull => true | _ => false end.

Definition MinEmptyPartial (k : mkind) (parts : list (list cell)) : Prop :=
  k = MMin /\ existsb (forallb is_cnull) parts = true.

Lemma not_known_touches : forall k parts, ~ MinEmptyPartial k parts -> Forall (touches k) parts.
Proof.
  intros k parts H. apply Forall_forall. intros l Hl Hk.
  destruct (forallb is_cnull l) eqn:E.
  - exfalso. apply H. split; [exact Hk|]. apply existsb_exists. exists l. split; assumption.
  - clear - E. induction l as [|c l IH]; [discriminate|]. cbn in E. apply andb_false_iff in E.
    destruct c; cbn in E.
    + exists (CInt z). split; [now left|discriminate].
    + destruct E as [E|E]; [discriminate|]. destruct (IH E) as (c & Hc & Nc). exists c. split; [now right|exact Nc].
    + exists (CStr s). split; [now left|discriminate].
Qed.

Theorem agg_partition_any_cells : forall k p ps, ~ MinEmptyPartial k (p :: ps) ->
  finalize (merge_parts k p ps) = finalize (part k (p ++ concat ps)).
Proof.
  intros k p ps H. apply not_known_touches in H. inversion H; subst. apply agg_partition_final; assumption.
Qed.

(** as C09 states it; [cell_ok] plays no part *)
Theorem agg_partition_outside_known : forall k p ps,
  Forall cell_ok p -> Forall (Forall cell_ok) ps ->
  ~ MinEmptyPartial k (p :: ps) ->
  finalize (merge_parts k p ps) = finalize (part k (p ++ concat ps)).
Proof. intros k p ps _ _. apply agg_partition_any_cells. Qed.

Example min_empty_partial_witness :
  MinEmptyPartial MMin [[CNull]; [CStr abc]]
  /\ finalize (merge_parts MMin [CNull] [[CStr abc]]) = FStr []
  /\ finalize (part MMin ([CNull] ++ concat [[CStr abc]])) = FStr abc.
Proof. vm_compute. auto. Qed.

(** as C09 states them; the laws need [shaped] only *)
Theorem agg_merge_assoc_comm : forall k a b c, wf k a -> wf k b -> wf k c ->
  merge_state a b = merge_state b a
  /\ merge_state (merge_state a b) c = merge_state a (merge_state b c)
  /\ merge_state (agg_init k) a = a.
Proof.
  intros k a b c Wa Wb Wc. apply wf_split in Wa, Wb, Wc. destruct Wa, Wb, Wc.
  split; [now apply (merge_state_comm k)|]. split; [now apply (merge_state_assoc k)|now apply merge_init_l].
Qed.

Example agg_merge_assoc_comm_nonvacuous : forall k l, Forall cell_ok l -> wf k (run k l).
Proof. exact run_wf. Qed.
