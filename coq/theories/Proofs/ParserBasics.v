(** Lemmas about the terminals of Model/Parser.v on printed text; its combinators at an input where the outcome of
    the first rule is known; the three rules of its expression grammar as functions of their sub-rules, and its
    leaves as a field and what follows one. *)
From Coq Require Import NArith ZArith List Bool Lia.
From Coq Require Import ZifyBool ZifyNat ZifyN.
From Snel Require Import Base.Bytes Model.Tokenizer Model.Parser Model.Printer Proofs.DecimalFacts.
Import ListNotations.
Open Scope N_scope.

Lemma is_alpha_upper : forall c, is_alpha (to_upper c) = is_alpha c.
Proof.
  intro c. unfold is_alpha, to_upper.
  destruct ((97 <=? c) && (c <=? 122)) eqn:E; lia.
Qed.

Lemma to_upper_idem : forall c, to_upper (to_upper c) = to_upper c.
Proof. intro c. unfold to_upper. destruct ((97 <=? c) && (c <=? 122)) eqn:E; [|rewrite E; auto].
  destruct ((97 <=? c - 32) && (c - 32 <=? 122)) eqn:F; lia. Qed.

Lemma to_upper_lower : forall c, to_upper (to_lower c) = to_upper c.
Proof.
  intro c. unfold to_lower, to_upper. destruct ((65 <=? c) && (c <=? 90)) eqn:E; [|reflexivity].
  replace ((97 <=? c + 32) && (c + 32 <=? 122)) with true by lia.
  replace ((97 <=? c) && (c <=? 122)) with false by lia. lia.
Qed.

Definition head_is (p : N -> bool) (s : bytes) : bool :=
  match s with c :: _ => p c | [] => false end.

Lemma span_app : forall p a rest,
  forallb p a = true -> head_is p rest = false ->
  span p (a ++ rest) = (a, rest).
Proof.
  induction a as [|c a IH]; intros rest Ha Hr; cbn [app].
  - destruct rest as [|x r]; cbn in *; auto. rewrite Hr. auto.
  - cbn in Ha. apply andb_prop in Ha as [Hc Ha]. cbn [span]. rewrite Hc, (IH _ Ha Hr). auto.
Qed.

Lemma span_spec : forall p s a r, span p s = (a, r) -> s = a ++ r /\ forallb p a = true /\ head_is p r = false.
Proof.
  induction s as [|c s IH]; intros a r H; cbn in H.
  - inversion H; subst. auto.
  - destruct (p c) eqn:E.
    + destruct (span p s) as [a' r'] eqn:S. inversion H; subst.
      destruct (IH _ _ eq_refl) as (H1 & H2 & H3). subst s. cbn. rewrite E, H2. auto.
    + inversion H; subst. cbn. rewrite E. auto.
Qed.

Lemma drop_while_length : forall p s, (length (drop_while p s) <= length s)%nat.
Proof. induction s; cbn; auto. destruct (p a); cbn; lia. Qed.

Lemma ws_length : forall s, (length (ws s) <= length s)%nat.
Proof. intro. apply drop_while_length. Qed.

Lemma ws_nows : forall s, head_is is_tws s = false -> ws s = s.
Proof. intros [|c r] H; cbn in *; auto. rewrite H. auto. Qed.

Lemma ws_space : forall r, ws (32 :: r) = ws r.
Proof. reflexivity. Qed.

Lemma ws_idem : forall s, ws (ws s) = ws s.
Proof.
  intro s. unfold ws. induction s as [|c r IH]; [reflexivity|]. cbn [drop_while].
  destruct (is_tws c) eqn:E; auto. cbn [drop_while]. rewrite E. reflexivity.
Qed.

Lemma alpha_not_ws : forall s, head_is is_alpha s = true -> head_is is_tws s = false.
Proof. intros [|c r] H; cbn in *; [discriminate|]. unfold is_alpha in H. unfold is_tws. lia. Qed.

Lemma lit_hit : forall c r, lit c (c :: r) = Some r.
Proof. intros. unfold lit. rewrite N.eqb_refl. auto. Qed.

Lemma lit_head : forall c s r, lit c s = Some r -> s = c :: r.
Proof.
  intros c s r H. unfold lit in H. destruct s as [|x s']; [discriminate|]. destruct (x =? c) eqn:E; [|discriminate].
  apply N.eqb_eq in E. congruence.
Qed.

Lemma comma_sep_hit : forall r, head_is is_tws r = false -> comma_sep (44 :: 32 :: r) = Some r.
Proof. intros r H. unfold comma_sep. rewrite (ws_nows (44 :: _) eq_refl), lit_hit, ws_space, (ws_nows _ H). reflexivity. Qed.

Lemma comma_sep_alpha : forall s, head_is is_alpha (ws s) = true -> comma_sep s = None.
Proof.
  intros s H. unfold comma_sep, lit. destruct (ws s) as [|x y]; [reflexivity|]. unfold head_is, is_alpha in H.
  replace (x =? 44) with false by lia. reflexivity.
Qed.

Lemma cmp_op_alpha : forall s, head_is is_alpha s = true -> cmp_op s = None.
Proof.
  intros [|c r] H; cbn in *; [discriminate|]. unfold is_alpha in H.
  unfold cmp_op, cmp_op1. destruct r as [|d r'].
  - replace (c =? 61) with false by lia. replace (c =? 62) with false by lia. replace (c =? 60) with false by lia. auto.
  - replace (c =? 33) with false by lia. replace (c =? 62) with false by lia. replace (c =? 60) with false by lia.
    replace (c =? 61) with false by lia. auto.
Qed.

Lemma ci_eqb_upper : forall a b, map to_upper a = map to_upper b -> ci_eqb a b = true.
Proof.
  intros a b H. unfold ci_eqb. rewrite H. generalize (map to_upper b). induction l; cbn; auto.
  rewrite N.eqb_refl. auto.
Qed.

Lemma forallb_alpha_upper : forall w, forallb is_alpha (map to_upper w) = forallb is_alpha w.
Proof. induction w; cbn; auto. rewrite is_alpha_upper, IHw. auto. Qed.

Definition all_alpha (w : bytes) : bool := forallb is_alpha w.

(** what [ci] can read as a keyword: a non-empty run of letters *)
Definition word (k : bytes) : bool := match k with [] => false | _ => all_alpha k end.

Lemma word_spec : forall k, word k = true <-> all_alpha k = true /\ k <> [].
Proof.
  intros [|c k]; cbn [word]; split; [discriminate|intros [_ H]; congruence|split; [assumption|discriminate]|tauto].
Qed.

Lemma speller_word : forall sp k, speller_ok sp -> word k = true -> word (sp k) = true.
Proof.
  intros sp k H Hk. apply word_spec in Hk as [Ha Hne]. apply word_spec. split.
  - unfold all_alpha in *. rewrite <- forallb_alpha_upper, (H k), forallb_alpha_upper. auto.
  - intro E. specialize (H k). rewrite E in H. destruct k; [congruence|discriminate H].
Qed.

Lemma ci_word : forall k w rest, word w = true -> head_is is_alpha rest = false ->
  ci k (w ++ rest) = if ci_eqb w k then Some rest else None.
Proof.
  intros k w rest Hw Hr. apply word_spec in Hw as [Hw Hne]. unfold ci. rewrite (span_app _ _ _ Hw Hr).
  destruct w; [congruence|reflexivity].
Qed.

Lemma ci_inv : forall K s r, ci K s = Some r ->
  exists w, s = w ++ r /\ word w = true /\ head_is is_alpha r = false /\ ci_eqb w K = true.
Proof.
  intros K s r H. unfold ci in H. destruct (span is_alpha s) as [w r'] eqn:S. apply span_spec in S as (-> & Hw & Hr).
  exists w. destruct w as [|c w]; [discriminate|]. destruct (ci_eqb (c :: w) K); inversion H; subst. auto.
Qed.

Section Spelled.
Variable sp : bytes -> bytes.
Hypothesis Hsp : speller_ok sp.

Lemma ci_spelled : forall k k' rest, word k = true -> head_is is_alpha rest = false ->
  ci k' (sp k ++ rest) = if ci_eqb k k' then Some rest else None.
Proof.
  intros k k' rest Hk Hr. rewrite (ci_word k' (sp k) rest (speller_word _ _ Hsp Hk) Hr).
  unfold ci_eqb. rewrite (Hsp k). reflexivity.
Qed.

Lemma ci_spell : forall k rest, word k = true -> head_is is_alpha rest = false -> ci k (sp k ++ rest) = Some rest.
Proof. intros. rewrite ci_spelled, (ci_eqb_upper k k eq_refl); auto. Qed.

Lemma ci_spell_other : forall k k' rest, word k = true -> ci_eqb k k' = false -> head_is is_alpha rest = false ->
  ci k' (sp k ++ rest) = None.
Proof. intros k k' rest Hk E Hr. rewrite ci_spelled, E; auto. Qed.

Lemma sp_alpha_head : forall k rest, word k = true -> head_is is_alpha (sp k ++ rest) = true.
Proof.
  intros k rest Hk. apply (speller_word _ _ Hsp), word_spec in Hk as [H1 H2].
  destruct (sp k) as [|c w]; [congruence|]. cbn in *. apply andb_prop in H1. tauto.
Qed.

End Spelled.

Lemma ci_case_insensitive : forall k w w' rest,
  all_alpha w = true -> all_alpha w' = true -> map to_upper w = map to_upper w' ->
  head_is is_alpha rest = false ->
  ci k (w ++ rest) = ci k (w' ++ rest).
Proof.
  intros k w w' rest Hw Hw' E Hr. destruct w as [|c w], w' as [|c' w']; try discriminate E; [reflexivity|].
  rewrite !ci_word by assumption. unfold ci_eqb. rewrite E. reflexivity.
Qed.

Lemma ci_nonalpha : forall k s, head_is is_alpha s = false -> ci k s = None.
Proof.
  intros k [|c r] H; cbn in *; auto. unfold ci. cbn. rewrite H. auto.
Qed.

Lemma ci_head : forall K s r, ci K s = Some r -> head_is is_alpha s = true.
Proof. intros K s r H. apply ci_inv in H as ([|c w] & -> & Hw & _); [discriminate|]. cbn in *. apply andb_prop in Hw. tauto. Qed.

Lemma ci_length : forall k s r, ci k s = Some r -> (length r < length s)%nat.
Proof. intros k s r H. apply ci_inv in H as ([|c w] & -> & Hw & _); [discriminate|]. rewrite app_length. cbn [length]. lia. Qed.

Lemma digits_val_fold : forall d acc, digits_val d acc = fold_left dec_step d acc.
Proof.
  induction d as [|c d IH]; intros acc; cbn [digits_val fold_left]; [reflexivity|].
  rewrite IH. unfold dec_step. rewrite N.mul_comm. reflexivity.
Qed.

Lemma dec_of_N_spec : forall n,
  all_digits (dec_of_N n) = true /\ dec_of_N n <> [] /\ digits_val (dec_of_N n) 0 = n.
Proof.
  intro n. destruct (dec_of_N_digits n) as (H1 & H2 & H3 & _).
  split; [apply forallb_forall, Forall_forall, H1|]. split; [exact H2|]. rewrite digits_val_fold. exact H3.
Qed.

Lemma bind_ok : forall {A B} {p : P A} {f : A -> P B} {s a r}, p s = Ok (a, r) -> bind p f s = f a r.
Proof. intros A B p f s a r H. unfold bind. rewrite H. reflexivity. Qed.
Lemma bind_err : forall A B (p : P A) (f : A -> P B) s, p s = Err -> bind p f s = Err.
Proof. intros A B p f s H. unfold bind. rewrite H. reflexivity. Qed.
Lemma bind_ret : forall A B (p : P A) (g : A -> B) s a r, p s = Ok (a, r) -> (let* x := p in ret (g x)) s = Ok (g a, r).
Proof. intros A B p g s a r H. rewrite (bind_ok H). reflexivity. Qed.
Lemma alt_err : forall A (p q : P A) s, p s = Err -> alt p q s = q s.
Proof. intros A p q s H. unfold alt. rewrite H. auto. Qed.
Lemma alt_ok : forall A (p q : P A) s x, p s = Ok x -> alt p q s = Ok x.
Proof. intros A p q s x H. unfold alt. rewrite H. auto. Qed.
Lemma lift_ok : forall A (t : bytes -> option (A * bytes)) s x, t s = Some x -> lift t s = Ok x.
Proof. intros A t s x H. unfold lift. rewrite H. reflexivity. Qed.
Lemma lift_bind_err : forall A B (t : bytes -> option (A * bytes)) (f : A -> P B) s, t s = None -> bind (lift t) f s = Err.
Proof. intros A B t f s H. unfold bind, lift. rewrite H. reflexivity. Qed.
Lemma opt_ok : forall A (p : P A) s a r, p s = Ok (a, r) -> opt p s = Ok (Some a, r).
Proof. intros A p s a r H. unfold opt. rewrite H. reflexivity. Qed.
Lemma opt_err : forall A (p : P A) s, p s = Err -> opt p s = Ok (None, s).
Proof. intros A p s H. unfold opt. rewrite H. reflexivity. Qed.
Lemma notp_bind_err : forall A B (t : bytes -> option A) (f : unit -> P B) s x, t s = Some x -> bind (notp t) f s = Err.
Proof. intros A B t f s x H. unfold bind, notp. rewrite H. reflexivity. Qed.
Lemma notp_bind : forall A B (t : bytes -> option A) (f : unit -> P B) s, t s = None -> bind (notp t) f s = f tt s.
Proof. intros A B t f s H. unfold bind, notp. rewrite H. reflexivity. Qed.
Lemma kw_ok : forall k s r, ci k s = Some r -> kw k s = Ok (tt, r).
Proof. intros k s r H. unfold kw. rewrite H. reflexivity. Qed.
Lemma kw_bind_err : forall A k (f : unit -> P A) s, ci k s = None -> bind (kw k) f s = Err.
Proof. intros A k f s H. unfold bind, kw. rewrite H. auto. Qed.
Lemma kw_bind_ok : forall A k (f : unit -> P A) s r, ci k s = Some r -> bind (kw k) f s = f tt r.
Proof. intros A k f s r H. unfold bind, kw. rewrite H. auto. Qed.
Lemma skip_bind : forall A (f : unit -> P A) s, bind skip f s = f tt (ws s).
Proof. reflexivity. Qed.
Lemma sym_bind_ok : forall A c (f : unit -> P A) r, bind (sym c) f (c :: r) = f tt r.
Proof. intros. unfold bind, sym. rewrite lit_hit. reflexivity. Qed.

(** alternatives that begin with the same terminal: it is read once *)
Lemma alt_lift_prefix : forall A B (t : bytes -> option (A * bytes)) (p q : A -> P B) (c : P B) s,
  alt (bind (lift t) p) (alt (bind (lift t) q) c) s =
  match t s with Some (a, r) => match alt (p a) (q a) r with Err => c s | x => x end | None => c s end.
Proof. intros. unfold alt, bind, lift. destruct (t s) as [[a r]|]; [|reflexivity]. destruct (p a r); reflexivity. Qed.

(** [e*] at the fuel every rule gives it; the repeated part of [e ** sep]; a terminal with its result mapped, as in
    the alternatives of [value]: the models write the three inline *)
Definition many_self {A} (p : P A) : P (list A) := fun s => many (S (length s)) p s.
Definition sepstep {A} (p : P A) (sep : bytes -> option bytes) : P A :=
  fun s1 => match sep s1 with Some s2 => p s2 | None => Err end.
Definition lift_map {A B} (t : bytes -> option (A * bytes)) (g : A -> B) : P B :=
  fun s => match t s with Some (a, r) => Ok (g a, r) | None => Err end.

Lemma lift_map_ok : forall A B (t : bytes -> option (A * bytes)) (g : A -> B) s a r, t s = Some (a, r) -> lift_map t g s = Ok (g a, r).
Proof. intros A B t g s a r H. unfold lift_map. rewrite H. reflexivity. Qed.
Lemma lift_map_err : forall A B (t : bytes -> option (A * bytes)) (g : A -> B) s, t s = None -> lift_map t g s = Err.
Proof. intros A B t g s H. unfold lift_map. rewrite H. reflexivity. Qed.

Lemma many_not_err : forall A (p : P A) f s, many f p s <> Err.
Proof.
  induction f as [|f IH]; intro s; cbn [many]; [discriminate|]. destruct (p s) as [[a r]| | |]; try discriminate.
  specialize (IH r). destruct (many f p r) as [[l r']| | |]; congruence.
Qed.

(** [e*] on the printed text of a list: each step reads one element and leaves, up to what the step cannot see
    ([eqv]), the text of the rest; the texts shrink, so fuel above the length of the first suffices *)
Lemma many_seq : forall A (p : P A) (eqv : bytes -> bytes -> Prop) (text : list A -> bytes) (Good : list A -> Prop),
  (forall r r', eqv r r' -> p r = p r') ->
  (forall x xs, Good (x :: xs) -> Good xs /\ (length (text xs) < length (text (x :: xs)))%nat /\
     exists r', p (text (x :: xs)) = Ok (x, r') /\ eqv r' (text xs)) ->
  p (text []) = Err ->
  forall xs fuel r0, Good xs -> (length (text xs) < fuel)%nat -> eqv r0 (text xs) ->
  exists r', many fuel p r0 = Ok (xs, r') /\ eqv r' (text []).
Proof.
  intros A p eqv text Good Heqv Hstep Htail. induction xs as [|x xs IH]; intros fuel r0 HG Hf Hr0;
    (destruct fuel as [|fuel]; [lia|]); cbn [many]; rewrite (Heqv _ _ Hr0).
  - rewrite Htail. eauto.
  - destruct (Hstep x xs HG) as (HG' & Hl & r' & E & Hr'). rewrite E.
    destruct (IH fuel r' HG' ltac:(lia) Hr') as (r'' & E' & Hr''). rewrite E'. eauto.
Qed.

Lemma sep_list_peg : forall A (p : P A) sep s, sep_list p sep s =
  alt (let* a := p in let* l := many_self (sepstep p sep) in ret (a :: l)) (ret []) s.
Proof.
  intros. unfold sep_list, alt, bind, ret, many_self. destruct (p s) as [[a r]| | |]; auto.
  fold (sepstep p sep). pose proof (many_not_err _ (sepstep p sep) (S (length r)) r).
  destruct (many _ _ r) as [[l r']| | |]; congruence.
Qed.

Lemma sep_list1_peg : forall A (p : P A) sep s, sep_list1 p sep s =
  (let* a := p in let* l := many_self (sepstep p sep) in ret (a :: l)) s.
Proof.
  intros. unfold sep_list1, sep_list, bind, ret, many_self, sepstep. destruct (p s) as [[a r]| | |]; auto.
  destruct (many _ _ r) as [[l r']| | |]; reflexivity.
Qed.

Lemma sep_list_cons : forall A (p : P A) sep s x xs r, sep_list p sep s = Ok (x :: xs, r) ->
  (let* a := p in let* l := many_self (sepstep p sep) in ret (a :: l)) s = Ok (x :: xs, r).
Proof. intros A p sep s x xs r E. rewrite <- sep_list1_peg. unfold sep_list1. rewrite E. reflexivity. Qed.

(** the leaves of both expression grammars are a field and then
    [_ op:cmp_op() _ v:val() { ECmp f op v } / _ ci('IN') _ '(' _ vs:vals() _ ')' { EIn f vs }],
    over the grammar's own field, value and value list; what is tried where that fails differs *)
Definition after_field (val : P jval) (vals : P (list jval)) (f : bytes) : P expr :=
  alt (let* _ := skip in let* op := lift cmp_op in let* _ := skip in let* v := val in ret (ECmp f op v))
      (let* _ := skip in let* _ := kw K_IN in let* _ := skip in let* _ := sym 40 in let* _ := skip in
       let* vs := vals in let* _ := skip in let* _ := sym 41 in ret (EIn f vs)).

Lemma after_field_err : forall val vals f r, cmp_op (ws r) = None -> ci K_IN (ws r) = None -> after_field val vals f r = Err.
Proof.
  intros val vals f r Hc Hi. unfold after_field. rewrite alt_err by (rewrite skip_bind; apply lift_bind_err, Hc).
  rewrite skip_bind. apply kw_bind_err, Hi.
Qed.

(** where neither follows the field, the leaf is the field alone ([atom]) *)
Lemma leaf_field : forall fx s, leaf fx s =
  match field s with
  | Some (f, r) =>
      match after_field (value fx) (sep_list (value fx) comma_sep) f r with Err => Ok (ECmp f OpEq (VBool true), r) | x => x end
  | None => Err
  end.
Proof.
  intros. unfold leaf, comparison, in_expr. rewrite alt_lift_prefix. destruct (field s) as [[f r]|] eqn:F.
  - unfold atom. rewrite (bind_ok (lift_ok _ _ _ _ F)). reflexivity.
  - exact (lift_bind_err _ _ _ _ _ F).
Qed.

(** [x:sub() _ ci(K) _ y:self() { mk x y } / sub()], the common prefix evaluated once: the or- and the and-level *)
Definition chain (K : bytes) (mk : expr -> expr -> expr) (sub self : P expr) : P expr :=
  fun s =>
  match sub s with
  | Ok (x, r) =>
      match ci K (ws r) with
      | Some r1 =>
          match self (ws r1) with
          | Ok (y, r2) => Ok (mk x y, r2)
          | Err => Ok (x, r)
          | Panic k => Panic k
          | OOF => OOF
          end
      | None => Ok (x, r)
      end
  | other => other
  end.

(** ['(' _ e:or() _ ')' / lf()] *)
Definition paren_or_leaf (lf or : P expr) : P expr :=
  fun s =>
  match (match lit 40 s with
         | Some r1 =>
             match or (ws r1) with
             | Ok (e, r2) =>
                 match lit 41 (ws r2) with
                 | Some r3 => Ok (e, r3)
                 | None => Err
                 end
             | other => other
             end
         | None => Err
         end) with
  | Err => lf s
  | other => other
  end.

(** [ci('NOT') _ x:fac() { ENot x } / '(' _ e:or() _ ')' / lf()] *)
Definition factor_rule (lf or fac : P expr) : P expr :=
  fun s =>
  match ci K_NOT s with
  | Some r1 =>
      match fac (ws r1) with
      | Ok (x, r2) => Ok (ENot x, r2)
      | Err => paren_or_leaf lf or s
      | Panic k => Panic k
      | OOF => OOF
      end
  | None => paren_or_leaf lf or s
  end.

(** the three rules as peg expressions: equal at each input, not convertible as functions *)
Lemma chain_peg : forall K mk sub self s, chain K mk sub self s =
  (let* x := sub in alt (let* _ := skip in let* _ := kw K in let* _ := skip in let* y := self in ret (mk x y)) (ret x)) s.
Proof.
  intros. unfold chain, bind, alt, skip, kw, ret. destruct (sub s) as [[x r]| | |]; auto.
  destruct (ci K (ws r)); auto. destruct (self _) as [[y r2]| | |]; auto.
Qed.

Lemma paren_or_leaf_peg : forall lf or s, paren_or_leaf lf or s =
  alt (let* _ := sym 40 in let* _ := skip in let* e := or in let* _ := skip in let* _ := sym 41 in ret e) lf s.
Proof.
  intros. unfold paren_or_leaf, bind, alt, skip, sym, ret. destruct (lit 40 s); auto.
  destruct (or _) as [[e r2]| | |]; auto. destruct (lit 41 _); auto.
Qed.

Lemma factor_rule_peg : forall lf or fac s, factor_rule lf or fac s =
  alt (let* _ := kw K_NOT in let* _ := skip in let* x := fac in ret (ENot x)) (paren_or_leaf lf or) s.
Proof.
  intros. unfold factor_rule, bind, alt, skip, kw, ret. destruct (ci K_NOT s); auto.
  destruct (fac _) as [[x r2]| | |]; auto.
Qed.

Section Unfold.
Variable lf : P expr.

Lemma or_expr_g_S : forall f, or_expr_g lf (S f) = chain K_OR EOr (and_expr_g lf f) (or_expr_g lf f).
Proof. reflexivity. Qed.

Lemma and_expr_g_S : forall f, and_expr_g lf (S f) = chain K_AND EAnd (factor_g lf f) (and_expr_g lf f).
Proof. reflexivity. Qed.

Lemma factor_g_S : forall f, factor_g lf (S f) = factor_rule lf (or_expr_g lf f) (factor_g lf f).
Proof. reflexivity. Qed.

End Unfold.
