(** Proofs about Model/Bucket.v: every calendar bucket contains its instant and starts on
    the calendar boundary.  The month and year cases rest on Proofs/CivilProofs.v. *)
From Coq Require Import ZArith Lia.
From Coq Require Import ZifyN.
From Snel Require Import Base.Civil Model.Bucket Proofs.CivilProofs.
Open Scope Z_scope.

Theorem bucket_contains : forall ws secs g, 0 <= ws <= 6 ->
  calendar_bucket_secs ws secs g <= secs < calendar_next_secs ws secs g.
Proof.
  intros ws secs g Hws.
  pose proof (Z.div_mod secs 86400 ltac:(lia)) as Hdm.
  pose proof (Z.mod_pos_bound secs 86400 ltac:(lia)) as Hm.
  set (day := secs / 86400) in *. set (sod := secs mod 86400) in *.
  unfold calendar_next_secs. destruct g; unfold calendar_bucket_secs; fold day; fold sod.
  - pose proof (Z.div_mod sod 3600 ltac:(lia)). pose proof (Z.mod_pos_bound sod 3600 ltac:(lia)). lia.
  - lia.
  - pose proof (Z.mod_pos_bound (weekday_from_days day + (7 - ws)) 7 ltac:(lia)). lia.
  - pose proof (month_interval day) as H. destruct (civil_from_days day) as [[y m] d]. lia.
  - pose proof (year_interval day) as H. destruct (civil_from_days day) as [[y m] d]. lia.
Qed.

Definition on_boundary (ws : Z) (g : gran) (b : Z) : Prop :=
  match g with
  | GHour => b mod 3600 = 0
  | GDay => b mod 86400 = 0
  | GWeek => b mod 86400 = 0 /\ weekday_from_days (b / 86400) = ws
  | GMonth => b mod 86400 = 0 /\ exists y m, 1 <= m <= 12 /\ civil_from_days (b / 86400) = (y, m, 1)
  | GYear => b mod 86400 = 0 /\ exists y, civil_from_days (b / 86400) = (y, 1, 1)
  end.

Theorem bucket_on_boundary : forall ws secs g, 0 <= ws <= 6 ->
  on_boundary ws g (calendar_bucket_secs ws secs g).
Proof.
  intros ws secs g Hws. set (day := secs / 86400). set (sod := secs mod 86400).
  destruct g; unfold calendar_bucket_secs, on_boundary; fold day; fold sod.
  - replace (day * 86400 + sod / 3600 * 3600) with ((day * 24 + sod / 3600) * 3600) by lia.
    apply Z.mod_mul. lia.
  - apply Z.mod_mul. lia.
  - split; [apply Z.mod_mul; lia|]. rewrite Z.div_mul by lia. unfold weekday_from_days.
    clearbody day. Z.div_mod_to_equations. lia.
  - pose proof (civil_from_days_valid day) as H. destruct (civil_from_days day) as [[y m] d].
    apply valid_ymd_bounds in H.
    split; [apply Z.mod_mul; lia|]. rewrite Z.div_mul by lia. exists y, m. split; [lia|].
    apply civil_of_days_from_civil, valid_ymd_bounds. lia.
  - destruct (civil_from_days day) as [[y m] d].
    split; [apply Z.mod_mul; lia|]. rewrite Z.div_mul by lia. exists y.
    apply civil_of_days_from_civil. reflexivity.
Qed.

Lemma chrono_min_day_neg : chrono_min_day < 0.
Proof. vm_compute. reflexivity. Qed.

Theorem calendar_bucket_of_exact : forall ws ts g, 0 <= ws <= 6 ->
  0 <= ts < two63 -> in_chrono_range ts = true -> 0 <= calendar_bucket_secs ws ts g ->
  calendar_bucket_of_opt ws ts g = Some (calendar_bucket_secs ws ts g).
Proof.
  intros ws ts g Hws Hts Hr Hb. unfold calendar_bucket_of_opt, u64_to_i64.
  replace (ts <? two63) with true by lia. rewrite Hr.
  assert (Hw : i64_to_u64 (calendar_bucket_secs ws ts g) = calendar_bucket_secs ws ts g).
  { unfold i64_to_u64. apply Z.mod_small. split; [exact Hb|].
    pose proof (bucket_contains ws ts g Hws) as C. unfold two63, two64 in *. lia. }
  rewrite Hw. destruct g; try reflexivity.
  pose proof chrono_min_day_neg.
  assert (0 <= calendar_bucket_secs ws ts GWeek / 86400) by (apply Z.div_pos; lia).
  replace (calendar_bucket_secs ws ts GWeek / 86400 <? chrono_min_day) with false by lia. reflexivity.
Qed.

Example bucket_examples :
  calendar_bucket_of_opt 0 1708012800 GMonth = Some 1706745600
  /\ calendar_bucket_of_opt 0 1704240000 GWeek = Some 1704067200
  /\ calendar_bucket_of_opt 6 0 GWeek = Some 18446744073709206016.
Proof. vm_compute. auto. Qed.
