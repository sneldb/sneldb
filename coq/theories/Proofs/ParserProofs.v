(** C17 — top-level statements about the WHERE expression grammar: the round trip through the entry point,
    precedence and associativity (stated for any grammar with the round trip; PlotRoundTrip.v takes the PLOT instance). *)
From Coq Require Import NArith ZArith List Bool.
From Snel Require Import Base.Bytes Model.Tokenizer Model.Parser Model.Printer
  Proofs.ParserBasics Proofs.ExprRoundTrip Proofs.ExprRoundTripG Proofs.FuelProofs.
Import ListNotations.
Open Scope N_scope.

Lemma wf_g_expr : forall e, wf_g wf_expr e = wf_expr e.
Proof. induction e; cbn [wf_g wf_expr]; congruence. Qed.

Section Where.
Variable fx : bool.
Variable sp : bytes -> bytes.
Hypothesis Hsp : speller_ok sp.

Lemma leaf_ok : forall e lvl rest, is_leafe e = true -> wf_expr e = true -> fstop rest ->
  (ci K_NOT (print_expr_at sp lvl e ++ rest) = None /\ lit 40 (print_expr_at sp lvl e ++ rest) = None) /\
  leaf fx (print_expr_at sp lvl e ++ rest) = Ok (e, rest).
Proof.
  intros [f o v|f vs|x y|x y|x] lvl rest Hl Hw Hst; try discriminate.
  - pose proof Hst as (Hh & _ & _). pose proof (head_ok_fld_stop _ Hh) as Hfs.
    destruct (wf_cmp sp f o v lvl Hw) as [Hf [(-> & -> & E)|(Hv & E)]]; rewrite E; norm_app.
    + split; [apply leaf_front|apply leaf_atom]; auto.
    + split; [apply leaf_front|apply leaf_cmp]; auto.
  - cbn [wf_expr] in Hw. apply andb_prop in Hw as [Hf Hv]. cbn [print_expr_at]. norm_app.
    split; [apply leaf_front|apply leaf_in]; auto.
Qed.

Lemma leaf_nows : forall e lvl rest, is_leafe e = true -> wf_expr e = true ->
  head_is is_tws (print_expr_at sp lvl e ++ rest) = false.
Proof.
  intros [f o v|f vs|x y|x y|x] lvl rest Hl Hw; try discriminate.
  - destruct (wf_cmp sp f o v lvl Hw) as [Hf [(-> & -> & E)|(Hv & E)]]; rewrite E; norm_app; apply wf_field_nows, Hf.
  - cbn [wf_expr print_expr_at] in *. apply andb_prop in Hw as [Hf _]. norm_app. apply wf_field_nows, Hf.
Qed.

Lemma print_nows : forall e lvl rest, wf_expr e = true -> head_is is_tws (print_expr_at sp lvl e ++ rest) = false.
Proof. intros e lvl rest Hw. apply (print_nows_g sp Hsp wf_expr leaf_nows). rewrite wf_g_expr. exact Hw. Qed.

End Where.

Lemma parse_print_at : forall fx sp e rest, speller_ok sp -> wf_expr e = true -> ostop rest ->
  parse_expr_at fx (print_expr sp e ++ rest) = Ok (e, rest).
Proof.
  intros fx sp e rest Hsp Hw Hst.
  apply (print_at_g (leaf fx) sp Hsp wf_expr (leaf_ok fx sp Hsp) (leaf_nows sp) (leaf_consumes fx) (leaf_avoids fx Fuel I));
    [rewrite wf_g_expr; exact Hw|exact Hst].
Qed.

Theorem parse_print_expr : forall fx sp e, speller_ok sp -> wf_expr e = true ->
  parse_expr fx (print_expr sp e) = Ok e.
Proof.
  intros fx sp e Hsp Hw. unfold parse_expr.
  pose proof (parse_print_at fx sp e [] Hsp Hw ostop_nil) as H. rewrite app_nil_r in H. rewrite H. auto.
Qed.

(** of a printed expression only: both sides are [Ok e] by the round trip.  What [ci] does with letter case on any
    text is ParserBasics.ci_case_insensitive. *)
Theorem keywords_ci : forall fx sp sp' e, speller_ok sp -> speller_ok sp' -> wf_expr e = true ->
  parse_expr fx (print_expr sp e) = parse_expr fx (print_expr sp' e).
Proof. intros. rewrite !parse_print_expr; auto. Qed.

Lemma speller_modes_ok : forall m, speller_ok (speller m).
Proof.
  intros m w. unfold speller. destruct (m =? 0); auto. destruct (m =? 1).
  - rewrite map_map. apply map_ext, to_upper_lower.
  - generalize false. induction w as [|c w IH]; intro bb; cbn [alternate map]; auto. rewrite IH. f_equal.
    destruct bb; [apply to_upper_idem|apply to_upper_lower].
Qed.

Definition is_factor (e : expr) : bool := match e with EAnd _ _ | EOr _ _ => false | _ => true end.

Lemma factor_level_indep : forall sp e lvl, is_factor e = true -> print_expr_at sp lvl e = print_expr_at sp 2 e.
Proof. intros sp [f o v|f vs|x y|x y|x] lvl H; try discriminate; reflexivity. Qed.

(** NOT binds tighter than AND, AND tighter than OR, on either side; parentheses override; AND and OR chains
    nest to the right unless parenthesised to the left: each text is what the printer prints for the tree *)
Definition precedence (parse : bytes -> res expr) (sp : bytes -> bytes) (a b c : expr) : Prop :=
  let A := print_expr_at sp 2 a in let B := print_expr_at sp 2 b in let C := print_expr_at sp 2 c in
  let AND := 32 :: sp K_AND ++ [32] in let OR := 32 :: sp K_OR ++ [32] in let NOT := sp K_NOT ++ [32] in
  parse (A ++ OR ++ B ++ AND ++ C) = Ok (EOr a (EAnd b c)) /\
  parse (A ++ AND ++ B ++ OR ++ C) = Ok (EOr (EAnd a b) c) /\
  parse (NOT ++ A ++ AND ++ B) = Ok (EAnd (ENot a) b) /\
  parse (NOT ++ A ++ OR ++ B) = Ok (EOr (ENot a) b) /\
  parse (40 :: A ++ OR ++ B ++ 41 :: AND ++ C) = Ok (EAnd (EOr a b) c) /\
  parse (NOT ++ 40 :: A ++ AND ++ B ++ [41]) = Ok (ENot (EAnd a b)) /\
  parse (A ++ AND ++ B ++ AND ++ C) = Ok (EAnd a (EAnd b c)) /\
  parse (A ++ OR ++ B ++ OR ++ C) = Ok (EOr a (EOr b c)) /\
  parse (40 :: A ++ AND ++ B ++ 41 :: AND ++ C) = Ok (EAnd (EAnd a b) c).

Section PrecedenceG.
Variable parse : bytes -> res expr.
Variable wf : expr -> bool.
Variable sp : bytes -> bytes.
Hypothesis Hrt : forall e, wf e = true -> parse (print_expr sp e) = Ok e.
Hypothesis wf_and : forall x y, wf (EAnd x y) = wf x && wf y.
Hypothesis wf_or : forall x y, wf (EOr x y) = wf x && wf y.
Hypothesis wf_not : forall x, wf (ENot x) = wf x.
Variables a b c : expr.
Hypothesis Ha : wf a = true.
Hypothesis Hb : wf b = true.
Hypothesis Hc : wf c = true.
Hypothesis Fa : is_factor a = true.
Hypothesis Fb : is_factor b = true.
Hypothesis Fc : is_factor c = true.

Ltac by_print e :=
  match goal with |- parse ?s = _ =>
    replace s with (print_expr sp e);
    [apply Hrt; rewrite ?wf_and, ?wf_or, ?wf_not, ?wf_and, ?wf_or, ?Ha, ?Hb, ?Hc; reflexivity
    |unfold print_expr; cbn [print_expr_at Nat.ltb Nat.leb];
     rewrite ?(factor_level_indep sp a 1 Fa), ?(factor_level_indep sp b 1 Fb), ?(factor_level_indep sp c 1 Fc),
             ?(factor_level_indep sp a 0 Fa), ?(factor_level_indep sp b 0 Fb), ?(factor_level_indep sp c 0 Fc);
     repeat (rewrite <- app_assoc || rewrite <- app_comm_cons); cbn [app]; reflexivity]
  end.

Lemma precedence_g : precedence parse sp a b c.
Proof.
  unfold precedence.
  split; [by_print (EOr a (EAnd b c))|]. split; [by_print (EOr (EAnd a b) c)|].
  split; [by_print (EAnd (ENot a) b)|]. split; [by_print (EOr (ENot a) b)|].
  split; [by_print (EAnd (EOr a b) c)|]. split; [by_print (ENot (EAnd a b))|].
  split; [by_print (EAnd a (EAnd b c))|]. split; [by_print (EOr a (EOr b c))|by_print (EAnd (EAnd a b) c)].
Qed.

End PrecedenceG.

Lemma precedence_all : forall fx sp, speller_ok sp -> forall a b c,
  wf_expr a = true -> wf_expr b = true -> wf_expr c = true ->
  is_factor a = true -> is_factor b = true -> is_factor c = true -> precedence (parse_expr fx) sp a b c.
Proof.
  intros fx sp Hsp. exact (precedence_g (parse_expr fx) wf_expr sp (fun e => parse_print_expr fx sp e Hsp)
                             (fun _ _ => eq_refl) (fun _ _ => eq_refl) (fun _ => eq_refl)).
Qed.

(** the hypotheses of the precedence statements are satisfiable *)
Example precedence_example :
  let a := ECmp [97] OpEq (VInt 1) in
  wf_expr a = true /\ is_factor a = true /\ speller_ok (fun w => w).
Proof. repeat split. Qed.

(** * Keyword-prefixed identifiers: the round trip fails outside [wf_expr] *)

(** [not_found = 1]: [not_found] is an identifier of the grammar, but [ci("NOT")] reads its
    leading letters as the keyword *)
Definition kw_prefixed_witness : expr :=
  ECmp [110; 111; 116; 95; 102; 111; 117; 110; 100] OpEq (VInt 1).

Lemma parse_print_expr_refuted :
  ident_syntax [110; 111; 116; 95; 102; 111; 117; 110; 100] = true /\
  parse_expr false (print_expr (fun w => w) kw_prefixed_witness)
  = Ok (ENot (ECmp [95; 102; 111; 117; 110; 100] OpEq (VInt 1))).
Proof. split; vm_compute; reflexivity. Qed.
