(** C07: the value path through the tiers.  The path sees a payload entry only through [expected v] (an
    absent key is a null) and the field type only through [phys_of t], and every layout returns one of two
    renderings, the memtable's or the flushed column's ([returned_eq]).  The known classes are where a
    rendering differs from the input ([known_eq] with [mem_decides] / [seg_decides]).
    The hypothesis [conforming t v] is this model's own reading of store.rs [type_allows_value] after time
    normalisation ([allows], Model/ValueTiers.v); nothing ties it to the handler of C06 (Model/Validate.v). *)
From Coq Require Import ZArith List Bool Lia.
From Coq Require Import ZifyBool.
From Snel Require Import Base.Bytes Model.Float64 Model.RustText Model.JsonV7 Model.ValueTiers Gen.Params.
From Snel Require Import Proofs.BytesFacts Proofs.ListFacts Proofs.ValueTextProofs.
Import ListNotations.
Open Scope Z_scope.

Definition definable (t : ftype) : bool :=
  match t with TOpt (TOpt _) => false | _ => true end.

(** the physical column type of every definable field type, as the arms of [write_all] stand in Gen/Params.v *)
Definition phys_std (t : ftype) : phys :=
  match t with
  | TStr | TEnum _ => PVar | TU64 => PU64 | TI64 | TTime | TDate => PI64 | TF64 => PF64 | TBool => PBool
  | TOpt _ => PVar
  end.
Lemma phys_of_std : forall t, definable t = true ->
  phys_of t = phys_std (match t with TOpt i => i | _ => t end).
Proof. intros [| | | | | | | vs | [| | | | | | | vs | i]] H; try discriminate H; reflexivity. Qed.

Lemma threshold_param : value_tojson_u64_threshold = i64_max.
Proof. reflexivity. Qed.

Lemma serde_roundtrip_param : value_serde_float_roundtrip = true.
Proof. reflexivity. Qed.

(** The definition of [wal_float] under the flag (sneldb 32b7370), not a result about ryu and the reader: the model
    takes the round trip of shortest printing as given (Model/ValueTiers.v); [wal_exact] and [restart_invisible]
    rest on nothing else. *)
Lemma wal_float_exact : forall b, f64_is_finite b = true -> wal_float b = SFloat b.
Proof. intros b H. unfold wal_float. rewrite serde_roundtrip_param, H. reflexivity. Qed.

(** Nothing else reads this parameter: that a var-bytes column has no null bitmap is built into the model ([CVar]
    holds a text, and [write_cell PVar] writes a null as the empty text), so this file would check whatever it said. *)
Lemma varbytes_no_null_bitmap : value_varbytes_has_nulls = false.
Proof. reflexivity. Qed.

Lemma parse_bool_true : parse_bool_ci kw_true = Some true. Proof. reflexivity. Qed.
Lemma parse_bool_false : parse_bool_ci kw_false = Some false. Proof. reflexivity. Qed.
Lemma parse_bool_nil : parse_bool_ci [] = None. Proof. reflexivity. Qed.
Lemma parse_i64_nil : parse_i64 [] = None. Proof. reflexivity. Qed.
Lemma parse_u64_nil : parse_u64 [] = None. Proof. reflexivity. Qed.
Lemma parse_f64_nil : parse_f64 [] = None. Proof. reflexivity. Qed.
Lemma add_payload_nil : add_payload_field [] = SUtf8 []. Proof. reflexivity. Qed.

Lemma u64_scalar_small : forall u, u <= i64_max -> u64_scalar u = SInt u.
Proof. intros u H. unfold u64_scalar. destruct (Z.leb_spec u i64_max); [reflexivity|lia]. Qed.
Lemma u64_scalar_big : forall u, i64_max < u -> u64_scalar u = SUtf8 (dec_of_Z u).
Proof. intros u H. unfold u64_scalar. destruct (Z.leb_spec u i64_max); [lia|reflexivity]. Qed.

Lemma u64_scalar_text : forall u, text_of_scalar (u64_scalar u) = dec_of_Z u.
Proof.
  intros u. destruct (Z.le_gt_cases u i64_max) as [L|G];
    [rewrite (u64_scalar_small u L)|rewrite (u64_scalar_big u G)]; reflexivity.
Qed.

Lemma compact_fix : forall p s, compact_cell p (write_cell p s) = write_cell p s.
Proof.
  intros p s. unfold compact_cell. destruct p; cbn [write_cell].
  - reflexivity.
  - destruct (parse_i64 (text_of_scalar s)) as [z|] eqn:E; cbn [scan_cell text_of_scalar].
    + rewrite parse_i64_dec; [reflexivity|eapply parse_i64_range, E].
    + reflexivity.
  - destruct (parse_u64 (text_of_scalar s)) as [u|] eqn:E; cbn [scan_cell].
    + rewrite u64_scalar_text, parse_u64_dec; [reflexivity|eapply parse_u64_range, E].
    + reflexivity.
  - set (o := match s with SFloat b => Some b | _ => parse_f64 (text_of_scalar s) end).
    destruct o as [b|]; cbn [scan_cell]; reflexivity.
  - destruct (parse_bool_ci (text_of_scalar s)) as [[|]|]; cbn [scan_cell text_of_scalar].
    + rewrite parse_bool_true. reflexivity.
    + rewrite parse_bool_false. reflexivity.
    + rewrite parse_bool_nil. reflexivity.
Qed.

Lemma iter_compact_fix : forall n p s, iter_compact n p (write_cell p s) = write_cell p s.
Proof. induction n as [|n IH]; intros p s; cbn [iter_compact]; [reflexivity|]. rewrite compact_fix. apply IH. Qed.

(** compaction does not enter, by [iter_compact_fix] *)
Definition rt (p : phys) (s : scalar) : scalar := read_cell (write_cell p s).

Lemma tier_scalar_seg : forall t w n v,
  tier_scalar t {| via_wal := w; in_seg := Some n |} true v =
  rt (phys_of t) (if w then wal_scalar (mem_scalar v) else mem_scalar v).
Proof. intros. unfold tier_scalar. cbn [via_wal in_seg]. rewrite iter_compact_fix. reflexivity. Qed.

Lemma rt_var_utf8 : forall s, rt PVar (SUtf8 s) = add_payload_field s.
Proof. reflexivity. Qed.
Lemma rt_var_null : rt PVar SNull = SUtf8 [].
Proof. unfold rt. cbn [write_cell text_of_scalar read_cell]. apply add_payload_nil. Qed.
Lemma rt_null : forall p, p <> PVar -> rt p SNull = SNull.
Proof.
  intros p Hp. unfold rt. destruct p; try contradiction; cbn [write_cell text_of_scalar].
  - rewrite parse_i64_nil. reflexivity.
  - rewrite parse_u64_nil. reflexivity.
  - rewrite parse_f64_nil. reflexivity.
  - rewrite parse_bool_nil. reflexivity.
Qed.
Lemma rt_i64_int : forall z, i64_min <= z <= i64_max -> rt PI64 (SInt z) = SInt z.
Proof. intros z Hz. unfold rt. cbn [write_cell text_of_scalar]. rewrite parse_i64_dec by exact Hz. reflexivity. Qed.
Lemma rt_u64_int : forall n, 0 <= n <= u64_max -> rt PU64 (SInt n) = u64_scalar n.
Proof. intros n Hn. unfold rt. cbn [write_cell text_of_scalar]. rewrite parse_u64_dec by exact Hn. reflexivity. Qed.
Lemma rt_u64_big : forall n, 0 <= n <= u64_max -> rt PU64 (SUtf8 (dec_of_Z n)) = u64_scalar n.
Proof. intros n Hn. unfold rt. cbn [write_cell text_of_scalar]. rewrite parse_u64_dec by exact Hn. reflexivity. Qed.
Definition f64_cell_scalar (b : Z) : scalar := if f64_is_finite b then SFloat b else SNull.
Lemma rt_f64_float : forall b, rt PF64 (SFloat b) = f64_cell_scalar b.
Proof. reflexivity. Qed.
Lemma rt_f64_int : forall z, - 2 ^ 64 < z < 2 ^ 64 -> rt PF64 (SInt z) = f64_cell_scalar (f64_of_int z).
Proof. intros z Hz. unfold rt. cbn [write_cell text_of_scalar]. rewrite parse_f64_dec by exact Hz. reflexivity. Qed.
Lemma rt_f64_big : forall n, 0 <= n < 2 ^ 64 -> rt PF64 (SUtf8 (dec_of_Z n)) = f64_cell_scalar (f64_of_int n).
Proof. intros n Hn. unfold rt. cbn [write_cell text_of_scalar]. rewrite parse_f64_dec by lia. reflexivity. Qed.
Lemma rt_bool : forall b, rt PBool (SBool b) = SBool b.
Proof.
  intros [|]; unfold rt; cbn [write_cell text_of_scalar].
  - rewrite parse_bool_true. reflexivity.
  - rewrite parse_bool_false. reflexivity.
Qed.

Lemma scalar_eqb_eq : forall a b, scalar_eqb a b = true -> a = b.
Proof.
  intros [| x | x | x | x] [| y | y | y | y] H; cbn [scalar_eqb] in H; try discriminate; try reflexivity.
  - f_equal. destruct x, y; try discriminate; reflexivity.
  - f_equal. lia.
  - f_equal. lia.
  - f_equal. apply bytes_eqb_eq, H.
Qed.

Definition is_str (j : json) : bool := match j with JStr _ => true | _ => false end.

Lemma json_eqb_not_str : forall j s, is_str j = false -> json_eqb j (JStr s) = false.
Proof. intros j s H. destruct j; try reflexivity. discriminate H. Qed.

Lemma json_of_utf8_cases : forall t,
  utf8_reparsed t = false /\ json_of_utf8 t = JStr t \/ utf8_reparsed t = true /\ is_str (json_of_utf8 t) = false.
Proof.
  intros t. unfold utf8_reparsed, json_of_utf8. destruct (parse_json t) as [[| | n | | | | |]|]; auto.
  destruct (value_tojson_u64_threshold <? n); auto.
Qed.

Lemma json_of_utf8_plain : forall s, utf8_reparsed s = false -> json_of_utf8 s = JStr s.
Proof. intros s H. destruct (json_of_utf8_cases s) as [[_ E]|[R _]]; [exact E|congruence]. Qed.

Lemma json_of_utf8_reparsed : forall s, utf8_reparsed s = true -> json_eqb (json_of_utf8 s) (JStr s) = false.
Proof. intros s H. destruct (json_of_utf8_cases s) as [[R _]|[_ N]]; [congruence|apply json_eqb_not_str, N]. Qed.

Lemma json_of_utf8_big : forall n, i64_max < n <= u64_max -> json_of_utf8 (dec_of_Z n) = JU64 n.
Proof.
  intros n Hn. unfold json_of_utf8. unfold i64_max in Hn. rewrite parse_json_dec by (unfold u64_max in *; lia).
  rewrite threshold_param. unfold i64_max. destruct (Z.ltb_spec (2 ^ 63 - 1) n); [reflexivity|lia].
Qed.

Lemma json_of_u64_scalar : forall n, 0 <= n <= u64_max -> json_of_scalar (u64_scalar n) = JU64 n.
Proof.
  intros n Hn. destruct (Z.le_gt_cases n i64_max) as [L|G].
  - rewrite (u64_scalar_small n L). cbn [json_of_scalar]. destruct (Z.ltb_spec n 0); [lia|reflexivity].
  - rewrite (u64_scalar_big n G). cbn [json_of_scalar]. apply json_of_utf8_big. lia.
Qed.

Lemma float_is_int_finite : forall b z, float_is_int b z = true -> f64_is_finite b = true.
Proof. intros b z H. unfold float_is_int in H. destruct (f64_is_finite b); [reflexivity|discriminate]. Qed.

Lemma scalar_eqb_refl : forall a, scalar_eqb a a = true.
Proof.
  intros [| b | z | z | s]; cbn [scalar_eqb].
  - reflexivity.
  - destruct b; reflexivity.
  - lia.
  - lia.
  - apply bytes_eqb_refl.
Qed.

Lemma json_eqb_refl : forall a, json_eqb a a = true.
Proof.
  fix IH 1. intros [| b | n | z | x | s | l | l]; cbn [json_eqb].
  - reflexivity.
  - destruct b; reflexivity.
  - apply Z.eqb_refl.
  - apply Z.eqb_refl.
  - apply Z.eqb_refl.
  - apply bytes_eqb_refl.
  - induction l as [|p l IHl]; [reflexivity|]. rewrite IH, IHl. reflexivity.
  - induction l as [|[k p] l IHl]; [reflexivity|]. rewrite bytes_eqb_refl, IH, IHl. reflexivity.
Qed.

Definition col_consistent (cp : bool) (v : stored) : bool :=
  match v with Some _ => cp | None => true end.

Definition compat (p : phys) (j : json) : bool :=
  match p, j with
  | PVar, JStr _ => true
  | PI64, JU64 n => n <=? i64_max
  | PI64, JI64 _ => true
  | PU64, JU64 _ => true
  | PF64, JU64 _ | PF64, JI64 _ | PF64, JF64 _ => true
  | PBool, JBool _ => true
  | _, _ => false
  end.

Lemma compat_inv_var : forall p s, compat p (JStr s) = true -> p = PVar.
Proof. intros [] s H; cbn in H; try discriminate; reflexivity. Qed.
Lemma compat_inv_f64 : forall p b, compat p (JF64 b) = true -> p = PF64.
Proof. intros [] b H; cbn in H; try discriminate; reflexivity. Qed.

Lemma conforming_compat : forall t j,
  definable t = true -> allows t j = true -> j <> JNull -> compat (phys_of t) j = true.
Proof.
  intros t j Hd Ha Hn. rewrite (phys_of_std t Hd).
  destruct t as [| | | | | | | vs | [| | | | | | | vs | i]]; try discriminate Hd;
    destruct j; try discriminate Ha; try contradiction (Hn eq_refl); try reflexivity; exact Ha.
Qed.

Lemma conforming_some : forall t j, conforming t (Some j) = true <-> allows t j = true /\ wf_json j = true.
Proof. intros t j. apply andb_true_iff. Qed.

Lemma wf_u64 : forall n, wf_json (JU64 n) = true -> 0 <= n <= u64_max.
Proof. intros n H. cbn [wf_json] in H. lia. Qed.
Lemma wf_i64 : forall z, wf_json (JI64 z) = true -> i64_min <= z < 0.
Proof. intros z H. cbn [wf_json] in H. lia. Qed.
Lemma wf_f64 : forall b, wf_json (JF64 b) = true -> f64_is_finite b = true.
Proof. intros b H. cbn [wf_json] in H. apply andb_true_iff in H. apply H. Qed.

Theorem wal_exact : forall s,
  (forall b, s = SFloat b -> f64_is_finite b = true) -> wal_scalar s = s.
Proof.
  intros [| b | z | b | t] H; try reflexivity. cbn [wal_scalar]. apply wal_float_exact, H. reflexivity.
Qed.

Lemma wal_scalar_of_json : forall j, wf_json j = true -> wal_scalar (scalar_of_json j) = scalar_of_json j.
Proof.
  intros j Hwf. apply wal_exact. intros b Hb. destruct j; cbn [scalar_of_json] in Hb; try discriminate Hb.
  - destruct (n <=? i64_max); discriminate Hb.
  - injection Hb as <-. apply wf_f64, Hwf.
Qed.

Lemma wal_mem_scalar : forall t v, conforming t v = true -> wal_scalar (mem_scalar v) = mem_scalar v.
Proof.
  intros t [j|] Hc; [|reflexivity]. apply conforming_some in Hc. apply wal_scalar_of_json, Hc.
Qed.

Lemma tier_scalar_eq : forall t w seg cp v,
  wal_scalar (mem_scalar v) = mem_scalar v ->
  tier_scalar t {| via_wal := w; in_seg := seg |} cp v =
  match seg with
  | None => mem_scalar v
  | Some _ => if cp then rt (phys_of t) (mem_scalar v) else SNull
  end.
Proof.
  intros t w seg cp v Ew.
  assert (E : (if w then wal_scalar (mem_scalar v) else mem_scalar v) = mem_scalar v)
    by (destruct w; [exact Ew|reflexivity]).
  destruct seg as [n|].
  - destruct cp; [rewrite tier_scalar_seg, E; reflexivity|reflexivity].
  - unfold tier_scalar. cbn [via_wal in_seg]. exact E.
Qed.

Corollary restart_invisible : forall t seg cp v,
  conforming t v = true ->
  returned t {| via_wal := true; in_seg := seg |} cp v = returned t {| via_wal := false; in_seg := seg |} cp v.
Proof.
  intros t seg cp v Hc. unfold returned. rewrite !tier_scalar_eq by (eapply wal_mem_scalar, Hc). reflexivity.
Qed.

Lemma mem_scalar_expected : forall v, mem_scalar v = scalar_of_json (expected v).
Proof. intros [j|]; reflexivity. Qed.

Definition storable (p : phys) (j : json) : bool :=
  match j with JNull => true | _ => compat p j && wf_json j end.

Lemma conforming_storable : forall t v,
  definable t = true -> conforming t v = true -> storable (phys_of t) (expected v) = true.
Proof.
  intros t [j|] Hd Hc; [|reflexivity]. apply conforming_some in Hc. destruct Hc as [Ha Hwf].
  destruct j; [reflexivity|..]; cbn [expected storable];
    rewrite Hwf, (conforming_compat t _ Hd Ha) by discriminate; reflexivity.
Qed.

Lemma storable_inv : forall p j, storable p j = true -> j = JNull \/ compat p j = true /\ wf_json j = true.
Proof. intros p j H. destruct j; [left; reflexivity|right; apply andb_true_iff, H..]. Qed.

Lemma json_of_scalar_of_json : forall p j, storable p j = true ->
  json_of_scalar (scalar_of_json j) = match j with JStr s => json_of_utf8 s | _ => j end.
Proof.
  intros p j H. destruct (storable_inv p j H) as [->|[Hc Hwf]]; [reflexivity|].
  destruct j; try reflexivity; try (destruct p; discriminate Hc).
  - apply json_of_u64_scalar, wf_u64, Hwf.
  - pose proof (wf_i64 _ Hwf). cbn [scalar_of_json json_of_scalar]. destruct (Z.ltb_spec z 0); [reflexivity|lia].
  - cbn [scalar_of_json json_of_scalar]. rewrite (wf_f64 _ Hwf). reflexivity.
Qed.

(** The scalar a flushed column gives back: a var-bytes cell is re-typed by EventBuilder and has no null
    bitmap, an integer in a float column is read back as a float; everything else is the memtable scalar. *)
Definition seg_scalar (p : phys) (j : json) : scalar :=
  match p, j with
  | PVar, JStr s => add_payload_field s
  | PVar, JNull => SUtf8 []
  | PF64, JU64 z | PF64, JI64 z => f64_cell_scalar (f64_of_int z)
  | _, _ => scalar_of_json j
  end.

Lemma rt_storable : forall p j, storable p j = true -> rt p (scalar_of_json j) = seg_scalar p j.
Proof.
  intros p j H. destruct (storable_inv p j H) as [->|[Hc Hwf]].
  { destruct p; [apply rt_var_null|apply rt_null; discriminate..]. }
  destruct p, j; cbn [compat] in Hc; try discriminate Hc; cbn [seg_scalar scalar_of_json].
  - apply rt_var_utf8.
  - rewrite Hc. pose proof (wf_u64 _ Hwf). apply rt_i64_int. unfold i64_min. lia.
  - pose proof (wf_i64 _ Hwf). apply rt_i64_int. unfold i64_max. lia.
  - pose proof (wf_u64 _ Hwf). transitivity (u64_scalar n); [|reflexivity].
    destruct (n <=? i64_max); [apply rt_u64_int|apply rt_u64_big]; assumption.
  - pose proof (wf_u64 _ Hwf). unfold u64_max in *. destruct (n <=? i64_max); [apply rt_f64_int|apply rt_f64_big]; lia.
  - pose proof (wf_i64 _ Hwf). unfold i64_min in *. apply rt_f64_int. lia.
  - rewrite rt_f64_float. unfold f64_cell_scalar. rewrite (wf_f64 _ Hwf). reflexivity.
  - apply rt_bool.
Qed.

Theorem returned_eq : forall t l cp v,
  storable (phys_of t) (expected v) = true -> col_consistent cp v = true ->
  returned t l cp v =
  json_of_scalar (if negb (in_memory l) && cp then seg_scalar (phys_of t) (expected v)
                  else scalar_of_json (expected v)).
Proof.
  intros t [w seg] cp v Hs Hcp. unfold returned. rewrite tier_scalar_eq; rewrite mem_scalar_expected.
  - destruct seg as [n|]; cbn [in_memory in_seg negb andb]; [|reflexivity].
    destruct cp; [rewrite (rt_storable _ _ Hs); reflexivity|]. destruct v; [discriminate Hcp|reflexivity].
  - destruct (storable_inv _ _ Hs) as [->|[_ Hwf]]; [reflexivity|apply wal_scalar_of_json, Hwf].
Qed.

Lemma json_of_exact_float : forall b z, float_is_int b z = true -> json_of_scalar (f64_cell_scalar b) = JF64 b.
Proof.
  intros b z H. apply float_is_int_finite in H. unfold f64_cell_scalar. rewrite H. cbn [json_of_scalar].
  rewrite H. reflexivity.
Qed.

Lemma f64_cell_eqb_int : forall b z j, j = JU64 z \/ j = JI64 z ->
  json_eqb (json_of_scalar (f64_cell_scalar b)) j = float_is_int b z.
Proof.
  intros b z j Hj. unfold f64_cell_scalar, float_is_int.
  destruct (f64_is_finite b) eqn:E; cbn [json_of_scalar]; [rewrite E|]; destruct Hj as [-> | ->]; cbn [json_eqb negb];
    try reflexivity; unfold float_is_int; rewrite E; reflexivity.
Qed.

Lemma json_eqb_str_inv : forall a s, json_eqb a (JStr s) = true -> a = JStr s.
Proof. intros a s H. destruct a; cbn [json_eqb] in H; try discriminate. f_equal. apply bytes_eqb_eq, H. Qed.

Lemma json_of_utf8_str_inv : forall t s, json_of_utf8 t = JStr s -> t = s.
Proof.
  intros t s H. destruct (json_of_utf8_cases t) as [[_ E]|[_ N]]; rewrite H in *; [|discriminate N].
  injection E as ->. reflexivity.
Qed.

Lemma json_of_scalar_str_inv : forall x s, json_of_scalar x = JStr s -> x = SUtf8 s.
Proof.
  intros x s H. destruct x; cbn [json_of_scalar] in H; try discriminate.
  - destruct (z <? 0); discriminate.
  - destruct (f64_is_finite bits); discriminate.
  - f_equal. eapply json_of_utf8_str_inv, H.
Qed.

Lemma json_eqb_scalar_str : forall x s,
  json_eqb (json_of_scalar x) (JStr s) = scalar_eqb x (SUtf8 s) && negb (utf8_reparsed s).
Proof.
  intros [| b | z | b | t] s; cbn [json_of_scalar scalar_eqb]; try reflexivity;
    [destruct (z <? 0); reflexivity|destruct (f64_is_finite b); reflexivity|].
  destruct (bytes_eqb t s) eqn:E.
  - apply bytes_eqb_eq in E. subst t. destruct (utf8_reparsed s) eqn:R; [apply json_of_utf8_reparsed, R|].
    rewrite (json_of_utf8_plain _ R). apply json_eqb_refl.
  - (* another text: whether rendered parsed or as it is, it is not the string [s] *)
    destruct (json_of_utf8_cases t) as [[_ ->]|[_ N]]; [exact E|apply json_eqb_not_str, N].
Qed.

Definition reparsed (j : json) : bool := match j with JStr s => utf8_reparsed s | _ => false end.

(** the flushed column does not hold the memtable's value *)
Definition changed (p : phys) (j : json) : bool :=
  match p, j with
  | PVar, JStr s => string_retyped s
  | PVar, JNull => true
  | PF64, JU64 z | PF64, JI64 z => int_inexact_as_f64 z
  | _, _ => false
  end.

Definition tier_known (t : ftype) (l : layout) (cp : bool) (v : stored) : bool :=
  in_class StringRetyped t l cp v || in_class NullStringBecomesEmpty t l cp v ||
  in_class IntegerInFloatFieldRounded t l cp v.

Lemma tier_known_eq : forall t l cp v,
  tier_known t l cp v = negb (in_memory l) && cp && changed (phys_of t) (expected v).
Proof.
  intros t l cp v. unfold tier_known. cbn [in_class]. destruct (negb (in_memory l) && cp); [|reflexivity].
  destruct (phys_of t), v as [[]|]; cbn [andb orb expected changed]; rewrite ?orb_false_r; reflexivity.
Qed.

Lemma known_split : forall t l cp v,
  known t l cp v = in_class Utf8ReparsedOnRender t l cp v || tier_known t l cp v.
Proof. intros. unfold known, tier_known. cbn [all_classes existsb]. rewrite orb_false_r, !orb_assoc. reflexivity. Qed.

Lemma known_eq : forall t l cp v,
  known t l cp v = reparsed (expected v) || negb (in_memory l) && cp && changed (phys_of t) (expected v).
Proof. intros t l cp v. rewrite known_split, tier_known_eq. destruct v as [[]|]; reflexivity. Qed.

Lemma mem_decides : forall p j, storable p j = true ->
  json_eqb (json_of_scalar (scalar_of_json j)) j = negb (reparsed j).
Proof.
  intros p j H. rewrite (json_of_scalar_of_json p j H). destruct j; try apply json_eqb_refl.
  cbn [reparsed]. rewrite (json_eqb_scalar_str (SUtf8 s)), scalar_eqb_refl. reflexivity.
Qed.

Lemma seg_decides : forall p j, storable p j = true ->
  json_eqb (json_of_scalar (seg_scalar p j)) j = negb (reparsed j || changed p j).
Proof.
  intros p j H. pose proof (mem_decides p j H) as M.
  (* off the rows where [seg_scalar] departs from the memtable scalar nothing changes, and [M] is the claim *)
  destruct p, j; try discriminate H; cbn [seg_scalar changed reparsed orb] in *; try exact M.
  - reflexivity.
  - rewrite json_eqb_scalar_str. unfold string_retyped. destruct (scalar_eqb _ _), (utf8_reparsed s); reflexivity.
  - rewrite (f64_cell_eqb_int _ n) by (left; reflexivity). unfold int_inexact_as_f64. now rewrite negb_involutive.
  - rewrite (f64_cell_eqb_int _ z) by (right; reflexivity). unfold int_inexact_as_f64. now rewrite negb_involutive.
Qed.

Theorem known_decides : forall t l cp v,
  definable t = true -> conforming t v = true -> col_consistent cp v = true ->
  json_eqb (returned t l cp v) (expected v) = negb (known t l cp v).
Proof.
  intros t l cp v Hd Hc Hcp. pose proof (conforming_storable t v Hd Hc) as Hs.
  rewrite (returned_eq t l cp v Hs Hcp), known_eq. destruct (negb (in_memory l) && cp); cbn [andb].
  - apply seg_decides, Hs.
  - rewrite orb_false_r. apply (mem_decides _ _ Hs).
Qed.

Theorem roundtrip_outside_known : forall t l cp v,
  definable t = true -> conforming t v = true -> col_consistent cp v = true ->
  known t l cp v = false ->
  json_eqb (returned t l cp v) (expected v) = true.
Proof. intros t l cp v Hd Hc Hcp Hk. rewrite known_decides, Hk by assumption. reflexivity. Qed.

(** stated in both orders, since no symmetry of [json_eqb] is proved (and it is not transitive: +0.0 and -0.0 both
    equal the integer 0) *)
Lemma unchanged_agrees : forall p j, storable p j = true -> changed p j = false ->
  json_eqb (json_of_scalar (scalar_of_json j)) (json_of_scalar (seg_scalar p j)) = true /\
  json_eqb (json_of_scalar (seg_scalar p j)) (json_of_scalar (scalar_of_json j)) = true.
Proof.
  intros p j H K. pose proof (json_of_scalar_of_json p j H) as Ej.
  destruct p, j; try discriminate H; try discriminate K; cbn [seg_scalar changed] in *;
    try (split; apply json_eqb_refl).
  - apply negb_false_iff, scalar_eqb_eq in K. rewrite K. split; apply json_eqb_refl.
  - apply negb_false_iff in K. rewrite Ej, (json_of_exact_float _ _ K). split; exact K.
  - apply negb_false_iff in K. rewrite Ej, (json_of_exact_float _ _ K). split; exact K.
Qed.

Definition L_mem : layout := {| via_wal := false; in_seg := None |}.
Definition L_wal : layout := {| via_wal := true; in_seg := None |}.
Definition L_seg : layout := {| via_wal := false; in_seg := Some 0%nat |}.
Definition L_cmp : layout := {| via_wal := false; in_seg := Some 1%nat |}.

Definition fails (k : known_class) (t : ftype) (l : layout) (cp : bool) (v : stored) : Prop :=
  definable t = true /\ conforming t v = true /\ col_consistent cp v = true /\
  in_class k t l cp v = true /\ json_eqb (returned t l cp v) (expected v) = false.

(** "[1]" ; "123" ; null ; 9007199254740993 *)
Theorem roundtrip_refuted :
  fails Utf8ReparsedOnRender TStr L_mem true (Some (JStr [91; 49; 93]%N)) /\
  fails StringRetyped TStr L_seg true (Some (JStr [49; 50; 51]%N)) /\
  fails NullStringBecomesEmpty (TOpt TStr) L_seg true (Some JNull) /\
  fails IntegerInFloatFieldRounded TF64 L_seg true (Some (JU64 9007199254740993)).
Proof. repeat apply conj; vm_compute; reflexivity. Qed.

(** 446.19296929045356 survives the WAL (32b7370); the legacy reader changes its last bit *)
Example wal_float_former_witness :
  returned TF64 L_wal true (Some (JF64 4646557125919078934)) = JF64 4646557125919078934 /\
  wal_float_legacy 4646557125919078934 = SFloat 4646557125919078935.
Proof. split; vm_compute; reflexivity. Qed.

(** further witnesses of the re-typing class: " 7 ", "true", "1e3", NBSP "7", "null", and an enum
    variant "12"; the optional string whose key is absent; the compacted tier *)
Example retyped_witnesses :
  returned TStr L_seg true (Some (JStr [32; 55; 32]%N)) = JU64 7 /\
  returned TStr L_seg true (Some (JStr [116; 114; 117; 101]%N)) = JBool true /\
  returned TStr L_seg true (Some (JStr [49; 101; 51]%N)) = JF64 4652007308841189376 /\
  returned TStr L_cmp true (Some (JStr [194; 160; 55]%N)) = JU64 7 /\
  returned (TOpt TStr) L_seg true (Some (JStr [110; 117; 108; 108]%N)) = JNull /\
  returned (TEnum [[49; 50]%N]) L_seg true (Some (JStr [49; 50]%N)) = JU64 12 /\
  returned (TOpt TStr) L_cmp true None = JStr [] /\
  returned TStr L_mem true (Some (JStr [49; 50; 51]%N)) = JStr [49; 50; 51]%N /\
  returned TStr L_mem true (Some (JStr (dec_of_Z 9999999999999999999))) = JU64 9999999999999999999.
Proof. repeat apply conj; vm_compute; reflexivity. Qed.

(** the hypothesis on [Utf8ReparsedOnRender] is not used: [known_decides] has none *)
Theorem known_classes_fail : forall k t l cp v,
  definable t = true -> conforming t v = true -> col_consistent cp v = true ->
  in_class k t l cp v = true ->
  (k = Utf8ReparsedOnRender -> in_memory l = true) ->
  json_eqb (returned t l cp v) (expected v) = false.
Proof.
  intros k t l cp v Hd Hc Hcp Hk _. rewrite known_decides by assumption. apply negb_false_iff, existsb_exists.
  exists k. split; [destruct k; cbn [all_classes In]; tauto|exact Hk].
Qed.

Theorem tiers_agree_outside_known : forall t l1 l2 cp1 cp2 v,
  definable t = true -> conforming t v = true ->
  col_consistent cp1 v = true -> col_consistent cp2 v = true ->
  tier_known t l1 cp1 v = false -> tier_known t l2 cp2 v = false ->
  json_eqb (returned t l1 cp1 v) (returned t l2 cp2 v) = true.
Proof.
  intros t l1 l2 cp1 cp2 v Hd Hc H1 H2 K1 K2. pose proof (conforming_storable t v Hd Hc) as Hs.
  rewrite (returned_eq t l1 cp1 v Hs H1), (returned_eq t l2 cp2 v Hs H2). rewrite tier_known_eq in K1, K2.
  (* each layout returns one of the two renderings, and the flushed one only where it is unchanged *)
  destruct (negb (in_memory l1) && cp1), (negb (in_memory l2) && cp2); cbn [andb] in K1, K2;
    [apply json_eqb_refl|apply (unchanged_agrees _ _ Hs K1)|apply (unchanged_agrees _ _ Hs K2)|apply json_eqb_refl].
Qed.

Theorem tiers_agree_refuted :
  json_eqb (returned TStr L_mem true (Some (JStr [49; 50; 51]%N))) (returned TStr L_seg true (Some (JStr [49; 50; 51]%N))) = false /\
  json_eqb (returned (TOpt TStr) L_mem true (Some JNull)) (returned (TOpt TStr) L_seg true (Some JNull)) = false /\
  json_eqb (returned TF64 L_mem true (Some (JU64 9007199254740993))) (returned TF64 L_seg true (Some (JU64 9007199254740993))) = false.
Proof. repeat apply conj; vm_compute; reflexivity. Qed.

Lemma nat_iter_map : forall (A : Type) (f : A -> A) n (l : list A),
  Nat.iter n (map f) l = map (Nat.iter n f) l.
Proof.
  intros A f n. induction n as [|n IH]; intros l.
  - cbn [Nat.iter nat_rect]. rewrite map_id. reflexivity.
  - change (Nat.iter (S n) (map f) l) with (map f (Nat.iter n (map f) l)).
    rewrite IH, map_map. apply map_ext. intros a. reflexivity.
Qed.

Lemma iter_compact_nat_iter : forall n p c, iter_compact n p c = Nat.iter n (compact_cell p) c.
Proof.
  induction n as [|n IH]; intros p c; [reflexivity|].
  cbn [iter_compact]. rewrite IH. symmetry. apply nat_rect_succ_r.
Qed.

Theorem zone_pointwise : forall t l vs,
  returned_zone t l vs = map (returned t l (zone_col_present vs)) vs.
Proof.
  intros t [w seg] vs. unfold returned_zone, returned, tier_scalar. cbn [via_wal in_seg].
  destruct seg as [n|].
  - destruct (zone_col_present vs).
    + unfold read_zone, compact_zone, write_zone. rewrite nat_iter_map, !map_map.
      apply map_ext. intros v. rewrite iter_compact_nat_iter. reflexivity.
    + apply map_ext. reflexivity.
  - rewrite map_map. reflexivity.
Qed.

Lemma zone_col_consistent : forall vs v, In v vs -> col_consistent (zone_col_present vs) v = true.
Proof.
  intros vs v Hin. destruct v as [j|]; [|reflexivity]. cbn [col_consistent]. unfold zone_col_present.
  apply existsb_exists. exists (Some j). split; [exact Hin|reflexivity].
Qed.

Corollary zone_roundtrip : forall t l vs,
  definable t = true ->
  Forall (fun v => conforming t v = true /\ known t l (zone_col_present vs) v = false) vs ->
  Forall2 (fun r v => json_eqb r (expected v) = true) (returned_zone t l vs) vs.
Proof.
  intros t l vs Hd Hall. rewrite zone_pointwise. apply Forall2_map_l. intros v Hv.
  rewrite Forall_forall in Hall. destruct (Hall v Hv) as [Hc Hk].
  apply roundtrip_outside_known; try assumption. apply zone_col_consistent, Hv.
Qed.

Lemma parse_u64_minus : forall r, parse_u64 (45%N :: r) = None.
Proof. reflexivity. Qed.

(** a separate case for a leading '-' before the u64 reader is redundant: [parse_u64] rejects a minus sign
    (the byte is taken apart bit by bit as in [ValueTextProofs.parse_u64_noplus]) *)
Lemma minus_case_redundant : forall (A : Type) (t : bytes) (y : Z -> A) (x : A),
  match t with 45%N :: _ => x | _ => match parse_u64 t with Some u => y u | None => x end end
  = match parse_u64 t with Some u => y u | None => x end.
Proof.
  intros A [|c r] y x; [reflexivity|].
  destruct (N.eq_dec c 45) as [->|Hc]; [rewrite parse_u64_minus; reflexivity|].
  destruct c as [|p]; [reflexivity|].
  repeat (destruct p as [p|p|]; try reflexivity).
Qed.

Lemma add_payload_field_eq : forall v, add_payload_field v =
  let t := utrim v in
  if bytes_eqb t kw_true then SBool true
  else if bytes_eqb t kw_false then SBool false
  else if bytes_eqb t kw_null then SNull
  else match parse_u64 t with
       | Some u => u64_scalar u
       | None =>
           match parse_i64 t with
           | Some i => SInt i
           | None => match parse_f64 t with
                     | Some b => if f64_is_finite b then SFloat b else SUtf8 v
                     | None => SUtf8 v
                     end
           end
       end.
Proof.
  intros v. unfold add_payload_field. rewrite minus_case_redundant.
  destruct (parse_u64 (utrim v)); [reflexivity|]. destruct (parse_i64 (utrim v)); reflexivity.
Qed.

(** Stated over [add_payload_field s <> SUtf8 s], which is what [string_retyped s] says (Model/ValueTiers.v).  The
    second disjunct is the one kind of candidate that survives: the canonical decimal spelling of a u64 above
    i64::MAX, which [u64_scalar] keeps as the same text. *)
Theorem string_retyped_characterised : forall s,
  (retype_candidate s = false -> add_payload_field s = SUtf8 s) /\
  (retype_candidate s = true ->
     add_payload_field s <> SUtf8 s \/
     exists u, parse_u64 (utrim s) = Some u /\ i64_max < u /\ s = dec_of_Z u).
Proof.
  intros s. rewrite add_payload_field_eq. unfold retype_candidate.
  destruct (bytes_eqb (utrim s) kw_true); [split; [discriminate|left; discriminate]|].
  destruct (bytes_eqb (utrim s) kw_false); [split; [discriminate|left; discriminate]|].
  destruct (bytes_eqb (utrim s) kw_null); [split; [discriminate|left; discriminate]|].
  destruct (parse_u64 (utrim s)) as [u|]; cbn [is_some orb].
  - split; [discriminate|]. intros _. destruct (Z.le_gt_cases u i64_max) as [L|G].
    + left. rewrite (u64_scalar_small u L). discriminate.
    + rewrite (u64_scalar_big u G). destruct (bytes_eqb (dec_of_Z u) s) eqn:E.
      * right. exists u. apply bytes_eqb_eq in E. auto.
      * left. intros Hq. inversion Hq as [H1]. rewrite H1, bytes_eqb_refl in E. discriminate.
  - destruct (parse_i64 (utrim s)) as [i|]; cbn [is_some orb]; [split; [discriminate|left; discriminate]|].
    destruct (parse_f64 (utrim s)) as [b|]; [destruct (f64_is_finite b)|];
      split; intros Hq; try discriminate; try reflexivity; left; discriminate.
Qed.

Corollary not_candidate_not_retyped : forall s, retype_candidate s = false -> string_retyped s = false.
Proof.
  intros s H. unfold string_retyped. rewrite (proj1 (string_retyped_characterised s) H), scalar_eqb_refl. reflexivity.
Qed.

(** the hypotheses of the positive theorems are satisfiable in every tier *)
Definition L_all : list layout :=
  [L_mem; L_wal; L_seg; L_cmp; {| via_wal := true; in_seg := Some 0%nat |}; {| via_wal := true; in_seg := Some 3%nat |}].
Definition sample_inputs : list (ftype * stored) :=
  [(TU64, Some (JU64 18446744073709551615)); (TOpt TU64, Some (JU64 9223372036854775808));
   (TI64, Some (JI64 (-9223372036854775808))); (TI64, Some (JU64 9223372036854775807));
   (TF64, Some (JF64 4609434218613702656)); (TF64, Some (JF64 4646557125919078934)); (TF64, Some (JF64 4845873199050653695)); (TF64, Some (JU64 3)); (TF64, Some (JI64 (-9007199254740992)));
   (TStr, Some (JStr [104; 195; 169; 108; 108; 111; 32; 119; 195; 182; 114; 108; 100]%N));
   (TStr, Some (JStr [78; 97; 78]%N)); (TStr, Some (JStr []));
   (TEnum [[97; 97]%N; [98]%N], Some (JStr [97; 97]%N));
   (TTime, Some (JU64 1700000000)); (TOpt TDate, Some JNull); (TOpt TI64, None); (TOpt TBool, Some (JBool true));
   (TBool, Some (JBool false)); (TOpt TF64, Some JNull)].
Example roundtrip_outside_known_example :
  forallb (fun l => forallb (fun tv =>
     definable (fst tv) && conforming (fst tv) (snd tv) && col_consistent true (snd tv) &&
     negb (known (fst tv) l true (snd tv)) &&
     json_eqb (returned (fst tv) l true (snd tv)) (expected (snd tv))) sample_inputs) L_all = true.
Proof. vm_compute. reflexivity. Qed.

(** the bytes of a signed decimal: '+' ',' '-' '.' '/' and the digits; none is white space, none the last
    byte of a multi-byte space, none opens a keyword *)
Definition plain (c : N) : Prop := (43 <= c <= 57)%N.

Lemma ws_len_start_plain : forall c r, plain c -> ws_len_start (c :: r) = 0%nat.
Proof.
  intros c r H. unfold plain in H. unfold ws_len_start.
  assert (Ha : is_ascii_ws c = false) by (unfold is_ascii_ws; lia). rewrite Ha.
  assert (H2 : forall b, ws2 c b = false) by (intros b; unfold ws2; lia).
  assert (H3 : forall a b, ws3 c a b = false).
  { intros a b. unfold ws3.
    assert (X1 : (c =? 225)%N = false) by lia. assert (X2 : (c =? 226)%N = false) by lia. assert (X3 : (c =? 227)%N = false) by lia.
    rewrite X1, X2, X3. reflexivity. }
  destruct r as [|b r2]; [reflexivity|]. rewrite H2. destruct r2 as [|a r3]; [reflexivity|]. rewrite H3. reflexivity.
Qed.

Lemma ws_len_end_plain : forall d r, plain d -> ws_len_end (d :: r) = 0%nat.
Proof.
  intros d r H. unfold ws_len_end. unfold plain in H.
  assert (Ha : is_ascii_ws d = false) by (unfold is_ascii_ws; lia). rewrite Ha.
  destruct r as [|b r2]; [reflexivity|].
  assert (H2 : ws2 b d = false) by (unfold ws2; lia). rewrite H2.
  destruct r2 as [|a r3]; [reflexivity|].
  assert (H3 : ws3 a b d = false).
  { unfold ws3.
    assert (X1 : (d =? 128)%N = false) by lia. assert (X2 : (d =? 159)%N = false) by lia.
    assert (X3 : (d =? 168)%N = false) by lia. assert (X4 : (d =? 169)%N = false) by lia. assert (X5 : (d =? 175)%N = false) by lia.
    assert (X6 : ((128 <=? d)%N && (d <=? 138)%N) = false) by lia.
    rewrite X1, X2, X3, X4, X5, X6. rewrite !andb_false_r. reflexivity. }
  rewrite H3. reflexivity.
Qed.

Lemma utrim_plain : forall s, Forall plain s -> utrim s = s.
Proof.
  intros [|c r] H; [reflexivity|]. unfold utrim.
  assert (E1 : utrim_start (c :: r) = c :: r).
  { unfold utrim_start. cbn [length utrim_start_fuel]. rewrite ws_len_start_plain by exact (Forall_inv H). reflexivity. }
  rewrite E1. unfold utrim_end. destruct (rev (c :: r)) as [|d r'] eqn:Hr.
  { apply (f_equal (@length N)) in Hr. rewrite rev_length in Hr. discriminate Hr. }
  assert (Hd : plain d).
  { rewrite Forall_forall in H. apply H, in_rev. rewrite Hr. left. reflexivity. }
  cbn [length utrim_end_fuel]. rewrite ws_len_end_plain by exact Hd. rewrite <- Hr, rev_involutive. reflexivity.
Qed.

Lemma parse_i64_plain : forall s z, parse_i64 s = Some z -> Forall plain s.
Proof.
  intros s z H. destruct (parse_i64_inv s z H) as (sg & ds & v & -> & E & Hsg). apply Forall_app. split.
  - destruct Hsg as [(-> & _)|([-> | ->] & _)]; repeat constructor; lia.
  - unfold digits_opt in E. destruct ds; [discriminate E|]. destruct (all_digits _) eqn:Hd; [|discriminate E].
    apply all_digits_Forall in Hd. revert Hd. apply Forall_impl. intros c Hc. unfold is_digit in Hc. unfold plain. lia.
Qed.

Theorem sink_agrees : forall s z, parse_i64 s = Some z -> add_payload_field s = SInt z.
Proof.
  intros s z H. rewrite add_payload_field_eq. cbv zeta. rewrite (utrim_plain s (parse_i64_plain s z H)).
  (* a keyword does not read as an integer *)
  destruct (bytes_eqb s kw_true) eqn:K1; [apply bytes_eqb_eq in K1; subst s; discriminate H|].
  destruct (bytes_eqb s kw_false) eqn:K2; [apply bytes_eqb_eq in K2; subst s; discriminate H|].
  destruct (bytes_eqb s kw_null) eqn:K3; [apply bytes_eqb_eq in K3; subst s; discriminate H|].
  (* where the u64 reader accepts too, it reads the same number *)
  destruct (parse_u64 s) as [u|] eqn:Eu; [|rewrite H; reflexivity].
  rewrite (parse_u64_i64 s u z Eu H). apply u64_scalar_small, (parse_i64_range s z H).
Qed.

Corollary read_cell_sink_agrees : forall c, read_cell_sink c = read_cell c.
Proof.
  intros [s | o | o | o | o]; try reflexivity. cbn [read_cell_sink read_cell].
  destruct (parse_i64 s) as [z|] eqn:E; [|reflexivity]. symmetry. apply sink_agrees, E.
Qed.

(** The core string fields (context_id, event_type): [core_write], [core_compact] and [core_read] are the identity in
    the model (Model/ValueTiers.v), and [core_tier_text_id], [core_tiers_agree] and [for_selects_exact] say no more
    than that.  What is proved about the code is the rendering: [core_roundtrip_outside_known], [core_known_fails]. *)
Lemma iter_core_compact_id : forall n s, iter_core_compact n s = s.
Proof. induction n as [|n IH]; intros s; cbn [iter_core_compact]; [reflexivity|]. apply IH. Qed.

Lemma core_tier_text_id : forall l s, core_tier_text l s = s.
Proof. intros [w [n|]] s; unfold core_tier_text; cbn [in_seg]; [apply iter_core_compact_id|reflexivity]. Qed.

Theorem core_tiers_agree : forall l1 l2 s, returned_core l1 s = returned_core l2 s.
Proof. intros. unfold returned_core. rewrite !core_tier_text_id. reflexivity. Qed.

Theorem core_roundtrip_outside_known : forall l s, utf8_reparsed s = false -> returned_core l s = JStr s.
Proof. intros l s H. unfold returned_core. rewrite core_tier_text_id. apply json_of_utf8_plain, H. Qed.

Theorem core_known_fails : forall l s, utf8_reparsed s = true -> json_eqb (returned_core l s) (JStr s) = false.
Proof.
  intros l s H. unfold returned_core. rewrite core_tier_text_id. apply json_of_utf8_reparsed, H.
Qed.

Example core_refuted :
  returned_core L_mem (dec_of_Z 9999999999999999999) = JU64 9999999999999999999 /\
  returned_core L_cmp (dec_of_Z 9999999999999999999) = JU64 9999999999999999999 /\
  returned_core L_seg [91; 49; 93]%N = JArr [JU64 1].
Proof. repeat apply conj; vm_compute; reflexivity. Qed.

Theorem for_selects_exact : forall l q ctx, for_selects l q ctx = true <-> ctx = q.
Proof.
  intros l q ctx. unfold for_selects. rewrite core_tier_text_id. apply bytes_eqb_eq.
Qed.

(** the cases of [core_read_sink]'s definition: it departs from [core_read] on an i64 in another spelling than the
    canonical one ([core_sink_differs]) *)
Theorem core_sink_characterised : forall s,
  (parse_i64 s = None -> core_read_sink s = core_read s) /\
  (forall z, parse_i64 s = Some z -> core_read_sink s = dec_of_Z z).
Proof. intros s. unfold core_read_sink, core_read. split; [intros ->; reflexivity|intros z ->; reflexivity]. Qed.

Example core_sink_differs :
  core_read_sink [48; 48; 49; 50; 51]%N = [49; 50; 51]%N /\ core_read [48; 48; 49; 50; 51]%N = [48; 48; 49; 50; 51]%N /\
  core_read_sink [43; 55]%N = [55]%N /\ core_read_sink [45; 48]%N = [48]%N /\
  for_selects L_seg [52; 50]%N [48; 48; 52; 50]%N = false /\ for_selects L_seg [48; 48; 52; 50]%N [48; 48; 52; 50]%N = true.
Proof. repeat apply conj; vm_compute; reflexivity. Qed.
