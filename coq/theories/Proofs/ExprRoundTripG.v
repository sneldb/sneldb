(** The round trip for the expression rules over an arbitrary leaf parser: if every
    well-formed leaf, printed, is parsed back by the leaf parser (and does not look like NOT or a
    parenthesis), then so is every expression built from such leaves with AND / OR / NOT, at all
    three rule levels.  Instantiated for the WHERE grammar in ParserProofs.v and for the PLOT FILTER
    grammar in PlotRoundTrip.v. *)
From Coq Require Import NArith ZArith List Lia.
From Snel Require Import Base.Bytes Model.Tokenizer Model.Parser Model.Printer Proofs.ParserBasics Proofs.ExprRoundTrip Proofs.FuelProofs.
Import ListNotations.
Open Scope N_scope.

Definition is_leafe (e : expr) : bool := match e with ECmp _ _ _ | EIn _ _ => true | _ => false end.

Section G.
Variable lf : P expr.
Variable sp : bytes -> bytes.
Hypothesis Hsp : speller_ok sp.
Variable wfl : expr -> bool.

Fixpoint wf_g (e : expr) : bool :=
  match e with
  | ECmp _ _ _ | EIn _ _ => wfl e
  | EAnd x y | EOr x y => wf_g x && wf_g y
  | ENot x => wf_g x
  end.

Hypothesis leaf_ok : forall e lvl rest, is_leafe e = true -> wfl e = true -> fstop rest ->
  (ci K_NOT (print_expr_at sp lvl e ++ rest) = None /\ lit 40 (print_expr_at sp lvl e ++ rest) = None) /\
  lf (print_expr_at sp lvl e ++ rest) = Ok (e, rest).
Hypothesis leaf_nows : forall e lvl rest, is_leafe e = true -> wfl e = true ->
  head_is is_tws (print_expr_at sp lvl e ++ rest) = false.

Definition reads (rule : nat -> P expr) (stop : bytes -> Prop) (e : expr) (txt : bytes) : Prop :=
  exists f0, forall f, (f0 <= f)%nat -> forall rest, stop rest -> rule f (txt ++ rest) = Ok (e, rest).

Definition rt_at_g (e : expr) : Prop :=
  reads (or_expr_g lf) ostop e (print_expr_at sp 0 e) /\
  reads (and_expr_g lf) astop e (print_expr_at sp 1 e) /\
  reads (factor_g lf) fstop e (print_expr_at sp 2 e).

(** a [chain] rule where [K] does not follow, and on [tx K ty] *)
Section Chain.
Variables (K : bytes) (mk : expr -> expr -> expr) (sub rule : nat -> P expr) (stopsub stop : bytes -> Prop).
Hypothesis rule_S : forall f, rule (S f) = chain K mk (sub f) (rule f).

Lemma chain_stops : (forall rest, stop rest -> stopsub rest /\ ci K (ws rest) = None) ->
  forall e txt, reads sub stopsub e txt -> reads rule stop e txt.
Proof.
  intros Hst e txt [f0 H]. exists (S f0). intros [|f] Hf rest Hr; [lia|]. destruct (Hst rest Hr) as [Hs Hk].
  rewrite rule_S. unfold chain. rewrite (H f ltac:(lia) rest Hs), Hk. reflexivity.
Qed.

Lemma chain_goes : word K = true -> forall x y tx ty,
  (forall rest, stopsub (32 :: sp K ++ 32 :: ty ++ rest)) -> (forall rest, head_is is_tws (ty ++ rest) = false) ->
  reads sub stopsub x tx -> reads rule stop y ty -> reads rule stop (mk x y) (tx ++ 32 :: sp K ++ 32 :: ty).
Proof.
  intros Hw x y tx ty Hk Hh [fx0 Rx] [fy0 Ry]. exists (S (fx0 + fy0)). intros [|f] Hf rest Hst; [lia|].
  norm_app. rewrite rule_S. unfold chain. rewrite (Rx f ltac:(lia) _ (Hk rest)).
  rewrite ws_space, (ws_nows _ (alpha_not_ws _ (sp_alpha_head sp Hsp K _ Hw))).
  rewrite (ci_spell sp Hsp K (32 :: _) Hw eq_refl), ws_space, (ws_nows _ (Hh rest)), (Ry f ltac:(lia) rest Hst).
  reflexivity.
Qed.

End Chain.

Lemma and_of_factor : forall e txt, reads (factor_g lf) fstop e txt -> reads (and_expr_g lf) astop e txt.
Proof. exact (chain_stops K_AND EAnd _ _ fstop astop (and_expr_g_S lf) (fun _ H => H)). Qed.

Lemma or_of_and : forall e txt, reads (and_expr_g lf) astop e txt -> reads (or_expr_g lf) ostop e txt.
Proof. exact (chain_stops K_OR EOr _ _ astop ostop (or_expr_g_S lf) (fun _ H => H)). Qed.

Lemma print_nows_g : forall e lvl rest, wf_g e = true -> head_is is_tws (print_expr_at sp lvl e ++ rest) = false.
Proof.
  induction e as [f o v | f vs | x IHx y IHy | x IHx y IHy | x IHx]; intros lvl rest Hw.
  - apply leaf_nows; auto.
  - apply leaf_nows; auto.
  - cbn [wf_g print_expr_at] in *. apply andb_prop in Hw as [Hx Hy].
    destruct (Nat.ltb 1 lvl); norm_app; [reflexivity|apply IHx, Hx].
  - cbn [wf_g print_expr_at] in *. apply andb_prop in Hw as [Hx Hy].
    destruct (Nat.ltb 0 lvl); norm_app; [reflexivity|apply IHx, Hx].
  - cbn [print_expr_at]. norm_app. apply alpha_not_ws, (sp_alpha_head sp Hsp). reflexivity.
Qed.

Lemma leaf_lvl : forall e l1 l2, is_leafe e = true -> print_expr_at sp l1 e = print_expr_at sp l2 e.
Proof. intros [f o v|f vs|x y|x y|x] l1 l2 H; try discriminate; reflexivity. Qed.

Lemma factor_leaf_g : forall s e f rest,
  ci K_NOT s = None -> lit 40 s = None -> lf s = Ok (e, rest) ->
  factor_g lf (S f) s = Ok (e, rest).
Proof. intros s e f rest H1 H2 H3. rewrite factor_g_S. unfold factor_rule, paren_or_leaf. rewrite H1, H2. auto. Qed.

Lemma rt_from_factor_g : forall e txt,
  print_expr_at sp 0 e = txt -> print_expr_at sp 1 e = txt -> print_expr_at sp 2 e = txt ->
  reads (factor_g lf) fstop e txt -> rt_at_g e.
Proof.
  intros e txt E0 E1 E2 H. unfold rt_at_g. rewrite E0, E1, E2. pose proof (and_of_factor _ _ H) as Ha.
  exact (conj (or_of_and _ _ Ha) (conj Ha H)).
Qed.

Lemma factor_of_or : forall e txt, (forall rest, head_is is_tws (txt ++ rest) = false) ->
  reads (or_expr_g lf) ostop e txt -> reads (factor_g lf) fstop e (40 :: txt ++ [41]).
Proof.
  intros e txt Hh [f0 H]. exists (S f0). intros [|f] Hf rest _; [lia|]. norm_app.
  rewrite factor_g_S. unfold factor_rule, paren_or_leaf. rewrite (ci_nonalpha K_NOT (40 :: _) eq_refl).
  rewrite lit_hit, (ws_nows _ (Hh _)), (H f ltac:(lia) _ (ostop_paren rest)).
  rewrite (ws_nows (41 :: rest) eq_refl), lit_hit. reflexivity.
Qed.

Lemma rt_expr_g : forall e, wf_g e = true -> rt_at_g e.
Proof.
  assert (Hleaf : forall e, is_leafe e = true -> wfl e = true -> rt_at_g e).
  { intros e Hl Hw. apply (rt_from_factor_g _ (print_expr_at sp 0 e)); auto using leaf_lvl.
    exists 1%nat. intros [|f] Hf rest Hst; [lia|].
    destruct (leaf_ok e 0 rest Hl Hw Hst) as ((H1 & H2) & H3). apply factor_leaf_g; auto. }
  induction e as [f o v | f vs | x IHx y IHy | x IHx y IHy | x IHx]; intro Hw.
  - apply Hleaf; auto.
  - apply Hleaf; auto.
  - cbn [wf_g] in Hw. apply andb_prop in Hw as [Hx Hy].
    destruct (IHx Hx) as (_ & _ & Rx). destruct (IHy Hy) as (_ & Ry & _).
    (* AND is printed bare at levels 0 and 1 and in parentheses at level 2: by computation the three texts of
       [rt_at_g] are [txt], [txt] and [40 :: txt ++ [41]] *)
    set (txt := print_expr_at sp 2 x ++ 32 :: sp K_AND ++ 32 :: print_expr_at sp 1 y).
    assert (L1 : reads (and_expr_g lf) astop (EAnd x y) txt).
    { apply (chain_goes K_AND EAnd _ _ fstop astop (and_expr_g_S lf) eq_refl); auto.
      - intro rest. apply (fstop_kw sp Hsp); reflexivity.
      - intro rest. apply print_nows_g, Hy. }
    assert (Hh : forall rest, head_is is_tws (txt ++ rest) = false).
    { intro rest. unfold txt. norm_app. apply print_nows_g, Hx. }
    pose proof (or_of_and _ _ L1) as L0.
    exact (conj L0 (conj L1 (factor_of_or _ _ Hh L0))).
  - cbn [wf_g] in Hw. apply andb_prop in Hw as [Hx Hy].
    destruct (IHx Hx) as (_ & Rx & _). destruct (IHy Hy) as (Ry & _ & _).
    (* OR is bare at level 0 only: [txt], [40 :: txt ++ [41]] twice *)
    set (txt := print_expr_at sp 1 x ++ 32 :: sp K_OR ++ 32 :: print_expr_at sp 0 y).
    assert (L0 : reads (or_expr_g lf) ostop (EOr x y) txt).
    { apply (chain_goes K_OR EOr _ _ astop ostop (or_expr_g_S lf) eq_refl); auto.
      - intro rest. apply (astop_kw sp Hsp); reflexivity.
      - intro rest. apply print_nows_g, Hy. }
    assert (Hh : forall rest, head_is is_tws (txt ++ rest) = false).
    { intro rest. unfold txt. norm_app. apply print_nows_g, Hx. }
    pose proof (factor_of_or _ _ Hh L0) as L2.
    exact (conj L0 (conj (and_of_factor _ _ L2) L2)).
  - cbn [wf_g] in Hw. destruct (IHx Hw) as (_ & _ & fx0 & Rx).
    apply (rt_from_factor_g _ (print_expr_at sp 0 (ENot x))); try reflexivity.
    exists (S fx0). intros [|f] Hf rest Hst; [lia|]. cbn [print_expr_at]. norm_app.
    rewrite factor_g_S. unfold factor_rule.
    rewrite (ci_spell sp Hsp K_NOT (32 :: _) eq_refl eq_refl), ws_space, (ws_nows _ (print_nows_g x 2 rest Hw)).
    rewrite (Rx f ltac:(lia) rest Hst). reflexivity.
Qed.

(** the round trip at the fuel the entry point supplies: some fuel suffices ([rt_expr_g]), and more changes nothing *)
Lemma print_at_g : consumes lf -> avoids Fuel lf -> forall e rest, wf_g e = true -> ostop rest ->
  or_expr_g lf (expr_fuel (print_expr sp e ++ rest)) (print_expr sp e ++ rest) = Ok (e, rest).
Proof.
  intros Hlc Hln e rest Hw Hst. destruct (rt_expr_g e Hw) as ((f0 & Ho) & _ & _).
  rewrite (or_expr_enough lf Hlc Hln f0); unfold print_expr; rewrite (Ho f0 (le_n _) rest Hst); [reflexivity|exact id].
Qed.

End G.
