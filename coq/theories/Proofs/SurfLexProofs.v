(** Lexicographic order on byte strings ([Base.Bytes.bytes_cmp], Rust's [Ord for [u8]]):
    a strict total order; facts used by the trie and filter proofs (C08). *)
From Coq Require Import NArith List Lia.
From Snel Require Import Base.Bytes Proofs.BytesFacts.
Import ListNotations.
Open Scope N_scope.

Definition blt (a b : bytes) : Prop := bytes_cmp a b = Lt.
Definition ble (a b : bytes) : Prop := bytes_cmp a b <> Gt.

Lemma blt_cons : forall x y a b, blt (x :: a) (y :: b) <-> (x < y \/ (x = y /\ blt a b)).
Proof.
  intros x y a b. unfold blt. cbn [bytes_cmp].
  destruct (N.compare_spec x y) as [->|H|H]; split; intros H'.
  - right. now split.
  - destruct H' as [H'|[_ H']]; [lia|assumption].
  - now left.
  - reflexivity.
  - discriminate.
  - destruct H' as [H'|[H' _]]; lia.
Qed.

Lemma blt_irrefl : forall a, ~ blt a a.
Proof. intros a H. unfold blt in H. rewrite bytes_cmp_refl in H. discriminate. Qed.

Lemma blt_trans : forall a b c, blt a b -> blt b c -> blt a c.
Proof. exact bytes_cmp_lt_trans. Qed.

Lemma ble_refl : forall a, ble a a.
Proof. intros a. unfold ble. rewrite bytes_cmp_refl. discriminate. Qed.

Lemma ble_cases : forall a b, ble a b <-> (blt a b \/ a = b).
Proof.
  intros a b. unfold ble, blt. split.
  - intros H. destruct (bytes_cmp a b) eqn:E; [right; now apply bytes_cmp_eq|now left|congruence].
  - intros [H| ->]; [rewrite H; discriminate| rewrite bytes_cmp_refl; discriminate].
Qed.

Lemma ble_cons : forall x y a b, ble (x :: a) (y :: b) <-> (x < y \/ (x = y /\ ble a b)).
Proof.
  intros x y a b. rewrite !ble_cases, blt_cons. split.
  - intros [[H|[-> H]]|[= -> ->]]; auto.
  - intros [H|[-> [H| ->]]]; auto.
Qed.

Lemma blt_ble : forall a b, blt a b -> ble a b.
Proof. intros a b H. apply ble_cases. now left. Qed.

Lemma ble_lt_trans : forall a b c, ble a b -> blt b c -> blt a c.
Proof. intros a b c H1 H2. apply ble_cases in H1 as [H1| ->]; [eapply blt_trans; eauto|assumption]. Qed.

Lemma blt_le_trans : forall a b c, blt a b -> ble b c -> blt a c.
Proof. intros a b c H1 H2. apply ble_cases in H2 as [H2| <-]; [eapply blt_trans; eauto|assumption]. Qed.

Lemma ble_trans : forall a b c, ble a b -> ble b c -> ble a c.
Proof. exact bytes_cmp_le_trans. Qed.

Lemma not_blt_ble : forall a b, ~ blt a b <-> ble b a.
Proof.
  intros a b. unfold blt, ble. rewrite (bytes_cmp_antisym a b).
  destruct (bytes_cmp a b); cbn [CompOpp]; split; intros; congruence.
Qed.

Lemma not_ble_blt : forall a b, ~ ble a b <-> blt b a.
Proof.
  intros a b. unfold blt, ble. rewrite (bytes_cmp_antisym a b).
  destruct (bytes_cmp a b); cbn [CompOpp]; split; intros H; try congruence;
    try (exfalso; apply H; discriminate).
Qed.

Lemma blt_total : forall a b, blt a b \/ a = b \/ blt b a.
Proof.
  intros a b. destruct (bytes_cmp a b) eqn:E.
  - right; left. now apply bytes_cmp_eq.
  - now left.
  - right; right. now apply bytes_cmp_gt_lt.
Qed.

Lemma ble_antisym : forall a b, ble a b -> ble b a -> a = b.
Proof.
  intros a b H1 H2. apply ble_cases in H1 as [H1| ->]; [|reflexivity].
  apply not_blt_ble in H2. contradiction.
Qed.

Lemma blt_dec : forall a b, {blt a b} + {~ blt a b}.
Proof. intros a b. unfold blt. destruct (bytes_cmp a b); [right|left|right]; congruence. Qed.

Lemma bytes_cmp_nil_l : forall b, bytes_cmp [] b = match b with [] => Eq | _ => Lt end.
Proof. now intros [|y b]. Qed.

Lemma ble_nil_l : forall b, ble [] b.
Proof. intros [|y b]; unfold ble; cbn; discriminate. Qed.

Lemma blt_nil_r : forall a, ~ blt a [].
Proof. intros [|x a]; unfold blt; cbn; discriminate. Qed.

Lemma bytes_cmp_cons_same : forall x a b, bytes_cmp (x :: a) (x :: b) = bytes_cmp a b.
Proof. intros. cbn [bytes_cmp]. now rewrite N.compare_refl. Qed.

Lemma bytes_cmp_cons_lt : forall x y a b, x < y -> bytes_cmp (x :: a) (y :: b) = Lt.
Proof. intros x y a b H. cbn [bytes_cmp]. apply N.compare_lt_iff in H. now rewrite H. Qed.

Lemma bytes_cmp_cons_gt : forall x y a b, y < x -> bytes_cmp (x :: a) (y :: b) = Gt.
Proof. intros x y a b H. cbn [bytes_cmp]. apply N.compare_gt_iff in H. now rewrite H. Qed.

Lemma bytes_cmp_app_prefix : forall p a b, bytes_cmp (p ++ a) (p ++ b) = bytes_cmp a b.
Proof. induction p as [|x p IH]; intros a b; cbn [app]; [reflexivity|]. rewrite bytes_cmp_cons_same. apply IH. Qed.

Definition proper_prefix (k t : bytes) : Prop := exists s, s <> [] /\ t = k ++ s.

Lemma proper_prefix_blt : forall k t, proper_prefix k t -> blt k t.
Proof.
  intros k t (s & Hs & ->). unfold blt.
  rewrite <- (app_nil_r k) at 1. rewrite bytes_cmp_app_prefix.
  destruct s; [congruence|reflexivity].
Qed.

Lemma same_length_no_prefix : forall k t, length k = length t -> ~ proper_prefix k t.
Proof. intros k t E (s & Hs & ->). rewrite app_length in E. destruct s; [congruence | cbn [length] in E; lia]. Qed.

Definition ble_b (a b : bytes) : bool := match bytes_cmp a b with Gt => false | _ => true end.

Lemma ble_b_true : forall a b, ble_b a b = true <-> ble a b.
Proof. intros a b. unfold ble_b, ble. destruct (bytes_cmp a b); split; congruence. Qed.

Lemma ble_b_false : forall a b, ble_b a b = false <-> blt b a.
Proof. intros a b. rewrite <- not_ble_blt, <- ble_b_true. destruct (ble_b a b); split; congruence. Qed.

Lemma ble_b_cons : forall x a b, ble_b (x :: a) (x :: b) = ble_b a b.
Proof. intros. unfold ble_b. now rewrite bytes_cmp_cons_same. Qed.
