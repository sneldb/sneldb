(** C09: the metrics of the model against their typed meaning where the code is right: every metric
    but COUNT UNIQUE on integer columns with nulls ([int_column_metrics]), COUNT UNIQUE on every column
    under every batching ([count_unique_texts]); and closed witnesses of the classes where it is not. *)
From Coq Require Import ZArith List Lia.
From Snel Require Import Base.Bytes Gen.Params Model.Order Model.Bucket Model.Agg.
From Snel Require Import Proofs.AggProofs.
Import ListNotations.
Open Scope Z_scope.

(** a value of an Int64 column; the range is what a stored Int64 has, and no proof below reads it *)
Definition int_or_null (v : value) : Prop :=
  match v with VInt z => in_i64 z | VNull => True | _ => False end.

Definition ints_of (vs : list value) : list Z :=
  flat_map (fun v => match v with VInt z => [z] | _ => [] end) vs.

Definition zmin_list (l : list Z) : option Z :=
  match l with [] => None | x :: r => Some (fold_left Z.min r x) end.
Definition zmax_list (l : list Z) : option Z :=
  match l with [] => None | x :: r => Some (fold_left Z.max r x) end.

Definition int_cell (v : value) : cell := match v with VInt z => CInt z | _ => CNull end.

Lemma int_column_typed : forall vs, Forall int_or_null vs -> col_typed vs = true.
Proof.
  intros vs F. unfold col_typed. apply forallb_forall. intros v Hv. rewrite Forall_forall in F.
  specialize (F v Hv). destruct v; cbn in F; try contradiction; reflexivity.
Qed.

Lemma int_column_cells : forall vs, Forall int_or_null vs -> to_cells vs = map int_cell vs.
Proof. intros vs F. unfold to_cells. now rewrite int_column_typed. Qed.

Lemma int_column_batching : forall a b, Forall int_or_null (a ++ b) ->
  to_cells (a ++ b) = to_cells a ++ to_cells b.
Proof.
  intros a b F. pose proof F as F'. apply Forall_app in F'. destruct F' as [Fa Fb].
  rewrite !int_column_cells by assumption. apply map_app.
Qed.

Lemma cell_ints_int_column : forall vs, cell_ints (map int_cell vs) = ints_of vs.
Proof.
  induction vs as [|v vs IH]; [reflexivity|]. cbn [map]. rewrite cell_ints_cons, IH.
  destruct v; reflexivity.
Qed.

Lemma run_count_all : forall l : list cell, run MCountAll l = ACount (wrap_i64 (Z.of_nat (length l))).
Proof.
  induction l as [|c l IH]; [reflexivity|]. rewrite run_cons, IH, run_one. cbn [agg_init upd merge_state length].
  rewrite wrap_i64_add_l, wrap_i64_add_r. do 2 f_equal. lia.
Qed.

Lemma run_count_field : forall vs,
  run MCountField (map int_cell vs) = ACount (wrap_i64 (Z.of_nat (length (ints_of vs)))).
Proof.
  induction vs as [|v vs IH]; [reflexivity|]. cbn [map]. rewrite run_cons, IH, run_one.
  destruct v; cbn [int_cell agg_init upd merge_state ints_of flat_map app length]; fold (ints_of vs).
  (* an integer brings [ACount (wrap_i64 (0 + 1))], anything else [ACount 0] *)
  all: rewrite ?wrap_i64_add_l, wrap_i64_add_r; do 2 f_equal; lia.
Qed.

Lemma run_avg : forall vs,
  run MAvg (map int_cell vs) = AAvg (wrap_i64 (zsum (ints_of vs))) (wrap_i64 (Z.of_nat (length (ints_of vs)))).
Proof.
  induction vs as [|v vs IH]; [reflexivity|]. cbn [map]. rewrite run_cons, IH, run_one.
  destruct v; cbn [int_cell agg_init upd cell_i64 merge_state ints_of flat_map app length zsum fold_right];
    fold (ints_of vs); fold (zsum (ints_of vs)).
  (* an integer [z] brings [AAvg (wrap_i64 (0 + z)) (wrap_i64 (0 + 1))], anything else [AAvg 0 0] *)
  all: rewrite ?wrap_i64_add_l, !wrap_i64_add_r; f_equal; f_equal; lia.
Qed.

Lemma fold_opt_merge : forall (f g : Z -> Z -> Z), (forall a b, f a b = g a b) -> forall l x,
  fold_left (fun a z => opt_merge f a (Some z)) l (Some x) = Some (fold_left g l x).
Proof.
  intros f g H. induction l as [|z l IH]; intros x; [reflexivity|].
  cbn [fold_left opt_merge]. rewrite H. apply IH.
Qed.

Lemma fold_int_column : forall {S} k (mk : S -> agg) (step : S -> Z -> S),
  (forall s z, upd k (mk s) (CInt z) = mk (step s z)) -> (forall s, upd k (mk s) CNull = mk s) ->
  forall vs s, fold_left (upd k) (map int_cell vs) (mk s) = mk (fold_left step (ints_of vs) s).
Proof.
  intros S k mk step Hi Hn. induction vs as [|v vs IH]; intros s; [reflexivity|].
  cbn [map fold_left]. destruct v; cbn [int_cell ints_of flat_map app]; fold (ints_of vs);
    rewrite ?Hn, ?Hi; apply IH.
Qed.

Lemma zmin_list_fold : forall l, fold_left (fun a z => opt_merge min_z a (Some z)) l None = zmin_list l.
Proof. intros [|x l]; [reflexivity|]. cbn [fold_left opt_merge zmin_list]. apply (fold_opt_merge _ _ min_z_min). Qed.
Lemma zmax_list_fold : forall l, fold_left (fun a z => opt_merge max_z a (Some z)) l None = zmax_list l.
Proof. intros [|x l]; [reflexivity|]. cbn [fold_left opt_merge zmax_list]. apply (fold_opt_merge _ _ max_z_max). Qed.

Theorem int_column_metrics : forall vs, Forall int_or_null vs ->
  let cs := to_cells vs in
  let xs := ints_of vs in
  run MCountAll cs = ACount (wrap_i64 (Z.of_nat (length vs)))
  /\ run MCountField cs = ACount (wrap_i64 (Z.of_nat (length xs)))
  /\ run MTotal cs = ASum (wrap_i64 (zsum xs))
  /\ run MAvg cs = AAvg (wrap_i64 (zsum xs)) (wrap_i64 (Z.of_nat (length xs)))
  /\ run MMin cs = AMin (zmin_list xs) None
  /\ run MMax cs = AMax (zmax_list xs) None.
Proof.
  intros vs F cs xs. subst cs xs. rewrite int_column_cells by exact F.
  split; [now rewrite run_count_all, map_length|]. split; [apply run_count_field|].
  split; [now rewrite total_is_wrapped_sum, cell_ints_int_column|]. split; [apply run_avg|].
  unfold run. cbn [agg_init]. split.
  - rewrite (fold_int_column MMin (fun a => AMin a None) (fun a z => opt_merge min_z a (Some z))) by reflexivity.
    now rewrite zmin_list_fold.
  - rewrite (fold_int_column MMax (fun a => AMax a None) (fun a z => opt_merge max_z a (Some z))) by reflexivity.
    now rewrite zmax_list_fold.
Qed.

Example int_column_metrics_nonvacuous :
  Forall int_or_null [VInt 5; VNull; VInt (-2)]
  /\ finalize (run MAvg (to_cells [VInt 5; VNull; VInt (-2)])) = FAvg 3 2
  /\ finalize (run MMin (to_cells [VInt 5; VNull; VInt (-2)])) = FInt (-2).
Proof. split; [repeat constructor; unfold in_i64, two63; lia|]. vm_compute. auto. Qed.

(** what a cell contributes to the set: a typed integer counts as its decimal text
    ([count_unique_flag]; sneldb 6631182) *)
Definition cell_text (c : cell) : bytes :=
  match c with CStr x => x | CInt z => dec_of_Z z | CNull => [] end.

(* no statement below reads it *)
Definition unique_set (a : agg) : list bytes := match a with AUnique s => s | _ => [] end.

Lemma count_unique_flag : agg_count_unique_typed_empty = false.
Proof. reflexivity. Qed.

Lemma fold_unique : forall l s0, sset s0 ->
  exists s, fold_left (upd MCountUnique) l (AUnique s0) = AUnique s /\ sset s
            /\ forall x, In x s <-> In x s0 \/ In x (map cell_text l).
Proof.
  induction l as [|c l IH]; intros s0 S0; cbn [fold_left].
  - exists s0. repeat split; auto. cbn. tauto.
  - cbn [upd]. rewrite count_unique_flag.
    destruct (IH (set_insert (cell_text c) s0) (set_insert_sset _ _ S0)) as (s & E & S & M).
    exists s. split; [exact E|]. split; [exact S|]. intros x. rewrite M, set_insert_in. cbn [map In].
    intuition.
Qed.

Lemma cell_text_to_cells : forall vs, map cell_text (to_cells vs) = map cell_string vs.
Proof.
  intros vs. unfold to_cells. destruct (col_typed vs) eqn:T; rewrite map_map.
  - apply map_ext_in. intros v Hv. unfold col_typed in T. rewrite forallb_forall in T.
    specialize (T v Hv). destruct v; try discriminate; reflexivity.
  - apply map_ext. reflexivity.
Qed.

Theorem count_unique_texts : forall (batches : list (list value)),
  exists s, run MCountUnique (concat (map to_cells batches)) = AUnique s /\ sset s
            /\ (forall x, In x s <-> In x (map cell_string (concat batches)))
            /\ finalize (run MCountUnique (concat (map to_cells batches))) = FInt (Z.of_nat (length s)).
Proof.
  intros batches. unfold run. cbn [agg_init].
  destruct (fold_unique (concat (map to_cells batches)) [] ltac:(constructor)) as (s & E & S & M).
  exists s. rewrite E. repeat split; auto.
  - intros H. apply M in H. destruct H as [[]|H].
    rewrite concat_map, map_map in H. rewrite concat_map.
    erewrite map_ext in H; [exact H|]. apply cell_text_to_cells.
  - intros H. apply M. right. rewrite concat_map, map_map. rewrite concat_map in H.
    erewrite map_ext; [exact H|]. apply cell_text_to_cells.
Qed.

Example count_unique_texts_example :
  finalize (run MCountUnique (concat (map to_cells [[VInt 5; VInt 7]; [VInt 5; VStr [120%N]]; [VNull; VInt 7]]))) = FInt 4.
Proof. vm_compute. reflexivity. Qed.

(** Closed witnesses of the known classes (names as in known/C09.json).  The five classes named below are recorded
    by these values alone.  MinEmptyPartial has a predicate and a theorem outside it (Proofs/AggProofs.v).  The
    remaining classes have no witness here: they are what model definitions do ([keep_group]:
    EmptyGroupDropped; [group_string]: GroupKeyNumericNormalised; [wire_bucket]: BucketOfInvalidTime and
    WeekBucketBeforeEpoch; [calendar_bucket_of_opt]: BucketPanicAtChronoMin; [flow_alts]:
    UngroupedMixedBatchPaths, closed), or lie at engine level and in no file
    (AggregateCountsMoreThanSelected). *)
(* the witnesses below write [VFloat] directly *)
Definition f_of (r : bytes) (bits : N) : value := VFloat bits r.
Definition v15 : value := VFloat 4609434218613702656%N [49; 46; 53]%N.          (* 1.5 *)
Definition v95 : value := VFloat 4621537642106257408%N [57; 46; 53]%N.          (* 9.5 *)
Definition v105 : value := VFloat 4622100592059678720%N [49; 48; 46; 53]%N.     (* 10.5 *)

(* "9", "10", "1a": the strings of [OrderProofs.cmp_cycle_strings] *)
Definition w9 : value := VStr [57%N].
Definition w10 : value := VStr [49%N; 48%N].
Definition w1a : value := VStr [49%N; 97%N].

Example known_class_witnesses :
  (* COUNT UNIQUE over 5,7,5 in one all-integer batch counts the two values (sneldb 6631182; the class
     CountUniqueTypedBatch of known/C09.json is closed) *)
  finalize (run MCountUnique (to_cells [VInt 5; VInt 7; VInt 5])) = FInt 2
  (* ... and next to a string the same values are counted by the same texts *)
  /\ finalize (run MCountUnique (to_cells [VInt 5; VInt 7; VInt 5; VStr [120%N]])) = FInt 3
  (* CountFieldNullInStringBatch: COUNT f over 'a', null *)
  /\ finalize (run MCountField (to_cells [VStr [97%N]; VNull])) = FInt 2
  (* NonIntegerMetricField: TOTAL / MIN / MAX over 1.5, 9.5, 10.5 *)
  /\ finalize (run MTotal (to_cells [v15; v95; v105])) = FInt 0
  /\ finalize (wire (run MMax (to_cells [v15; v95; v105]))) = FStr [57; 46; 53]%N
  (* MinMaxNumericLookingStrings: MIN / MAX over "9", "10", "1a" *)
  /\ finalize (wire (run MMin (to_cells [w9; w10; w1a]))) = FInt 9
  /\ finalize (wire (run MMax (to_cells [w9; w10; w1a]))) = FInt 10
  (* MinNullAsEmptyString: MIN over "abc", null *)
  /\ finalize (wire (run MMin (to_cells [VStr abc; VNull]))) = FStr [].
Proof.
  repeat apply conj; vm_compute; reflexivity.
Qed.
