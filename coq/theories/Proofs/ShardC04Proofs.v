(** Proofs about Model/Shard.v and Model/Compaction.v for C04: REPLAY returns a
    context's events in the order they were appended.

    The typed REPLAY of type [u] for context [c] is, in the model, some
    interleaving of [replay_mem s u c] and [replay_seg s u c] followed by the
    response writer's de-duplication; histories are crash-free.  Each tier is in
    append order, their fan-in is not; "segments, passives, memtable" in sequence is. *)
From Coq Require Import NArith List Bool Lia Permutation Sorted.
From Snel Require Import Model.Shard Model.Compaction Proofs.ShardC03Proofs.
Import ListNotations.
Open Scope N_scope.

Inductive Subseq {A} : list A -> list A -> Prop :=
| sub_nil : Subseq [] []
| sub_skip x l1 l2 : Subseq l1 l2 -> Subseq l1 (x :: l2)
| sub_take x l1 l2 : Subseq l1 l2 -> Subseq (x :: l1) (x :: l2).

Lemma Subseq_nil_l {A} (l : list A) : Subseq [] l.
Proof. induction l; constructor; assumption. Qed.

Lemma Subseq_refl {A} (l : list A) : Subseq l l.
Proof. induction l; constructor; assumption. Qed.

Lemma Subseq_app {A} (a a' b b' : list A) : Subseq a a' -> Subseq b b' -> Subseq (a ++ b) (a' ++ b').
Proof. intros Ha Hb. induction Ha; cbn [app]; [exact Hb | constructor; assumption | constructor; assumption]. Qed.

Lemma Subseq_app_l {A} (a b x : list A) : Subseq a b -> Subseq a (x ++ b).
Proof. intros H. apply (Subseq_app [] x a b); [apply Subseq_nil_l | exact H]. Qed.

Lemma Subseq_app_r {A} (a b x : list A) : Subseq a b -> Subseq a (b ++ x).
Proof.
  intros H. rewrite <- (app_nil_r a). apply Subseq_app; [exact H | apply Subseq_nil_l].
Qed.

Lemma Subseq_trans {A} (a b c : list A) : Subseq a b -> Subseq b c -> Subseq a c.
Proof.
  intros Hab Hbc. revert a Hab. induction Hbc; intros a Hab.
  - exact Hab.
  - constructor. apply IHHbc, Hab.
  - inversion Hab; subst.
    + constructor. apply IHHbc. assumption.
    + apply sub_take. apply IHHbc. assumption.
Qed.

Lemma Subseq_in {A} (a b : list A) x : Subseq a b -> In x a -> In x b.
Proof.
  intros H. induction H; cbn [In]; [tauto | intros Hx; right; auto | intros [->|Hx]; [left; reflexivity | right; auto]].
Qed.

Lemma Subseq_nodup {A} (a b : list A) : Subseq a b -> NoDup b -> NoDup a.
Proof.
  intros H. induction H; intros Hn; [constructor | |]; apply NoDup_cons_iff in Hn as [Hx Hn]; auto.
  constructor; [|auto]. intros Hin. apply Hx. eapply Subseq_in; eassumption.
Qed.

Lemma Subseq_map {A B} (f : A -> B) a b : Subseq a b -> Subseq (map f a) (map f b).
Proof. intros H. induction H; cbn [map]; constructor; assumption. Qed.

Lemma Subseq_filter {A} (p : A -> bool) l : Subseq (filter p l) l.
Proof. induction l as [|x r IH]; cbn [filter]; [constructor|]. destruct (p x); constructor; exact IH. Qed.

Lemma Subseq_filter_mono {A} (p : A -> bool) a b : Subseq a b -> Subseq (filter p a) (filter p b).
Proof.
  intros H. induction H; cbn [filter]; [constructor | |]; destruct (p x); try constructor; assumption.
Qed.

Lemma Subseq_concat_in {A} (ls : list (list A)) l : In l ls -> Subseq l (concat ls).
Proof.
  induction ls as [|x r IH]; cbn [concat]; [intros []|].
  intros [->|H]; [apply Subseq_app_r, Subseq_refl | apply Subseq_app_l, IH, H].
Qed.

Lemma Subseq_concat_map {A B} (f g : A -> list B) l :
  (forall x, In x l -> Subseq (f x) (g x)) -> Subseq (concat (map f l)) (concat (map g l)).
Proof.
  induction l as [|x r IH]; cbn [map concat]; intros H; [constructor|].
  apply Subseq_app; [apply H; left; reflexivity | apply IH; intros y Hy; apply H; right; exact Hy].
Qed.

Lemma Subseq_concat_filter {A B} (f : A -> list B) p l :
  Subseq (concat (map f (filter p l))) (concat (map f l)).
Proof.
  induction l as [|x r IH]; cbn [filter map concat]; [constructor|].
  destruct (p x); cbn [map concat]; [apply Subseq_app; [apply Subseq_refl | exact IH] | apply Subseq_app_l, IH].
Qed.

Lemma Subseq_length {A} (a b : list A) : Subseq a b -> (length a <= length b)%nat.
Proof. intros H. induction H; cbn [length]; lia. Qed.

Lemma concat_map_ext_in {A B} (f g : A -> list B) l :
  (forall x, In x l -> f x = g x) -> concat (map f l) = concat (map g l).
Proof. intros H. f_equal. apply map_ext_in, H. Qed.

Lemma concat_map_nil {A B} (l : list A) : concat (map (fun _ => @nil B) l) = [].
Proof. induction l; cbn [map concat app]; auto. Qed.

(** the events of type [u] and context [c]: what a typed REPLAY keeps of a flow *)
Definition F (u c : N) (l : list event) : list event := of_ctx c (of_uid u l).

Lemma F_app u c a b : F u c (a ++ b) = F u c a ++ F u c b.
Proof. unfold F, of_ctx, of_uid. rewrite !filter_app. reflexivity. Qed.

Lemma F_nil u c : F u c [] = [].
Proof. reflexivity. Qed.

Lemma F_in u c l e : In e (F u c l) <-> In e l /\ euid e = u /\ ectx e = c.
Proof.
  unfold F, of_ctx, of_uid. rewrite !filter_In, !N.eqb_eq. tauto.
Qed.

Lemma F_concat_map {A} u c (f : A -> list event) l :
  F u c (concat (map f l)) = concat (map (fun x => F u c (f x)) l).
Proof. unfold F, of_ctx, of_uid. rewrite !filter_concat, !map_map. reflexivity. Qed.

Lemma F_subseq u c a b : Subseq a b -> Subseq (F u c a) (F u c b).
Proof. intros H. unfold F, of_ctx, of_uid. apply Subseq_filter_mono, Subseq_filter_mono, H. Qed.

Lemma F_of_uid_none u c l : of_uid u l = [] -> F u c l = [].
Proof. intros H. unfold F. rewrite H. reflexivity. Qed.

Lemma of_uid_other u u0 l : u <> u0 -> of_uid u (of_uid u0 l) = [].
Proof.
  intros Hne. apply of_uid_none. intros x Hx E. apply of_uid_in in Hx as [_ Hx]. congruence.
Qed.

(** * [flush_order] is a stable sort by context *)

Definition le_ctx (a b : event) : Prop := ectx a <= ectx b.

Definition one_ctx (p : event -> bool) : Prop := forall x y, p x = true -> p y = true -> ectx x = ectx y.

Lemma ins_ctx_in x e l : In x (insert_by_ctx e l) <-> x = e \/ In x l.
Proof.
  apply insert_in; [reflexivity|]. intros y r. cbn [insert_by_ctx]. destruct (ectx y <=? ectx e); [right; right | left]; reflexivity.
Qed.

Lemma ins_ctx_sorted e l : StronglySorted le_ctx l -> StronglySorted le_ctx (insert_by_ctx e l).
Proof.
  induction l as [|x r IH]; cbn [insert_by_ctx]; intros Hs.
  - constructor; constructor.
  - apply StronglySorted_inv in Hs as [Hr Hx]. destruct (N.leb_spec (ectx x) (ectx e)) as [Hle|Hgt].
    + constructor; [apply IH, Hr|]. apply Forall_forall. intros y Hy. apply ins_ctx_in in Hy as [->|Hy].
      * exact Hle.
      * rewrite Forall_forall in Hx. apply Hx, Hy.
    + constructor; [constructor; assumption|]. constructor; [unfold le_ctx; lia|].
      apply Forall_forall. intros y Hy. rewrite Forall_forall in Hx. specialize (Hx y Hy). unfold le_ctx in *. lia.
Qed.

(** [e] goes behind the events of its own context: what stands after it is of a later one *)
Lemma ins_ctx_filter p e l : one_ctx p ->
  StronglySorted le_ctx l -> filter p (insert_by_ctx e l) = filter p l ++ filter p [e].
Proof.
  intros Hp. induction l as [|x r IH]; cbn [insert_by_ctx]; intros Hs; [reflexivity|].
  apply StronglySorted_inv in Hs as [Hr Hx]. destruct (N.leb_spec (ectx x) (ectx e)) as [Hle|Hgt].
  - cbn [filter]. rewrite (IH Hr). cbn [filter]. destruct (p x); reflexivity.
  - change (e :: x :: r) with ([e] ++ x :: r). rewrite filter_app. destruct (p e) eqn:He.
    + rewrite (filter_none _ (x :: r)); [apply app_nil_r|].
      intros y Hy. destruct (p y) eqn:Hpy; [|reflexivity]. specialize (Hp e y He Hpy).
      destruct Hy as [<-|Hy]; [lia|]. rewrite Forall_forall in Hx. specialize (Hx y Hy). unfold le_ctx in Hx. lia.
    + rewrite (filter_none _ [e]); [rewrite app_nil_r; reflexivity|]. intros y [<-|[]]. exact He.
Qed.

Theorem flush_order_stable p l : one_ctx p -> filter p (flush_order l) = filter p l.
Proof.
  intros Hp. unfold flush_order.
  assert (G : forall evs acc, StronglySorted le_ctx acc ->
            filter p (fold_left (fun acc e => insert_by_ctx e acc) evs acc) = filter p acc ++ filter p evs).
  { induction evs as [|a r IH]; intros acc Hs; cbn [fold_left]; [cbn [filter]; rewrite app_nil_r; reflexivity|].
    rewrite IH by (apply ins_ctx_sorted, Hs). rewrite ins_ctx_filter by assumption.
    rewrite <- app_assoc. f_equal. cbn [filter app]. destruct (p a); reflexivity. }
  apply (G l []). constructor.
Qed.

Lemma flush_order_of_ctx c l : of_ctx c (flush_order l) = of_ctx c l.
Proof. apply flush_order_stable. intros x y Hx Hy. apply N.eqb_eq in Hx, Hy. congruence. Qed.

Lemma F_flush_order u c l : F u c (flush_order l) = F u c l.
Proof.
  unfold F, of_ctx, of_uid. rewrite !filter_filter. apply flush_order_stable.
  intros x y Hx Hy. apply andb_true_iff in Hx as [_ Hx], Hy as [_ Hy]. apply N.eqb_eq in Hx, Hy. congruence.
Qed.

Lemma F_of_uid_same u c l : F u c (of_uid u l) = F u c l.
Proof.
  unfold F. rewrite (of_uid_all u (of_uid u l)); [reflexivity|]. intros e He. apply of_uid_in in He. tauto.
Qed.

Lemma F_typed_rows u c E W : NoDup W -> F u c (typed_rows E W) = if memb u W then F u c E else [].
Proof.
  intros Hn. unfold typed_rows. rewrite F_concat_map, <- flat_map_concat_map.
  assert (Hne : forall v, v <> u -> F u c (of_uid v (flush_order E)) = []) by (intros v Hv; apply F_of_uid_none, of_uid_other; auto).
  destruct (memb u W) eqn:Hm.
  - apply memb_true in Hm. rewrite (flat_map_single _ W u Hn Hm); [rewrite F_of_uid_same; apply F_flush_order|].
    intros v _ Hv. apply Hne, Hv.
  - apply memb_false in Hm. apply flat_map_nil_on. intros v Hv. apply Hne. intros ->. auto.
Qed.

Lemma F_grows u c g : seg_ok g -> F u c (grows g) = if memb u (wlist (a_ws g)) then F u c (gevs g) else [].
Proof. intros K. apply F_typed_rows, (k_w _ K). Qed.

Lemma F_jpas u c j : Subseq (F u c (jpas j)) (F u c (jevs j)).
Proof. unfold jpas. destruct (has_passive _); [apply Subseq_refl | apply Subseq_nil_l]. Qed.

(** [dir_has_uid] as a function of the directory list; its lemmas are stated over the same function
    under the name [ShardC01Proofs.has_uid] *)
Definition dhu (ds : list segdir) (seg u : N) : bool :=
  existsb (fun d => (sid d =? seg) && existsb (fun e => euid e =? u) (srows d)) ds.

Lemma dhu_dir s seg u : dir_has_uid s seg u = dhu (dirs s) seg u.
Proof. reflexivity. Qed.

(** the bare [rows_of] is [ShardC03Proofs.rows_of] in this file (ShardC03Proofs is imported after
    Model.Compaction); everything else here is about [Compaction.rows_of] and says so *)
Lemma crows_of_eq ds i : Compaction.rows_of ds i = rows_of ds i.
Proof. symmetry. apply rows_of_model. Qed.

(** the append order the property demands *)
Definition ctx_events (ls : list label) (u c : N) : list event := of_ctx c (of_uid u (applied ls)).

(** the response writer's de-duplication (first occurrence of an event id kept) *)
Definition dedup_keys (l : list event) : list event := dedup_ev l [].

(** the fan-in merge of two flows: any interleaving *)
Inductive Interleave {A} : list A -> list A -> list A -> Prop :=
| il_nil : Interleave [] [] []
| il_left x a b r : Interleave a b r -> Interleave (x :: a) b (x :: r)
| il_right x a b r : Interleave a b r -> Interleave a (x :: b) (x :: r).

Lemma Interleave_perm {A} (a b r : list A) : Interleave a b r -> Permutation r (a ++ b).
Proof.
  intros H. induction H; cbn [app]; [constructor | constructor; assumption|].
  rewrite IHInterleave. apply Permutation_middle.
Qed.

Lemma Interleave_seq_l {A} (a b : list A) : Interleave a b (a ++ b).
Proof.
  induction a as [|x a IH]; cbn [app]; [|constructor; exact IH].
  induction b; constructor; assumption.
Qed.

Lemma Interleave_seq_r {A} (a b : list A) : Interleave a b (b ++ a).
Proof.
  induction b as [|x b IH]; cbn [app]; [|constructor; exact IH].
  induction a; constructor; assumption.
Qed.

(** the memory flow with the passive copies (rotation order) BEFORE the active memtable *)
Definition replay_mem_fifo (s : shard) (u c : N) : list event :=
  of_ctx c (of_uid u (concat (map snd (passives s)) ++ mem s)).

(** known class: the context has events of the type both in the active memtable and
    in a passive copy; the model's (and the engine's) memory flow lists the active
    memtable first *)
Definition ActiveBeforePassive (s : shard) (u c : N) : bool :=
  negb (is_empty (of_ctx c (of_uid u (mem s)))) &&
  negb (is_empty (of_ctx c (of_uid u (concat (map snd (passives s)))))).

Lemma replay_mem_F s u c : replay_mem s u c = F u c (mem s) ++ F u c (prows (passives s)).
Proof. unfold replay_mem, mem_rows. fold (prows (passives s)). apply F_app. Qed.

Lemma replay_mem_fifo_F s u c : replay_mem_fifo s u c = F u c (prows (passives s)) ++ F u c (mem s).
Proof. unfold replay_mem_fifo. fold (prows (passives s)). apply F_app. Qed.

Lemma replay_seg_F s u c : replay_seg s u c = F u c (seg_rows s).
Proof. reflexivity. Qed.

Lemma ctx_events_F ls u c : ctx_events ls u c = F u c (applied ls).
Proof. reflexivity. Qed.

Lemma replay_mem_fifo_eq s u c : ActiveBeforePassive s u c = false -> replay_mem s u c = replay_mem_fifo s u c.
Proof.
  rewrite replay_mem_F, replay_mem_fifo_F. unfold ActiveBeforePassive.
  fold (prows (passives s)). fold (F u c (mem s)). fold (F u c (prows (passives s))).
  intros H. apply andb_false_iff in H as [H|H]; apply negb_false_iff, is_empty_true in H; rewrite H;
    rewrite ?app_nil_r; reflexivity.
Qed.

Lemma nodup_keys_F u c A : NoDup (map ek A) -> NoDup (map ek (F u c A)).
Proof. intros H. unfold F, of_ctx, of_uid. apply nodup_map_filter, nodup_map_filter, H. Qed.

Theorem membership_rows : forall c0 ls u c,
  no_crash ls -> NoDup (map ek (applied ls)) ->
  let s := run (init c0) ls in
  forall e, In e (replay_mem s u c ++ replay_seg s u c) <-> In e (ctx_events ls u c).
Proof.
  intros c0 ls u c Hc _ s e. pose proof (run_rows c0 ls Hc) as Hrows. fold s in Hrows.
  rewrite replay_seg_F, ctx_events_F. unfold replay_mem. fold (F u c (mem_rows s)).
  rewrite <- F_app, !F_in, Hrows. tauto.
Qed.

Theorem membership_interleavings : forall c0 ls u c r,
  no_crash ls -> NoDup (map ek (applied ls)) ->
  let s := run (init c0) ls in
  Interleave (replay_mem s u c) (replay_seg s u c) r ->
  Permutation (dedup_keys r) (ctx_events ls u c).
Proof.
  intros c0 ls u c r Hc Hk s Hi. pose proof (membership_rows c0 ls u c Hc Hk) as Hm. cbv zeta in Hm. fold s in Hm.
  apply dedup_perm; [|apply (nodup_keys_F u c), Hk].
  intros e. rewrite <- Hm. split; apply Permutation_in; [|symmetry]; apply Interleave_perm, Hi.
Qed.

Section Order.
  Variables (a : abs) (s : shard) (u c : N).
  Hypothesis W : WFa a.
  Hypothesis E : shape a s.

  Lemma v_dirs_order : Subseq (F u c (all_rows (dirs s))) (F u c (a_events a)).
  Proof.
    rewrite (v_all_rows a s E). unfold a_events. rewrite F_app, !F_concat_map. apply Subseq_app_r, Subseq_concat_map.
    intros g Hg. rewrite (F_grows u c g (seg_ok_in a g W Hg)). destruct (memb _ _); [apply Subseq_refl | apply Subseq_nil_l].
  Qed.

  Lemma v_fifo_order : Subseq (F u c (prows (passives s) ++ mem s)) (F u c (a_events a)).
  Proof.
    rewrite (v_passives a s E), (v_mem a s E). unfold a_events. rewrite !F_app, !F_concat_map.
    apply Subseq_app; [|apply Subseq_refl]. apply Subseq_concat_map. intros g _. apply F_jpas.
  Qed.
End Order.

Theorem order_within_tier : forall c0 ls u c,
  no_crash ls -> NoDup (map ek (applied ls)) ->
  let s := run (init c0) ls in
  Subseq (replay_seg s u c) (ctx_events ls u c) /\
  (forall d, In d (dirs s) -> Subseq (of_ctx c (of_uid u (srows d))) (ctx_events ls u c)) /\
  Subseq (of_ctx c (of_uid u (mem s))) (ctx_events ls u c) /\
  (forall p, In p (passives s) -> Subseq (of_ctx c (of_uid u (snd p))) (ctx_events ls u c)) /\
  Subseq (replay_mem_fifo s u c) (ctx_events ls u c).
Proof.
  intros c0 ls u c Hc _ s. destruct (reach_run c0 ls Hc) as (a & W & E & EA). fold s in E.
  rewrite !ctx_events_F, EA.
  pose proof (v_dirs_order a s u c W E) as Hall. pose proof (v_fifo_order a s u c E) as Hfifo.
  split; [|split; [|split; [|split]]].
  - rewrite replay_seg_F, (v_seg_rows a s W E). exact Hall.
  - intros d Hd. eapply Subseq_trans; [|exact Hall]. apply F_subseq. unfold all_rows.
    apply Subseq_concat_in, in_map, Hd.
  - eapply Subseq_trans; [|exact Hfifo]. apply F_subseq, Subseq_app_l, Subseq_refl.
  - intros p Hp. eapply Subseq_trans; [|exact Hfifo]. apply F_subseq, Subseq_app_r. unfold prows.
    apply Subseq_concat_in, in_map, Hp.
  - exact Hfifo.
Qed.

Theorem mem_flow_order_outside_known : forall c0 ls u c,
  no_crash ls -> NoDup (map ek (applied ls)) ->
  let s := run (init c0) ls in
  ActiveBeforePassive s u c = false ->
  Subseq (replay_mem s u c) (ctx_events ls u c).
Proof.
  intros c0 ls u c Hc Hk s Hn. rewrite (replay_mem_fifo_eq s u c Hn).
  apply (order_within_tier c0 ls u c Hc Hk).
Qed.

(** greedy matching; refutes [Subseq] by evaluation *)
Fixpoint subseqb (a b : list event) : bool :=
  match a, b with
  | [], _ => true
  | _ :: _, [] => false
  | x :: a', y :: b' => if ev_eqb x y then subseqb a' b' else subseqb a b'
  end.

Lemma Subseq_cons_l {A} (x : A) a b : Subseq (x :: a) b -> Subseq a b.
Proof. intros H. eapply Subseq_trans; [|exact H]. constructor. apply Subseq_refl. Qed.

Lemma subseqb_complete a b : Subseq a b -> subseqb a b = true.
Proof.
  revert a. induction b as [|y b IH]; intros a H.
  - inversion H. reflexivity.
  - destruct a as [|x a]; [reflexivity|]. cbn [subseqb]. destruct (ev_eqb x y) eqn:E.
    + apply IH. inversion H; subst; [eapply Subseq_cons_l; eassumption | assumption].
    + apply IH. inversion H; subst; [assumption|].
      assert (T : ev_eqb y y = true) by (apply ev_eqb_eq; reflexivity). congruence.
Qed.

Lemma subseqb_false a b : subseqb a b = false -> ~ Subseq a b.
Proof. intros E H. apply subseqb_complete in H. congruence. Qed.

(** k1 is rotated by a manual FLUSH (job still queued), k2 arrives *)
Definition ls_abp : list label := [LStore (mkEv 1 1 0); LFlushCmd; LStore (mkEv 2 1 0)].

Lemma mem_flow_order_refuted :
  exists c0 ls u c,
    let s := run (init c0) ls in
    no_crash ls /\ NoDup (map ek (applied ls)) /\ ActiveBeforePassive s u c = true /\
    map ek (replay_mem s u c) = [2; 1] /\ map ek (ctx_events ls u c) = [1; 2] /\
    ~ Subseq (replay_mem s u c) (ctx_events ls u c).
Proof. exists 4, ls_abp, 0, 1. cbv zeta. repeat eval_split. apply subseqb_false. by_eval. Qed.

(** ** sequential composition: segments, then passives, then the memtable *)

Lemma dedup_filter l : forall seen (p : event -> bool),
  (forall e, In e l -> p e = false -> memb (ek e) seen = true) ->
  dedup_ev (filter p l) seen = dedup_ev l seen.
Proof.
  induction l as [|x r IH]; intros seen p H; cbn [filter dedup_ev]; [reflexivity|].
  destruct (p x) eqn:Hp.
  - cbn [dedup_ev]. destruct (memb (ek x) seen) eqn:Hm.
    + apply IH. intros e He. apply H. right. exact He.
    + f_equal. apply IH. intros e He Hpe. rewrite memb_cons, (H e (or_intror He) Hpe). apply orb_true_r.
  - rewrite (H x (or_introl eq_refl) Hp). apply IH. intros e He. apply H. right. exact He.
Qed.

Lemma dedup_absorb Y Y' : forall X seen,
  NoDup (map ek (X ++ Y)) -> (forall e, In e (X ++ Y) -> memb (ek e) seen = false) ->
  filter (fun e => negb (memb (ek e) (map ek X ++ seen))) Y' = Y ->
  dedup_ev (X ++ Y') seen = X ++ Y.
Proof.
  induction X as [|x X IH]; intros seen Hn Hs Hf; cbn [app] in *.
  - rewrite <- (dedup_filter Y' seen (fun e => negb (memb (ek e) seen))).
    + cbn [map app] in Hf. rewrite Hf. apply dedup_id; assumption.
    + intros e _ He. apply negb_false_iff in He. exact He.
  - cbn [dedup_ev]. rewrite (Hs x (or_introl eq_refl)). f_equal.
    cbn [map] in Hn. apply NoDup_cons_iff in Hn as [Hx Hn]. apply IH; [exact Hn | |].
    + intros e He. rewrite memb_cons, (Hs e (or_intror He)), orb_false_r. apply N.eqb_neq.
      intros E. apply Hx. rewrite <- E. apply in_map, He.
    + rewrite <- Hf. apply filter_ext. intros e. f_equal. cbn [map app].
      rewrite !memb_app, !memb_cons, memb_app.
      destruct (memb (ek e) (map ek X)), (ek e =? ek x), (memb (ek e) seen); reflexivity.
Qed.

(** only the head of [l2] may have both, so the two concatenations fuse element by element *)
Lemma concat_at_head {A B} (x y : A -> list B) l1 l2 :
  (forall g, In g l1 -> y g = []) -> (forall g, In g (tl l2) -> x g = []) ->
  concat (map x (l1 ++ l2)) ++ concat (map y (l1 ++ l2)) = concat (map (fun g => x g ++ y g) (l1 ++ l2)).
Proof.
  intros H1 H2.
  assert (Hnil : forall (f : A -> list B) l, (forall g, In g l -> f g = []) -> concat (map f l) = [])
    by (intros f l H; rewrite <- flat_map_concat_map; apply flat_map_nil_on, H).
  rewrite !map_app, !concat_app, (Hnil y l1 H1).
  rewrite (concat_map_ext_in (fun g => x g ++ y g) x l1) by (intros g Hg; rewrite (H1 g Hg); apply app_nil_r).
  destruct l2 as [|g post]; cbn [map concat tl app] in *; [rewrite !app_nil_r; reflexivity|].
  rewrite (Hnil x post H2), (concat_map_ext_in (fun g => x g ++ y g) y post) by (intros g0 Hg; rewrite (H2 g0 Hg); reflexivity).
  rewrite app_nil_r, <- !app_assoc. reflexivity.
Qed.

Section SegThenFifo.
  Variables (a : abs) (s : shard) (u c : N).
  Hypothesis W : WFa a.
  Hypothesis E : shape a s.

  Let held g := F u c (grows g).
  Let pending g := if memb u (wlist (a_ws g)) then [] else F u c (gevs g).

  Lemma held_pending g : In g (segs a) -> held g ++ pending g = F u c (gevs g).
  Proof.
    intros Hg. unfold held, pending. rewrite (F_grows u c g (seg_ok_in a g W Hg)). destruct (memb _ _); [apply app_nil_r | reflexivity].
  Qed.

  Lemma written_pending g : In g (segs a) -> written (gst g) = true -> pending g = [].
  Proof.
    intros Hg Hw. unfold pending. destruct (memb u (wlist (a_ws g))) eqn:Hm; [reflexivity|]. apply memb_false in Hm.
    destruct (k_c _ (seg_ok_in a g W Hg) Hw) as (_ & _ & HW).
    apply F_of_uid_none, of_uid_none. intros e He Hu. apply Hm, HW, uids_of_iff. eauto.
  Qed.

  (** the finished segments are written in full, no segment behind the head of the queue has a directory:
      per type and context the directories hold a prefix of the applied events *)
  Lemma events_held_pending : F u c (a_events a) = concat (map held (segs a)) ++ concat (map pending (segs a)) ++ F u c (a_mem a).
  Proof.
    unfold a_events. rewrite F_app, F_concat_map, app_assoc. f_equal. unfold segs. rewrite concat_at_head.
    - apply concat_map_ext_in. intros g Hg. symmetry. apply held_pending, Hg.
    - intros g Hg. pose proof (wf_done _ W) as Hf. rewrite Forall_forall in Hf.
      destruct (Hf g Hg) as [Hst|[_ He]]; [apply written_pending; [apply in_app_iff; auto | rewrite Hst; reflexivity]|].
      unfold pending. rewrite He. destruct (memb _ _); reflexivity.
    - intros g Hg. pose proof (wf_tl _ W) as Hq. rewrite Forall_forall in Hq. destruct (Hq g Hg) as [_ Hw].
      unfold held, grows. rewrite Hw. reflexivity.
  Qed.

  Lemma seg_then_fifo : NoDup (map ek (a_events a)) ->
    dedup_keys (F u c (all_rows (dirs s)) ++ F u c (prows (passives s)) ++ F u c (mem s)) = F u c (a_events a).
  Proof.
    intros Hk. pose proof (nodup_keys_F u c _ Hk) as Hn. rewrite events_held_pending in *.
    rewrite (v_all_rows a s E), (v_passives a s E), (v_mem a s E), !F_concat_map.
    fold held. set (HS := concat (map held (segs a))) in *.
    unfold dedup_keys. apply dedup_absorb; [exact Hn | reflexivity|].
    rewrite app_nil_r. rewrite map_app in Hn. apply nodup_app in Hn as (_ & _ & Hdisj).
    assert (Hout : forall e, In e (concat (map pending (segs a)) ++ F u c (a_mem a)) -> negb (memb (ek e) (map ek HS)) = true).
    { intros e He. apply negb_true_iff, memb_false. intros Hin. apply (Hdisj (ek e) Hin). apply in_map, He. }
    rewrite filter_app. f_equal.
    2:{ apply filter_all. intros e He. apply Hout, in_app_iff. right. exact He. }
    rewrite filter_concat, map_map. apply concat_map_ext_in. intros g Hg. unfold jpas.
    destruct (has_passive (jstage (a_job g))) eqn:Hp; unfold pending; destruct (memb u (wlist (a_ws g))) eqn:Hd.
    - (* the type is written, the passive copy not yet released: its events of the type are in the directory *)
      apply filter_none. intros e He. apply negb_false_iff, memb_true, in_map, in_concat_map. exists g. split; [exact Hg|].
      unfold held. rewrite (F_grows u c g (seg_ok_in a g W Hg)), Hd. exact He.
    - apply filter_all. intros e He. apply Hout, in_app_iff. left. apply in_concat_map. exists g. split; [exact Hg|].
      unfold pending. rewrite Hd. exact He.
    - reflexivity.
    - (* released, hence written *)
      assert (Hnone : pending g = []) by (apply written_pending; [exact Hg|]; unfold gst; destruct (jstage (a_job g)); try discriminate; reflexivity).
      unfold pending in Hnone. rewrite Hd in Hnone. rewrite Hnone. reflexivity.
  Qed.
End SegThenFifo.

Theorem seg_then_mem_append_order : forall c0 ls u c,
  no_crash ls -> NoDup (map ek (applied ls)) ->
  let s := run (init c0) ls in
  dedup_keys (replay_seg s u c ++ replay_mem_fifo s u c) = ctx_events ls u c.
Proof.
  intros c0 ls u c Hc Hk s. destruct (reach_run c0 ls Hc) as (a & W & E & EA). fold s in E.
  rewrite replay_mem_fifo_F, replay_seg_F, (v_seg_rows a s W E), ctx_events_F, EA.
  apply seg_then_fifo; [exact W | exact E | rewrite <- EA; exact Hk].
Qed.

Theorem seg_then_mem_outside_known : forall c0 ls u c,
  no_crash ls -> NoDup (map ek (applied ls)) ->
  let s := run (init c0) ls in
  ActiveBeforePassive s u c = false ->
  dedup_keys (replay_seg s u c ++ replay_mem s u c) = ctx_events ls u c.
Proof.
  intros c0 ls u c Hc Hk s Hn. rewrite (replay_mem_fifo_eq s u c Hn).
  apply seg_then_mem_append_order; assumption.
Qed.

Lemma seg_then_mem_refuted :
  exists c0 ls u c,
    let s := run (init c0) ls in
    no_crash ls /\ NoDup (map ek (applied ls)) /\ ActiveBeforePassive s u c = true /\
    map ek (dedup_keys (replay_seg s u c ++ replay_mem s u c)) = [2; 1] /\
    map ek (ctx_events ls u c) = [1; 2].
Proof. exists 4, ls_abp, 0, 1. by_eval. Qed.

(** known class of the fan-in finding: the context has rows of the type in both flows *)
Definition MemtableAndSegmentFlowsInterleave (s : shard) (u c : N) : bool :=
  negb (is_empty (replay_mem s u c)) && negb (is_empty (replay_seg s u c)).

Definition ls_fanin : list label :=
  [LStore (mkEv 1 1 0); LStore (mkEv 2 2 0); LStore (mkEv 3 1 0); LFlushCmd] ++ flush_all [0]
  ++ [LStore (mkEv 4 1 0)].

Lemma fanin_order_refuted :
  exists c0 ls u c r,
    let s := run (init c0) ls in
    no_crash ls /\ NoDup (map ek (applied ls)) /\ jobs s = [] /\ ActiveBeforePassive s u c = false /\
    Interleave (replay_mem s u c) (replay_seg s u c) r /\
    map ek (dedup_keys r) = [4; 1; 3] /\ map ek (ctx_events ls u c) = [1; 3; 4] /\
    ~ Subseq (dedup_keys r) (ctx_events ls u c).
Proof.
  exists 4, ls_fanin, 0, 1, [mkEv 4 1 0; mkEv 1 1 0; mkEv 3 1 0]. cbv zeta. do 4 eval_split.
  split; [vm_compute; repeat constructor|]. do 2 eval_split. apply subseqb_false. by_eval.
Qed.

Lemma Interleave_nil_l {A} (b r : list A) : Interleave [] b r -> r = b.
Proof.
  revert r. induction b as [|x b IH]; intros r H; inversion H; subst; [reflexivity|].
  f_equal. apply IH. assumption.
Qed.

Lemma Interleave_nil_r {A} (a r : list A) : Interleave a [] r -> r = a.
Proof.
  revert r. induction a as [|x a IH]; intros r H; inversion H; subst; [reflexivity|].
  f_equal. apply IH. assumption.
Qed.

Theorem replay_order_outside_known : forall c0 ls u c r,
  no_crash ls -> NoDup (map ek (applied ls)) ->
  let s := run (init c0) ls in
  MemtableAndSegmentFlowsInterleave s u c = false -> ActiveBeforePassive s u c = false ->
  Interleave (replay_mem s u c) (replay_seg s u c) r ->
  dedup_keys r = ctx_events ls u c.
Proof.
  intros c0 ls u c r Hc Hk s Hf Ha Hi.
  pose proof (seg_then_mem_outside_known c0 ls u c Hc Hk Ha) as H. fold s in H.
  unfold MemtableAndSegmentFlowsInterleave in Hf.
  apply andb_false_iff in Hf as [Hf|Hf]; apply negb_false_iff, is_empty_true in Hf; rewrite Hf in *.
  - apply Interleave_nil_l in Hi. subst r. rewrite app_nil_r in H. exact H.
  - apply Interleave_nil_r in Hi. subst r. exact H.
Qed.

(** both classes are avoided by a context that lives in the active memtable only, or
    on disk only; e.g. [ls_fanin] for context 2 (one event, flushed).  Context 1, the witness of
    [fanin_order_refuted], is in the class. *)
Example replay_order_example :
  let s := run (init 4) ls_fanin in
  MemtableAndSegmentFlowsInterleave s 0 2 = false /\ ActiveBeforePassive s 0 2 = false /\
  map ek (replay_seg s 0 2) = [2] /\ replay_mem s 0 2 = [] /\
  MemtableAndSegmentFlowsInterleave s 0 1 = true.
Proof. by_eval. Qed.

(** * Compaction

    [merge_rows] sorts the concatenation of the inputs (in the listed order) with the stable
    [flush_order]: per context the output is the concatenation of the inputs' rows of that
    context.  (The engine's tie order between inputs is outside the model: Model/Compaction.v.) *)

Lemma merge_rows_ctx ds inputs u c :
  of_ctx c (merge_rows ds inputs u) = concat (map (fun i => F u c (Compaction.rows_of ds i)) inputs).
Proof.
  unfold merge_rows. rewrite flush_order_of_ctx. unfold of_ctx. rewrite filter_concat, map_map. reflexivity.
Qed.

Lemma merge_rows_uid ds inputs u e : In e (merge_rows ds inputs u) -> euid e = u.
Proof.
  unfold merge_rows. rewrite flush_order_in. intros H. apply in_concat in H as (l & Hl & He).
  apply in_map_iff in Hl as (i & <- & _). apply filter_In in He as [_ He]. apply N.eqb_eq, He.
Qed.

Lemma ss_concat_map {A B} (R : B -> B -> Prop) (g : A -> list B) l :
  (forall i, In i l -> StronglySorted R (g i)) ->
  ForallOrdPairs (fun i j => forall x y, In x (g i) -> In y (g j) -> R x y) l ->
  StronglySorted R (concat (map g l)).
Proof.
  induction l as [|i r IH]; cbn [map concat]; intros Hs Hp; [constructor|].
  inversion Hp as [|i' r' Hi Hr]; subst. apply sorted_app.
  - apply Hs. left. reflexivity.
  - apply IH; [intros j Hj; apply Hs; right; exact Hj | exact Hr].
  - intros x y Hx Hy. apply in_concat in Hy as (l0 & Hl0 & Hy). apply in_map_iff in Hl0 as (j & <- & Hj).
    rewrite Forall_forall in Hi. exact (Hi j Hj x y Hx Hy).
Qed.

(** [R] stands for "appended before". *)
Theorem stable_merge_keeps_order : forall (R : event -> event -> Prop) ds inputs u c,
  (forall i, In i inputs -> StronglySorted R (of_ctx c (of_uid u (Compaction.rows_of ds i)))) ->
  ForallOrdPairs (fun i j => forall x y,
     In x (of_ctx c (of_uid u (Compaction.rows_of ds i))) ->
     In y (of_ctx c (of_uid u (Compaction.rows_of ds j))) -> R x y) inputs ->
  StronglySorted R (of_ctx c (merge_rows ds inputs u)).
Proof.
  intros R ds inputs u c Hs Hp. rewrite merge_rows_ctx. apply ss_concat_map; assumption.
Qed.

Lemma sel_subseq ds : forall inputs,
  StronglySorted N.lt (map sid ds) -> StronglySorted N.lt inputs ->
  Subseq (concat (map (Compaction.rows_of ds) inputs)) (all_rows ds).
Proof.
  induction ds as [|d ds IH]; intros inputs Hs Hi.
  - rewrite (concat_map_ext_in _ (fun _ => [])), concat_map_nil by reflexivity. constructor.
  - cbn [map] in Hs. apply StronglySorted_inv in Hs as [Hs Hd]. rewrite Forall_forall in Hd.
    assert (Hgt : forall i, i <= sid d -> Compaction.rows_of ds i = []).
    { intros i Hle. apply rows_of_no_dir. intros d0 Hd0 E. specialize (Hd (sid d0) (in_map sid _ _ Hd0)). lia. }
    assert (Hne : forall i, sid d <> i -> Compaction.rows_of (d :: ds) i = Compaction.rows_of ds i).
    { intros i E. rewrite rows_of_cons. destruct (N.eqb_spec (sid d) i); [contradiction | reflexivity]. }
    change (all_rows (d :: ds)) with (srows d ++ all_rows ds).
    induction inputs as [|i rest IHi]; [apply Subseq_nil_l|].
    pose proof Hi as Hi0. apply StronglySorted_inv in Hi as [Hi Hir]. rewrite Forall_forall in Hir.
    destruct (N.lt_trichotomy i (sid d)) as [Hlt|[Heq|Hlt]].
    + cbn [map concat]. rewrite Hne by lia. rewrite Hgt by lia. cbn [app]. apply IHi, Hi.
    + cbn [map concat]. rewrite rows_of_cons, Heq, N.eqb_refl, Hgt by lia. rewrite app_nil_r.
      apply Subseq_app; [apply Subseq_refl|].
      rewrite (concat_map_ext_in (Compaction.rows_of (d :: ds)) (Compaction.rows_of ds)); [apply IH; assumption|].
      intros j Hj. apply Hne. specialize (Hir j Hj). lia.
    + apply Subseq_app_l.
      rewrite (concat_map_ext_in (Compaction.rows_of (d :: ds)) (Compaction.rows_of ds)); [apply IH; assumption|].
      intros j [<-|Hj]; apply Hne; [lia | specialize (Hir j Hj); lia].
Qed.

(** merging directories listed in label order yields, per context, a subsequence of the append order *)
Theorem merge_in_order : forall c0 ls inputs u c,
  no_crash ls -> NoDup (map ek (applied ls)) -> StronglySorted N.lt inputs ->
  let s := run (init c0) ls in
  Subseq (of_ctx c (merge_rows (dirs s) inputs u)) (ctx_events ls u c).
Proof.
  intros c0 ls inputs u c Hc _ Hi s. destruct (reach_run c0 ls Hc) as (a & W & E & EA). fold s in E.
  rewrite merge_rows_ctx, <- F_concat_map, ctx_events_F, EA.
  eapply Subseq_trans; [|apply (v_dirs_order a s u c W E)]. apply F_subseq, sel_subseq; [apply (v_dirs_sorted a s W E) | exact Hi].
Qed.

Lemma of_uid_batch_rows_in ds b u :
  NoDup (b_uids b) -> In u (b_uids b) -> of_uid u (batch_rows ds b) = merge_rows ds (b_inputs b) u.
Proof.
  intros Hn Hu. unfold batch_rows, of_uid. rewrite filter_concat, map_map, <- flat_map_concat_map.
  rewrite (flat_map_single (fun v => filter (fun e => euid e =? u) (merge_rows ds (b_inputs b) v)) _ u Hn Hu).
  - apply of_uid_all. intros e He. eapply merge_rows_uid, He.
  - intros v _ Hv. apply of_uid_none. intros e He E. apply merge_rows_uid in He. congruence.
Qed.

Lemma cp_write_rows s b i :
  Compaction.rows_of (dirs (cp_write s b)) i =
  if b_out b =? i
  then filter (fun e => negb (memb (euid e) (b_uids b))) (Compaction.rows_of (dirs s) i) ++ batch_rows (dirs s) b
  else Compaction.rows_of (dirs s) i.
Proof.
  unfold cp_write. cbn [dirs]. rewrite rows_of_app, rows_of_single.
  destruct (N.eqb_spec (b_out b) i) as [<-|Hne].
  - rewrite rows_of_no_dir; [reflexivity|]. intros d Hd. apply filter_In in Hd as [_ Hd].
    apply N.eqb_neq, negb_true_iff, Hd.
  - rewrite app_nil_r. apply rows_of_filter. intros d _ E. apply negb_true_iff, N.eqb_neq. congruence.
Qed.

Lemma cp_write_out_rows s b u c :
  NoDup (b_uids b) -> In u (b_uids b) ->
  F u c (Compaction.rows_of (dirs (cp_write s b)) (b_out b)) = of_ctx c (merge_rows (dirs s) (b_inputs b) u).
Proof.
  intros Hn Hu. rewrite cp_write_rows, N.eqb_refl, F_app. rewrite (F_of_uid_none u c (filter _ _)).
  - cbn [app]. unfold F. rewrite of_uid_batch_rows_in by assumption. reflexivity.
  - apply of_uid_none. intros e He E. apply filter_In in He as [_ He].
    apply negb_true_iff, memb_false in He. apply He. rewrite E. exact Hu.
Qed.

(** [CIndex] and [CLive] leave the directories alone *)
Lemma batch_steps_dirs s b : dirs (crun s (batch_steps s b)) = dirs (cp_write s b).
Proof. reflexivity. Qed.

Theorem compaction_output_in_order : forall c0 ls b u c,
  no_crash ls -> NoDup (map ek (applied ls)) ->
  StronglySorted N.lt (b_inputs b) -> NoDup (b_uids b) -> In u (b_uids b) ->
  let s := run (init c0) ls in
  let s1 := crun s (batch_steps s b) in
  Subseq (of_ctx c (of_uid u (Compaction.rows_of (dirs s1) (b_out b)))) (ctx_events ls u c).
Proof.
  intros c0 ls b u c Hc Hk Hi Hn Hu s s1.
  unfold s1. rewrite batch_steps_dirs.
  change (of_ctx c (of_uid u (Compaction.rows_of (dirs (cp_write s b)) (b_out b))))
    with (F u c (Compaction.rows_of (dirs (cp_write s b)) (b_out b))).
  rewrite (cp_write_out_rows s b u c Hn Hu). apply merge_in_order; assumption.
Qed.

(** three level-0 segments hold k1, k2, k3 of one context; the output directory of the batch
    {0,1} -> 10000 is listed AFTER the newer level-0 directory 2, so the segment flow is 3,1,2 *)
Definition ls_cp : list label :=
  [LStore (mkEv 1 1 0)] ++ flush_all [0] ++ [LStore (mkEv 2 1 0)] ++ flush_all [0]
  ++ [LStore (mkEv 3 1 0)] ++ flush_all [0].
Definition b_cp : batch := mkBatch 10000 [0; 1] [0].

Lemma compaction_order_refuted :
  exists c0 k ls b u c,
    let s := run (init c0) ls in
    let s1 := crun s (batch_steps s b ++ [CReclaim (drained (index s) b)]) in
    no_crash ls /\ NoDup (map ek (applied ls)) /\ jobs s = [] /\
    batch_ok (index s) k b = true /\ b_inputs b = [0; 1] /\ In u (b_uids b) /\
    map sid (dirs s1) = [2; 10000] /\ live s1 = [2; 10000] /\
    replay_mem s1 u c = [] /\
    map ek (replay_seg s1 u c) = [3; 1; 2] /\ map ek (ctx_events ls u c) = [1; 2; 3] /\
    ~ Subseq (replay_seg s1 u c) (ctx_events ls u c).
Proof. exists 1, 2, ls_cp, b_cp, 0, 1. cbv zeta. repeat eval_split. apply subseqb_false. by_eval. Qed.

Definition ls_tiers : list label :=
  [LStore (mkEv 1 1 0); LStore (mkEv 2 1 0)] ++ flush_all [0]
  ++ [LStore (mkEv 3 1 0); LStore (mkEv 4 2 0)] ++ flush_all [0]
  ++ [LStore (mkEv 5 1 0); LFlushCmd; LFw FwBegin; LFw FwMkdir; LFw (FwWrite 0); LFw FwIndex; LFw FwPublish;
      LStore (mkEv 6 1 0); LFlushCmd; LStore (mkEv 7 1 0)].

Example tiers_example :
  let s := run (init 2) ls_tiers in
  no_crash ls_tiers /\ NoDup (map ek (applied ls_tiers)) /\
  map sid (dirs s) = [0; 1; 2] /\ map jstage (jobs s) = [StPublished; StQueued] /\
  map (fun p => (fst p, map ek (snd p))) (passives s) = [(0, []); (1, []); (2, [5]); (3, [6])] /\
  map ek (mem s) = [7] /\
  map ek (replay_seg s 0 1) = [1; 2; 3; 5] /\
  map ek (replay_mem s 0 1) = [7; 5; 6] /\ map ek (replay_mem_fifo s 0 1) = [5; 6; 7] /\
  ActiveBeforePassive s 0 1 = true /\
  map ek (dedup_keys (replay_seg s 0 1 ++ replay_mem_fifo s 0 1)) = [1; 2; 3; 5; 6; 7] /\
  map ek (ctx_events ls_tiers 0 1) = [1; 2; 3; 5; 6; 7].
Proof. by_eval. Qed.

Example seg_then_mem_example :
  let s := run (init 4) ls_fanin in
  no_crash ls_fanin /\ NoDup (map ek (applied ls_fanin)) /\ ActiveBeforePassive s 0 1 = false /\
  map ek (replay_seg s 0 1) = [1; 3] /\ map ek (replay_mem s 0 1) = [4] /\
  map ek (dedup_keys (replay_seg s 0 1 ++ replay_mem s 0 1)) = [1; 3; 4].
Proof. by_eval. Qed.

Example compaction_example :
  let s := run (init 1) ls_cp in
  let s1 := crun s (batch_steps s b_cp) in
  no_crash ls_cp /\ NoDup (map ek (applied ls_cp)) /\ batch_ok (index s) 2 b_cp = true /\
  StronglySorted N.lt (b_inputs b_cp) /\ NoDup (b_uids b_cp) /\ In 0 (b_uids b_cp) /\
  map ek (of_ctx 1 (of_uid 0 (Compaction.rows_of (dirs s1) (b_out b_cp)))) = [1; 2].
Proof.
  cbv zeta. do 3 eval_split. split; [repeat constructor | by_eval].
Qed.

(** * A batch the policy can produce lists its inputs in label order

    [segments.idx] lists the flushed segments in label order (crash-free runs), the
    planner sorts the labels of one type and level and cuts the sorted list into
    chunks: the inputs of a [batch_ok] batch are strictly increasing. *)

Lemma ss_subseq {A} (R : A -> A -> Prop) a b : Subseq a b -> StronglySorted R b -> StronglySorted R a.
Proof.
  intros H. induction H; intros Hs; [constructor | |]; apply StronglySorted_inv in Hs as [Hs Hx].
  - auto.
  - constructor; [auto|]. apply Forall_forall. intros y Hy. rewrite Forall_forall in Hx.
    apply Hx. eapply Subseq_in; eassumption.
Qed.

Lemma sort_n_sorted_id l : StronglySorted N.lt l -> sort_n l = l.
Proof.
  unfold sort_n. induction l as [|x r IH]; cbn [fold_right]; intros Hs; [reflexivity|].
  apply StronglySorted_inv in Hs as [Hs Hx]. rewrite (IH Hs).
  destruct r as [|y r]; [reflexivity|]. cbn [insert_sorted]. apply Forall_inv in Hx.
  destruct (N.leb_spec x y); [reflexivity | lia].
Qed.

Lemma list_eqb_eq a : forall b, list_eqb a b = true -> a = b.
Proof.
  induction a as [|x a IH]; intros [|y b]; cbn [list_eqb]; intros H; try discriminate; [reflexivity|].
  apply andb_true_iff in H as [H1 H2]. apply N.eqb_eq in H1. rewrite H1, (IH b H2). reflexivity.
Qed.

Lemma chunks_fuel_subseq fuel k : forall l c, In c (chunks_fuel fuel k l) -> Subseq c l.
Proof.
  induction fuel as [|f IH]; intros l c H; cbn [chunks_fuel] in H; [destruct H|].
  destruct l as [|x l]; [destruct H|]. rewrite <- (firstn_skipn k (x :: l)). destruct H as [<-|H].
  - apply Subseq_app_r, Subseq_refl.
  - apply Subseq_app_l, IH, H.
Qed.

Lemma planned_subseq ix k lvl u c : In c (planned_inputs ix k lvl u) -> Subseq c (labels_of_uid ix lvl u).
Proof.
  unfold planned_inputs. destruct (_ <? N.max _ _); [intros []|]. destruct (_ <? k).
  - intros [<-|[]]. apply Subseq_refl.
  - intros H. apply filter_In in H as [H _]. eapply chunks_fuel_subseq, H.
Qed.

Lemma labels_of_uid_sorted ix lvl u :
  StronglySorted N.lt (map fst ix) -> StronglySorted N.lt (labels_of_uid ix lvl u).
Proof.
  intros Hs. unfold labels_of_uid.
  assert (Hf : StronglySorted N.lt (map fst (filter (fun e => (level_of (fst e) =? lvl) && memb u (snd e)) ix)))
    by (eapply ss_subseq; [apply Subseq_map, Subseq_filter | exact Hs]).
  rewrite (sort_n_sorted_id _ Hf). exact Hf.
Qed.

(** [next_out ix (N.succ lvl) <= b_out b]: the allocator has not handed the output's id out *)
Lemma batch_ok_spec ix k b :
  batch_ok ix k b = true ->
  b_uids b <> [] /\ b_inputs b <> [] /\
  exists lvl, (forall i, In i (b_inputs b) -> level_of i = lvl) /\ level_of (b_out b) = N.succ lvl /\
              next_out ix (N.succ lvl) <= b_out b /\
              forall u, In u (b_uids b) -> Subseq (b_inputs b) (labels_of_uid ix lvl u).
Proof.
  unfold batch_ok. destruct (b_inputs b) as [|i0 r] eqn:Hin; [discriminate|]. rewrite <- Hin.
  intros H. apply andb_true_iff in H as [H Hnext]. apply N.leb_le in Hnext. apply andb_true_iff in H as [H Hlvl].
  apply andb_true_iff in H as [H Hpl]. apply andb_true_iff in H as [Hne Hsame].
  rewrite forallb_forall in Hpl, Hsame. apply N.eqb_eq in Hlvl.
  split; [intros E; rewrite E in Hne; discriminate|]. split; [rewrite Hin; discriminate|].
  exists (level_of i0). split; [intros i Hi; apply N.eqb_eq, Hsame, Hi|]. split; [exact Hlvl|]. split; [exact Hnext|].
  intros u Hu. apply Hpl, existsb_exists in Hu as (c & Hc & E). apply list_eqb_eq in E. rewrite E.
  exact (planned_subseq _ _ _ _ _ Hc).
Qed.

Lemma batch_ok_sorted ix k b :
  StronglySorted N.lt (map fst ix) -> batch_ok ix k b = true -> StronglySorted N.lt (b_inputs b).
Proof.
  intros Hs H. destruct (batch_ok_spec _ _ _ H) as (Hu & _ & lvl & _ & _ & _ & Hsub).
  destruct (b_uids b) as [|u us]; [contradiction|].
  eapply ss_subseq; [apply (Hsub u); left; reflexivity | apply labels_of_uid_sorted, Hs].
Qed.

Theorem compaction_output_in_order_planned : forall c0 k ls b u c,
  no_crash ls -> NoDup (map ek (applied ls)) ->
  let s := run (init c0) ls in
  let s1 := crun s (batch_steps s b) in
  batch_ok (index s) k b = true -> NoDup (b_uids b) -> In u (b_uids b) ->
  Subseq (of_ctx c (of_uid u (Compaction.rows_of (dirs s1) (b_out b)))) (ctx_events ls u c).
Proof.
  intros c0 k ls b u c Hc Hk s s1 Hb Hn Hu.
  apply compaction_output_in_order; try assumption.
  eapply batch_ok_sorted; [|exact Hb]. destruct (reach_run c0 ls Hc) as (a & W & E & _). apply (v_index_sorted a _ W E).
Qed.
