(** C16, ISO-8601 side: every RFC 3339 spelling of an instant parses to the
    floor of the instant.  About Model/Time.v ([parse_rfc3339], [parse_date_only],
    [parse_str_to_epoch_seconds]) and the printers of Model/TimePrint.v. *)
From Coq Require Import ZArith List Lia.
From Coq Require Import ZifyBool ZifyN.
From Snel Require Import Base.Bytes Base.Civil Model.Time Model.TimePrint
                         Proofs.CivilProofs Proofs.TimeProofs Proofs.DecimalFacts Proofs.ListFacts.
Import ListNotations.
Open Scope Z_scope.

(** A byte literal in a pattern is a match on the binary digits of the scrutinee.  The literals
    matched in Model/Time.v ('+', '-', '.') have six: taken apart that far, a byte that the
    context says is none of them reaches the default branch. *)
Ltac other_byte c :=
  destruct c as [|c]; [reflexivity|]; do 6 (try (destruct c as [c|c|]; try reflexivity)); congruence.

Section Iso.
(* [lia] takes quotients apart anyway once ZifyN is loaded; this stands in for ZifyBool's hook,
   the case analysis on the booleans of the context, which is slow here and not needed *)
Local Ltac Zify.zify_post_hook ::= Z.div_mod_to_equations.

Lemma digit_not_ws : forall c, is_digit c = true -> is_ascii_ws c = false.
Proof. intros c H. apply is_digit_range in H. unfold is_ascii_ws. lia. Qed.

Lemma pad2_explicit : forall n,
  pad_digits 2 n = [(48 + (n / 10) mod 10)%N; (48 + n mod 10)%N].
Proof. reflexivity. Qed.

Lemma pad4_explicit : forall n,
  pad_digits 4 n = [(48 + (n / 10 / 10 / 10) mod 10)%N; (48 + (n / 10 / 10) mod 10)%N;
                    (48 + (n / 10) mod 10)%N; (48 + n mod 10)%N].
Proof. reflexivity. Qed.

Lemma scan_aux_digits : forall ds rest mn mx acc,
  all_digit ds -> length ds = mx -> (mn <= mx)%nat ->
  scan_number_aux (ds ++ rest) mn mx (Z.of_N acc) = Some (Z.of_N (fold_left dec_step ds acc), rest).
Proof.
  intros ds rest mn mx acc Hd. revert mn mx acc.
  induction Hd as [|c ds Hc Hd IH]; intros mn mx acc <- Hmn; cbn [app length scan_number_aux fold_left].
  - replace mn with O by (cbn [length] in Hmn; lia). destruct rest; reflexivity.
  - rewrite Hc.
    replace (Z.of_N acc * 10 + Z.of_N (digit_val c))%Z with (Z.of_N (dec_step acc c)) by (unfold dec_step; lia).
    apply IH; [reflexivity | cbn [length] in Hmn; lia].
Qed.

Lemma scan_number_pad : forall w n rest k,
  (k <= w)%nat -> scan_number (pad_digits w n ++ rest) k w = Some (Z.of_N (n mod 10 ^ N.of_nat w), rest).
Proof.
  intros w n rest k Hk. rewrite <- pad_digits_val.
  exact (scan_aux_digits _ rest k w 0 (pad_digits_digit w n) (pad_digits_length w n) Hk).
Qed.

Lemma scan_number_pad2 : forall z rest k,
  (k <= 2)%nat -> (0 <= z < 100)%Z ->
  scan_number (pad2 z ++ rest) k 2 = Some (z, rest).
Proof.
  intros z rest k Hk Hz. unfold pad2. rewrite scan_number_pad by exact Hk.
  change (10 ^ N.of_nat 2)%N with 100%N. rewrite N.mod_small, Z2N.id by lia. reflexivity.
Qed.

Lemma scan_number_pad4 : forall z rest k,
  (k <= 4)%nat -> (0 <= z < 10000)%Z ->
  scan_number (pad4 z ++ rest) k 4 = Some (z, rest).
Proof.
  intros z rest k Hk Hz. unfold pad4. rewrite scan_number_pad by exact Hk.
  change (10 ^ N.of_nat 4)%N with 10000%N. rewrite N.mod_small, Z2N.id by lia. reflexivity.
Qed.

Lemma scan_char_same : forall c r, scan_char (c :: r) c = Some r.
Proof. intros c r. unfold scan_char. rewrite N.eqb_refl. reflexivity. Qed.

Lemma drop_while_app : forall p ds o rest,
  forallb p ds = true -> p o = false ->
  drop_while p (ds ++ o :: rest) = o :: rest.
Proof.
  induction ds as [|c ds IH]; intros o rest Hd Ho; cbn [app drop_while].
  - rewrite Ho. reflexivity.
  - cbn [forallb] in Hd. apply andb_prop in Hd. destruct Hd as [Hc Hd].
    rewrite Hc. apply IH; assumption.
Qed.

(** what the fraction reader leaves and what it was given differ by digits *)
Lemma scan_frac_aux_rest : forall n s acc cnt,
  let '(_, cnt', r) := scan_frac_aux s n acc cnt in
  (cnt <= cnt')%nat /\ drop_while is_digit r = drop_while is_digit s.
Proof.
  induction n as [|n IH]; intros [|c s] acc cnt; cbn [scan_frac_aux]; try (split; [lia | reflexivity]).
  destruct (is_digit c) eqn:Hc; [|split; [lia | reflexivity]].
  specialize (IH s (acc * 10 + Z.of_N (digit_val c)) (S cnt)).
  destruct (scan_frac_aux s n _ (S cnt)) as [[v k] r]. cbn [drop_while]. rewrite Hc. split; [lia | apply IH].
Qed.

Lemma scan_nanosecond_digit : forall c s,
  is_digit c = true -> exists v, scan_nanosecond (c :: s) = Some (v, drop_while is_digit s).
Proof.
  intros c s Hc. unfold scan_nanosecond. cbn [scan_frac_aux]. rewrite Hc.
  pose proof (scan_frac_aux_rest 8 s (0 * 10 + Z.of_N (digit_val c)) 1) as H.
  destruct (scan_frac_aux s 8 _ 1) as [[v k] r]. destruct H as [Hk ->].
  destruct k; [lia|]. eexists. reflexivity.
Qed.

(** the "[.frac]" step of [parse_rfc3339], as a function.  The model has it inline: the body here is the model's
    text, and [parse_print_rfc3339_gen] rewrites with its unfolding. *)
Definition frac_skip (s : bytes) : option bytes :=
  match s with
  | 46%N :: r => match scan_nanosecond r with
                 | None => None
                 | Some (_, r') => Some r'
                 end
  | _ => Some s
  end.

Lemma frac_skip_print : forall frac o rest,
  forallb is_digit frac = true -> is_digit o = false -> o <> 46%N ->
  frac_skip (print_frac frac ++ o :: rest) = Some (o :: rest).
Proof.
  intros frac o rest Hd Ho H46. destruct frac as [|c ds]; cbn [print_frac app]; unfold frac_skip.
  - other_byte o.
  - cbn [forallb] in Hd. apply andb_prop in Hd. destruct Hd as [Hc Hd].
    destruct (scan_nanosecond_digit c (ds ++ o :: rest) Hc) as [v ->].
    rewrite (drop_while_app _ ds o rest Hd Ho). reflexivity.
Qed.

Lemma scan_offset_numeric : forall sgn neg h1 h2 m1 m2,
  (sgn = [43%N] /\ neg = false) \/ (sgn = [45%N] /\ neg = true)
   \/ (sgn = [226%N; 136%N; 146%N] /\ neg = true) ->
  is_digit h1 = true -> is_digit h2 = true -> is_digit m1 = true -> is_digit m2 = true ->
  (m1 <= 53)%N ->
  scan_offset (sgn ++ h1 :: h2 :: 58%N :: [m1; m2])
  = Some ((if neg then Z.opp else (fun x => x))
            (Z.of_N (digit_val h1 * 10 + digit_val h2) * 3600
             + Z.of_N (digit_val m1 * 10 + digit_val m2) * 60), []).
Proof.
  intros sgn neg h1 h2 m1 m2 Hs H1 H2 M1 M2 M53.
  assert (L : (m1 <=? 53)%N = true) by lia.
  destruct Hs as [[-> ->]|[[-> ->]|[-> ->]]]; cbn [app]; unfold scan_offset;
    rewrite H1, H2; cbn [andb]; rewrite scan_char_same; rewrite M1, M2, L; cbn [andb]; reflexivity.
Qed.

Lemma digits2 : forall n, (n < 100)%N -> ((n / 10) mod 10 * 10 + n mod 10)%N = n.
Proof. intros n Hn. lia. Qed.

Definition tz_ok (off : Z) (tz : tz_spelling) : Prop :=
  match tz with TzZulu _ => off = 0 | TzNumeric _ => True end.

Lemma print_offset_scan : forall off tz,
  Z.abs off <= 1439 -> tz_ok off tz ->
  scan_offset (print_offset_gen off tz) = Some (off * 60, []).
Proof.
  intros off tz Hoff Htz. destruct tz as [lower|um].
  - cbn [tz_ok] in Htz. subst off. destruct lower; reflexivity.
  - unfold print_offset_gen. unfold pad2. rewrite !pad2_explicit. cbn [app].
    rewrite (scan_offset_numeric (print_sign off um) (off <? 0)).
    + rewrite !digit_val_48, !digits2, !Z2N.id by lia. f_equal. f_equal.
      destruct (Z.ltb_spec off 0); lia.
    + unfold print_sign. destruct (off <? 0); destruct um; tauto.
    + apply is_digit_48; lia.
    + apply is_digit_48; lia.
    + apply is_digit_48; lia.
    + apply is_digit_48; lia.
    + lia.
Qed.

Lemma print_offset_head : forall off tz,
  exists o rest, print_offset_gen off tz = o :: rest /\ is_digit o = false /\ o <> 46%N.
Proof.
  intros off tz. destruct tz as [lower|um].
  - destruct lower; cbn [print_offset_gen]; eexists; eexists;
      (split; [reflexivity | split; [reflexivity | discriminate]]).
  - unfold print_offset_gen, print_sign.
    destruct (off <? 0); destruct um; cbn [app]; eexists; eexists;
      (split; [reflexivity | split; [reflexivity | discriminate]]).
Qed.

Definition sep_ok (sep : N) : bool := (sep =? 84)%N || (sep =? 116)%N || (sep =? 32)%N.

Theorem parse_print_rfc3339_gen : forall y m d h mi s frac sep off tz,
  0 <= y <= 9999 -> valid_ymd y m d = true ->
  0 <= h < 24 -> 0 <= mi < 60 -> 0 <= s <= 60 ->
  forallb is_digit frac = true -> sep_ok sep = true ->
  Z.abs off <= 1439 -> tz_ok off tz ->
  parse_rfc3339 (print_rfc3339_gen y m d h mi s frac sep off tz)
  = Some (days_from_civil y m d * 86400 + h * 3600 + mi * 60 + Z.min s 59 - off * 60).
Proof.
  intros y m d h mi s frac sep off tz Hy Hv Hh Hmi Hs Hfr Hsep Hoff Htz.
  destruct (proj1 (valid_ymd_bounds _ _ _) Hv) as [Hm Hd].
  pose proof (days_in_month_le_31 y m) as H31.
  destruct (print_offset_head off tz) as [o [orest [Eo [Hod Ho46]]]].
  pose proof (frac_skip_print frac o orest Hfr Hod Ho46) as HF. unfold frac_skip in HF.
  unfold print_rfc3339_gen, parse_rfc3339.
  rewrite scan_number_pad4 by lia.
  rewrite scan_char_same.
  rewrite scan_number_pad2 by lia.
  rewrite scan_char_same.
  rewrite scan_number_pad2 by lia.
  unfold sep_ok in Hsep. rewrite Hsep.
  rewrite scan_number_pad2 by lia.
  rewrite scan_char_same.
  rewrite scan_number_pad2 by lia.
  rewrite scan_char_same.
  rewrite scan_number_pad2 by lia.
  rewrite Eo, HF.
  rewrite <- Eo, (print_offset_scan off tz Hoff Htz).
  rewrite Hv.
  assert (C1 : (h <? 24) = true) by lia. assert (C2 : (mi <? 60) = true) by lia.
  assert (C3 : (s <=? 60) = true) by lia.
  assert (C4 : (Z.abs (off * 60) <=? max_rfc3339_offset) = true) by (unfold max_rfc3339_offset; lia).
  rewrite C1, C2, C3, C4. reflexivity.
Qed.

Corollary parse_print_rfc3339 : forall y m d h mi s frac sep off (zulu : bool),
  0 <= y <= 9999 -> valid_ymd y m d = true ->
  0 <= h < 24 -> 0 <= mi < 60 -> 0 <= s <= 60 ->
  forallb is_digit frac = true -> sep_ok sep = true ->
  Z.abs off <= 1439 -> (zulu = true -> off = 0) ->
  parse_rfc3339 (print_rfc3339 y m d h mi s frac sep off zulu)
  = Some (days_from_civil y m d * 86400 + h * 3600 + mi * 60 + Z.min s 59 - off * 60).
Proof.
  intros y m d h mi s frac sep off zulu Hy Hv Hh Hmi Hs Hfr Hsep Hoff Hz.
  unfold print_rfc3339. apply parse_print_rfc3339_gen; try assumption.
  destruct zulu; cbn [tz_ok]; auto.
Qed.

Definition iso_t_lo : Z := -62167219200 + 86400.   (* 0000-01-02T00:00:00Z *)
Definition iso_t_hi : Z := 253402300799 - 86400.   (* 9999-12-30T23:59:59Z *)

(** [:60] is never printed from here *)
Lemma sod_fields : forall sod, 0 <= sod < 86400 ->
  0 <= sod / 3600 < 24 /\ 0 <= sod mod 3600 / 60 < 60 /\ 0 <= sod mod 60 <= 60 /\
  sod / 3600 * 3600 + sod mod 3600 / 60 * 60 + Z.min (sod mod 60) 59 = sod.
Proof. intros sod H. lia. Qed.

Theorem iso_spellings_agree : forall t frac sep off tz,
  iso_t_lo <= t <= iso_t_hi ->
  forallb is_digit frac = true -> sep_ok sep = true ->
  Z.abs off <= 1439 -> tz_ok off tz ->
  parse_rfc3339 (print_instant_gen t frac sep off tz) = Some t.
Proof.
  intros t frac sep off tz Ht Hfr Hsep Hoff Htz.
  unfold iso_t_lo, iso_t_hi in Ht.
  unfold print_instant_gen.
  set (l := t + off * 60).
  assert (Hday : -719528 <= l / 86400 <= 2932896) by (unfold l; lia).
  pose proof (four_digit_year (l / 86400) Hday) as Hy.
  pose proof (civil_roundtrip_valid (l / 86400)) as Hr.
  destruct (civil_from_days (l / 86400)) as [[y m] d]. destruct Hr as [He Hv].
  destruct (sod_fields (l mod 86400) (Z.mod_pos_bound l 86400 eq_refl)) as (Hh & Hmi & Hs & Es).
  rewrite parse_print_rfc3339_gen by assumption. f_equal. rewrite He.
  pose proof (Z.div_mod l 86400 ltac:(discriminate)) as El. unfold l in *. clear - Es El. lia.
Qed.

Definition solid_ends (p : bytes) : Prop :=
  exists c r b l, p = c :: r /\ p = b ++ [l] /\ is_ascii_ws c = false /\ is_ascii_ws l = false.

Lemma trim_padded : forall ws1 ws2 p,
  forallb is_ascii_ws ws1 = true -> forallb is_ascii_ws ws2 = true -> solid_ends p ->
  trim (ws1 ++ p ++ ws2) = p.
Proof.
  intros ws1 ws2 p H1 H2 (c & r & b & l & Ec & El & Hc & Hl).
  unfold trim, trim_start, trim_end.
  rewrite Ec at 1. cbn [app]. rewrite (drop_while_app _ ws1 c (r ++ ws2) H1 Hc).
  change (c :: r ++ ws2) with ((c :: r) ++ ws2). rewrite <- Ec.
  rewrite rev_app_distr. rewrite El at 1. rewrite rev_app_distr. cbn [rev app].
  rewrite (drop_while_app _ (rev ws2) l (rev b) (forallb_rev _ _ H2) Hl).
  change (l :: rev b) with ([l] ++ rev b). rewrite <- (rev_involutive [l]) at 1.
  rewrite <- rev_app_distr, rev_involutive. symmetry. exact El.
Qed.

Lemma trim_id : forall p, solid_ends p -> trim p = p.
Proof.
  intros p S. pose proof (trim_padded [] [] p eq_refl eq_refl S) as T.
  cbn [app] in T. now rewrite app_nil_r in T.
Qed.

Definition ends_with (l : N) (s : bytes) : Prop := exists b, s = b ++ [l].

Lemma ends_with_app : forall l a s, ends_with l s -> ends_with l (a ++ s).
Proof. intros l a s [b E]. exists (a ++ b). rewrite E, app_assoc. reflexivity. Qed.

Lemma ends_with_cons : forall l x s, ends_with l s -> ends_with l (x :: s).
Proof. intros l x s [b E]. exists (x :: b). rewrite E. reflexivity. Qed.

Lemma print_offset_last : forall off tz,
  exists l, ends_with l (print_offset_gen off tz) /\ is_ascii_ws l = false.
Proof.
  intros off tz. destruct tz as [lower|um].
  - destruct lower; cbn [print_offset_gen]; eexists; (split; [exists []; reflexivity | reflexivity]).
  - unfold print_offset_gen. unfold pad2 at 2. rewrite pad2_explicit.
    eexists. split.
    + apply ends_with_app, ends_with_app, ends_with_cons, ends_with_cons. exists []. reflexivity.
    + apply digit_not_ws, is_digit_48. lia.
Qed.

Lemma print_rfc3339_shape : forall y m d h mi s frac sep off tz,
  solid_ends (print_rfc3339_gen y m d h mi s frac sep off tz).
Proof.
  intros y m d h mi s frac sep off tz.
  destruct (print_offset_last off tz) as [l [Hend Hl]].
  assert (E : ends_with l (print_rfc3339_gen y m d h mi s frac sep off tz)).
  { unfold print_rfc3339_gen.
    repeat (apply ends_with_app || apply ends_with_cons). exact Hend. }
  destruct E as [b Eb].
  unfold print_rfc3339_gen in *. unfold pad4 in *. rewrite pad4_explicit in *. cbn [app] in *.
  eexists; eexists; exists b, l. split; [reflexivity|]. split; [exact Eb|]. split; [|exact Hl].
  apply digit_not_ws, is_digit_48. lia.
Qed.

Theorem iso_string_agree : forall t frac sep off tz ws1 ws2,
  iso_t_lo <= t <= iso_t_hi ->
  forallb is_digit frac = true -> sep_ok sep = true ->
  Z.abs off <= 1439 -> tz_ok off tz ->
  forallb is_ascii_ws ws1 = true -> forallb is_ascii_ws ws2 = true ->
  parse_str_to_epoch_seconds (ws1 ++ print_instant_gen t frac sep off tz ++ ws2) = Some t.
Proof.
  intros t frac sep off tz ws1 ws2 Ht Hfr Hsep Hoff Htz H1 H2.
  pose proof (iso_spellings_agree t frac sep off tz Ht Hfr Hsep Hoff Htz) as HP.
  unfold parse_str_to_epoch_seconds.
  assert (ET : trim (ws1 ++ print_instant_gen t frac sep off tz ++ ws2)
               = print_instant_gen t frac sep off tz).
  { unfold print_instant_gen.
    destruct (civil_from_days ((t + off * 60) / 86400)) as [[y m] d].
    apply trim_padded; [exact H1 | exact H2 | apply print_rfc3339_shape]. }
  rewrite ET, HP. reflexivity.
Qed.

Lemma trim_start_nonws : forall c r, is_ascii_ws c = false -> trim_start (c :: r) = c :: r.
Proof. intros c r H. unfold trim_start. cbn [drop_while]. rewrite H. reflexivity. Qed.

Lemma scan_year_digit : forall c r,
  is_digit c = true -> scan_year (c :: r) = scan_number (c :: r) 1 4.
Proof.
  intros c r H. unfold scan_year.
  rewrite (trim_start_nonws c r (digit_not_ws c H)).
  apply is_digit_range in H. assert (c <> 45 /\ c <> 43)%N as [H45 H43] by lia.
  other_byte c.
Qed.

Lemma trim_start_pad2 : forall z rest, trim_start (pad2 z ++ rest) = pad2 z ++ rest.
Proof.
  intros z rest. unfold pad2. rewrite pad2_explicit. cbn [app].
  apply trim_start_nonws, digit_not_ws, is_digit_48. lia.
Qed.

Theorem parse_print_date : forall y m d,
  0 <= y <= 9999 -> valid_ymd y m d = true ->
  parse_date_only (print_date y m d) = Some (days_from_civil y m d * 86400).
Proof.
  intros y m d Hy Hv.
  destruct (proj1 (valid_ymd_bounds _ _ _) Hv) as [Hm Hd].
  pose proof (days_in_month_le_31 y m) as H31.
  unfold print_date, parse_date_only.
  assert (Ey : forall rest, scan_year (pad4 y ++ rest) = Some (y, rest)).
  { intros rest. unfold pad4. rewrite pad4_explicit. cbn [app].
    rewrite scan_year_digit by (apply is_digit_48; lia).
    apply (scan_number_pad4 y rest 1); lia. }
  rewrite Ey.
  rewrite scan_char_same.
  rewrite trim_start_pad2, scan_number_pad2 by lia.
  rewrite scan_char_same.
  rewrite <- (app_nil_r (pad2 d)).
  rewrite trim_start_pad2, scan_number_pad2 by lia.
  rewrite Hv.
  assert (C1 : (naive_year_min <=? y) = true) by (unfold naive_year_min; lia).
  assert (C2 : (y <=? naive_year_max) = true) by (unfold naive_year_max; lia).
  rewrite C1, C2. reflexivity.
Qed.

Lemma parse_rfc3339_date_none : forall y m d,
  0 <= y <= 9999 -> 0 <= m < 100 -> 0 <= d < 100 ->
  parse_rfc3339 (print_date y m d) = None.
Proof.
  intros y m d Hy Hm Hd. unfold print_date, parse_rfc3339.
  rewrite scan_number_pad4 by lia.
  rewrite scan_char_same.
  rewrite scan_number_pad2 by lia.
  rewrite scan_char_same.
  rewrite <- (app_nil_r (pad2 d)).
  rewrite scan_number_pad2 by lia. reflexivity.
Qed.

Theorem date_string_agree : forall y m d,
  0 <= y <= 9999 -> valid_ymd y m d = true ->
  parse_str_to_epoch_seconds (print_date y m d) = Some (days_from_civil y m d * 86400).
Proof.
  intros y m d Hy Hv.
  destruct (proj1 (valid_ymd_bounds _ _ _) Hv) as [Hm Hd].
  pose proof (days_in_month_le_31 y m) as H31.
  unfold parse_str_to_epoch_seconds.
  assert (ET : trim (print_date y m d) = print_date y m d).
  { apply trim_id. unfold print_date, pad4, pad2. rewrite pad4_explicit, !pad2_explicit. cbn [app].
    eexists; eexists. eexists [_; _; _; _; _; _; _; _; _]; eexists.
    split; [reflexivity|]. split; [reflexivity|].
    split; apply digit_not_ws, is_digit_48; lia. }
  rewrite ET, parse_rfc3339_date_none by lia.
  rewrite parse_print_date by assumption. reflexivity.
Qed.

Theorem iso_and_integer_agree : forall t frac sep off tz ws1 ws2 rms rus rns,
  iso_t_lo <= t <= iso_t_hi ->
  forallb is_digit frac = true -> sep_ok sep = true ->
  Z.abs off <= 1439 -> tz_ok off tz ->
  forallb is_ascii_ws ws1 = true -> forallb is_ascii_ws ws2 = true ->
  0 <= rms < 1000 -> 0 <= rus < 1000000 -> 0 <= rns < 1000000000 ->
  let iso := parse_str_to_epoch_seconds (ws1 ++ print_instant_gen t frac sep off tz ++ ws2) in
  iso = Some t /\
  (Z.abs t < 10 ^ 11 -> normalize_integer_epoch t = iso) /\
  (10 ^ 11 <= Z.abs (t * 1000 + rms) < 10 ^ 14 ->
     normalize_integer_epoch (t * 1000 + rms) = iso) /\
  (10 ^ 14 <= Z.abs (t * 1000000 + rus) < 10 ^ 16 ->
     normalize_integer_epoch (t * 1000000 + rus) = iso) /\
  (10 ^ 16 <= Z.abs (t * 1000000000 + rns) < 10 ^ 19 ->
     normalize_integer_epoch (t * 1000000000 + rns) = iso).
Proof.
  intros t frac sep off tz ws1 ws2 rms rus rns Ht Hfr Hsep Hoff Htz H1 H2 Hms Hus Hns iso.
  assert (E : iso = Some t) by (apply iso_string_agree; assumption).
  destruct (unit_spellings_agree t rms rus rns Hms Hus Hns) as [A [B [C D]]].
  rewrite E. repeat split; assumption.
Qed.

(* "1966-10-31T14:13:19.5Z" : negative instant, fraction *)
Example iso_negative_instant :
  print_instant_gen (-100000001) [53%N] 84%N 0 (TzZulu false)
  = [49;57;54;54;45;49;48;45;51;49;84;49;52;58;49;51;58;49;57;46;53;90]%N
  /\ parse_rfc3339 (print_instant_gen (-100000001) [53%N] 84%N 0 (TzZulu false)) = Some (-100000001)
  /\ iso_t_lo <= -100000001 <= iso_t_hi.
Proof. split; [vm_compute; reflexivity|]. split; [vm_compute; reflexivity|]. unfold iso_t_lo, iso_t_hi. lia. Qed.

(* offsets +23:59 and -23:59 move the civil date across a day / year boundary *)
Example iso_extreme_offsets :
  print_instant_gen 946684800 [] 32%N 1439 (TzNumeric false)
  = [50;48;48;48;45;48;49;45;48;49;32;50;51;58;53;57;58;48;48;43;50;51;58;53;57]%N
  /\ print_instant_gen 946684800 [] 116%N (-1439) (TzNumeric true)
  = [49;57;57;57;45;49;50;45;51;49;116;48;48;58;48;49;58;48;48;226;136;146;50;51;58;53;57]%N
  /\ parse_rfc3339 (print_instant_gen 946684800 [] 32%N 1439 (TzNumeric false)) = Some 946684800
  /\ parse_rfc3339 (print_instant_gen 946684800 [] 116%N (-1439) (TzNumeric true)) = Some 946684800.
Proof. repeat apply conj; vm_compute; reflexivity. Qed.

(* leap day 2000-02-29, non-leap century 1900-03-01 (the day after 02-28), 2100 *)
Example iso_leap_and_century :
  parse_rfc3339 (print_rfc3339 2000 2 29 12 0 0 [] 84%N 0 true) = Some 951825600
  /\ parse_rfc3339 (print_rfc3339 1900 2 29 0 0 0 [] 84%N 0 true) = None
  /\ parse_rfc3339 (print_rfc3339 1900 3 1 0 0 0 [] 84%N 0 true) = Some (-2203891200)
  /\ parse_rfc3339 (print_rfc3339 1900 2 28 23 59 59 [] 84%N 0 true) = Some (-2203891201)
  /\ parse_rfc3339 (print_rfc3339 2100 2 28 23 59 59 [] 84%N 0 true) = Some 4107542399
  /\ parse_rfc3339 (print_rfc3339 2100 3 1 0 0 0 [] 84%N 0 true) = Some 4107542400.
Proof. repeat apply conj; vm_compute; reflexivity. Qed.

(* the leap-second spelling :60 denotes second 59 of that minute (chrono folds it) *)
Example iso_leap_second :
  parse_rfc3339 (print_rfc3339 2016 12 31 23 59 60 [] 84%N 0 true) = Some 1483228799
  /\ parse_rfc3339 (print_rfc3339 2016 12 31 23 59 59 [57%N; 57%N] 84%N 0 true) = Some 1483228799.
Proof. split; vm_compute; reflexivity. Qed.

(* the ends of the four-digit range; one day further the local year is 10000, which the
   four-digit printer cannot spell (it wraps to 0000): the range hypothesis is needed *)
Example iso_range_ends :
  parse_rfc3339 (print_instant_gen iso_t_lo [] 84%N (-1439) (TzNumeric false)) = Some iso_t_lo
  /\ parse_rfc3339 (print_instant_gen iso_t_hi [] 84%N 1439 (TzNumeric false)) = Some iso_t_hi
  /\ parse_rfc3339 (print_instant_gen (iso_t_hi + 86400) [] 84%N 1 (TzNumeric false)) = Some (-62167219201).
Proof. repeat apply conj; vm_compute; reflexivity. Qed.

Example date_only_examples :
  parse_date_only (print_date 1969 12 31) = Some (-86400)
  /\ parse_date_only (print_date 2000 2 29) = Some 951782400
  /\ parse_date_only (print_date 1900 2 29) = None
  /\ parse_date_only (print_date 0 1 1) = Some (-62167219200).
Proof. repeat apply conj; vm_compute; reflexivity. Qed.

End Iso.
