(** Proofs about Model/Shard.v for C01 — applied writes survive any process
    crash and restart, exactly once.

    Specification side: [stored ls] (every event of an [LStore] label),
    [durable ls] (the events whose WAL entry was written: an [LWalWrite] label
    consumed them from the FIFO [pending] of stored-but-unwritten events; a crash
    or a restart empties that FIFO).  These recursions, like the guards [wal_ordered]
    and [wal_idle_at_prune], go from the front of the label list with the FIFO (the
    state) as a parameter; so an invariant is carried forward along a run from any
    state that satisfies it ([safe_run_from], [lock_run_from]), and the run from
    [init] is the instance. *)
From Coq Require Import NArith List Bool Lia.
From Snel Require Import Model.Shard Proofs.ShardC03Proofs.
Import ListNotations.
Open Scope N_scope.

Fixpoint stored (ls : list label) : list event :=
  match ls with
  | [] => []
  | LStore e :: r => e :: stored r
  | _ :: r => stored r
  end.

Definition pend_step (p : list event) (l : label) : list event :=
  match l with
  | LStore e => p ++ [e]
  | LWalWrite => tl p
  | LCrash | LRestart => []
  | _ => p
  end.

Definition written_by (p : list event) (l : label) : list event :=
  match l, p with
  | LWalWrite, e :: _ => [e]
  | _, _ => []
  end.

Fixpoint durable_from (p : list event) (ls : list label) : list event :=
  match ls with
  | [] => []
  | l :: r => written_by p l ++ durable_from (pend_step p l) r
  end.

Fixpoint pending_from (p : list event) (ls : list label) : list event :=
  match ls with
  | [] => p
  | l :: r => pending_from (pend_step p l) r
  end.

Definition durable (ls : list label) : list event := durable_from [] ls.
Definition pending (ls : list label) : list event := pending_from [] ls.

Lemma stored_applied : stored = applied.
Proof. reflexivity. Qed.

Lemma stored_app : forall a b, stored (a ++ b) = stored a ++ stored b.
Proof. rewrite stored_applied. exact applied_app. Qed.

Lemma stored_cons : forall l r, stored (l :: r) = stored [l] ++ stored r.
Proof. intros l r. apply (stored_app [l] r). Qed.

Lemma events_in_stored : forall c ls e, In e (all_events (run (init c) ls)) -> In e (stored ls).
Proof. rewrite stored_applied. exact events_stored. Qed.

Definition ev_eq_dec : forall a b : event, {a = b} + {a <> b}.
Proof. decide equality; apply N.eq_dec. Defined.

Definition occ (e : event) (l : list event) : nat := count_occ ev_eq_dec l e.

(** the log ([durable] then [pending]) holds what was stored, minus what was pending at a crash *)
Lemma log_occ : forall e ls p, (occ e (durable_from p ls ++ pending_from p ls) <= occ e (p ++ stored ls))%nat.
Proof.
  intros e; induction ls as [|l r IH]; intros p; [cbn [durable_from pending_from stored app]; rewrite app_nil_r; lia|].
  specialize (IH (pend_step p l)). unfold occ in *. cbn [durable_from pending_from].
  rewrite <- app_assoc, !count_occ_app in *.
  destruct l as [e0| | | |f| |]; cbn [written_by pend_step stored app count_occ] in *; rewrite ?count_occ_app in IH; try lia.
  - cbn [count_occ] in IH. destruct (ev_eq_dec e0 e); lia.
  - destruct p as [|x q]; cbn [tl count_occ] in *; [lia|]. destruct (ev_eq_dec x e); lia.
Qed.

Lemma durable_pending_stored : forall ls e, In e (durable ls ++ pending ls) -> In e (stored ls).
Proof.
  intros ls e H. apply (count_occ_In ev_eq_dec) in H. apply (count_occ_In ev_eq_dec).
  pose proof (log_occ e ls []) as L. unfold occ in L. cbn [app] in L. unfold durable, pending in H. lia.
Qed.

Lemma durable_stored : forall ls e, In e (durable ls) -> In e (stored ls).
Proof. intros ls e H. apply durable_pending_stored, in_app_iff. left. exact H. Qed.

Lemma durable_pending_nodup : forall ls, NoDup (stored ls) -> NoDup (durable ls ++ pending ls).
Proof.
  intros ls Hn. apply (NoDup_count_occ ev_eq_dec). intros e. rewrite (NoDup_count_occ ev_eq_dec) in Hn.
  pose proof (log_occ e ls []) as L. specialize (Hn e). unfold occ in L. cbn [app] in L. unfold durable, pending. lia.
Qed.

Definition frows (fs : list (N * list event)) : list event := concat (map snd fs).
Definition drows (ds : list segdir) : list event := concat (map srows ds).

Lemma frows_prows : frows = prows.
Proof. reflexivity. Qed.
Lemma drows_all_rows : drows = all_rows.
Proof. reflexivity. Qed.

Lemma frows_append : forall x files id e, In x (frows (wal_append files id e)) <-> In x (frows files) \/ x = e.
Proof. rewrite frows_prows. exact wal_append_rows. Qed.
Lemma frows_touch : forall files id, frows (wal_touch files id) = frows files.
Proof. rewrite frows_prows. exact wal_touch_rows. Qed.
Lemma drows_add_in : forall ds seg r e, In e (drows (dir_add_rows ds seg r)) <-> In e (drows ds) \/ In e r.
Proof. rewrite drows_all_rows. exact all_rows_add_in. Qed.

Lemma frows_In : forall e fs, In e (frows fs) <-> exists f, In f fs /\ In e (snd f).
Proof. intros. unfold frows. apply in_concat_map. Qed.

Lemma drows_In : forall e ds, In e (drows ds) <-> exists d, In d ds /\ In e (srows d).
Proof. intros. unfold drows. apply in_concat_map. Qed.

Lemma in_dirs_In : forall ds e, in_dirs ds e = true <-> In e (drows ds).
Proof.
  intros ds e; unfold in_dirs; rewrite existsb_exists, drows_In; split.
  - intros [d [Hd H]]. apply existsb_exists in H. destruct H as [x [Hx E]].
    apply ev_eqb_eq in E. subst x. exists d; auto.
  - intros [d [Hd H]]. exists d; split; [exact Hd|]. apply existsb_exists.
    exists e; split; [exact H|apply ev_eqb_eq; reflexivity].
Qed.

Lemma pruned_unsaved_In : forall ds del e,
  In e (pruned_unsaved ds del) <-> In e (frows del) /\ ~ In e (drows ds).
Proof.
  intros ds del e; unfold pruned_unsaved. fold (frows del).
  rewrite filter_In, negb_true_iff, <- in_dirs_In.
  destruct (in_dirs ds e); intuition congruence.
Qed.

(** [dir_has_uid] as a function of the directory list: [lock_inv] speaks of the directories alone *)
Definition has_uid (ds : list segdir) (seg u : N) : bool :=
  existsb (fun d => (sid d =? seg) && existsb (fun e => euid e =? u) (srows d)) ds.

Lemma dir_has_uid_dirs : forall s seg u, dir_has_uid s seg u = has_uid (dirs s) seg u.
Proof. reflexivity. Qed.

Lemma has_uid_add : forall ds seg rows seg' u,
  has_uid (dir_add_rows ds seg rows) seg' u =
  has_uid ds seg' u || ((seg =? seg') && existsb (fun e => euid e =? u) rows).
Proof.
  intros ds seg rows seg' u. unfold has_uid. induction ds as [|d ds IH]; cbn [dir_add_rows].
  - cbn [existsb sid srows]. rewrite orb_false_r. reflexivity.
  - destruct (N.eqb_spec (sid d) seg) as [E|E]; cbn [existsb sid srows].
    + rewrite existsb_app, E. destruct (seg =? seg'); cbn [andb]; [|rewrite orb_false_r; reflexivity].
      rewrite <- !orb_assoc. f_equal. apply orb_comm.
    + rewrite IH, orb_assoc. reflexivity.
Qed.

Lemma has_uid_none : forall ds seg u,
  (forall d, In d ds -> sid d <> seg) -> has_uid ds seg u = false.
Proof.
  intros ds seg u H; unfold has_uid. apply not_true_is_false. intros T.
  apply existsb_exists in T. destruct T as [d [Hd T]]. apply andb_true_iff in T.
  destruct T as [T _]. apply N.eqb_eq in T. exact (H d Hd T).
Qed.

Lemma wal_touch_In : forall f' files id,
  In f' (wal_touch files id) -> In f' files \/ f' = (id, []).
Proof.
  intros f' files id H. rewrite wal_touch_upd in H. apply wal_upd_In in H as [H|(es & -> & [->|H])]; auto.
Qed.

Lemma wal_lines_empty : forall files m, (forall f, In f files -> fst f = m -> snd f = []) -> wal_lines files m = 0.
Proof.
  induction files as [|[i es] r IH]; intros m H; cbn [wal_lines]; [reflexivity|].
  destruct (N.eqb_spec i m) as [E|_]; [exact (f_equal len (H (i, es) (or_introl eq_refl) E))|].
  apply IH. intros f Hf. apply H. right. exact Hf.
Qed.

Lemma wal_max_id_ge : forall files f, In f files -> fst f <= wal_max_id files.
Proof.
  unfold wal_max_id. intros files.
  enough (G : forall a, a <= fold_left (fun m f => N.max m (fst f)) files a /\
                        forall f, In f files -> fst f <= fold_left (fun m f => N.max m (fst f)) files a) by apply G.
  induction files as [|g r IH]; intros a; cbn [fold_left]; [split; [lia | intros f []]|].
  destruct (IH (N.max a (fst g))) as [H1 H2]. split; [lia|]. intros f [<-|Hf]; [lia | apply H2, Hf].
Qed.

Lemma fw_dirs_mono : forall s l e, In e (drows (dirs s)) -> In e (drows (dirs (fw_step s l))).
Proof.
  intros s l e H. destruct (fw_dirs s l) as [->|[j [rest [rows [_ [_ [_ ->]]]]]]]; [exact H|].
  apply drows_add_in; left; exact H.
Qed.

Lemma fw_wlost_mono : forall s l e, In e (wlost s) -> In e (wlost (fw_step s l)).
Proof.
  intros s l e H. destruct (fw_files s l) as [[_ ->]|[p [_ [-> _]]]]; [exact H|].
  apply in_app_iff; left; exact H.
Qed.

Lemma walq_step : forall s l, walq (step s l) = pend_step (walq s) l.
Proof.
  intros s l; destruct l as [e0| | | |f| |]; cbn [step pend_step].
  - destruct (store_cases s e0) as [[_ ->]|[_ ->]]; reflexivity.
  - reflexivity.
  - destruct (wal_write_cases s) as [[Eq ->]|(e & q & Eq & ->)]; rewrite Eq; reflexivity.
  - destruct (wal_rotate_cases s) as [[_ ->]|[_ ->]]; reflexivity.
  - apply fw_frame.
  - reflexivity.
  - reflexivity.
Qed.

Lemma walq_run : forall ls s, walq (run s ls) = pending_from (walq s) ls.
Proof.
  induction ls as [|l r IH]; intros s; cbn [run fold_left pending_from]; [reflexivity|].
  rewrite <- walq_step. apply IH.
Qed.

(** * The recoverability invariant: a durable event is in the ghost list, in a
      log file on disk, or in a segment directory *)

Definition recoverable (s : shard) (e : event) : Prop :=
  In e (frows (walfiles s)) \/ In e (drows (dirs s)).

Definition safe (D : list event) (s : shard) : Prop :=
  forall e, In e D -> In e (wlost s) \/ recoverable s e.

Lemma safe_step : forall D s l, safe D s -> safe (D ++ written_by (walq s) l) (step s l).
Proof.
  intros D s l HS e He. unfold safe, recoverable in *. apply in_app_iff in He.
  destruct l as [e0| | | |f| |]; cbn [step written_by] in *.
  - destruct He as [He|[]]. destruct (store_cases s e0) as [[_ ->]|[_ ->]]; exact (HS e He).
  - destruct He as [He|[]]. exact (HS e He).
  - destruct (wal_write_cases s) as [[Eq ->]|(e1 & q & Eq & ->)]; rewrite Eq in He;
      [destruct He as [He|[]]; exact (HS e He)|].
    proj. destruct (wunlinked s).
    + rewrite in_app_iff; cbn [In]. destruct He as [He|[<-|[]]]; [destruct (HS e He); tauto|left; right; left; reflexivity].
    + rewrite frows_append. destruct He as [He|[<-|[]]]; [destruct (HS e He); tauto|right; left; right; reflexivity].
  - destruct He as [He|[]]. destruct (wal_rotate_cases s) as [[_ ->]|[_ ->]]; proj; rewrite ?frows_touch; exact (HS e He).
  - assert (He' : In e D) by (destruct He as [He|[]]; exact He).
    destruct (HS e He') as [H|[H|H]].
    + left; apply fw_wlost_mono, H.
    + destruct (fw_files s f) as [[-> ->]|[p [-> [-> ->]]]]; [tauto|].
      apply frows_In in H. destruct H as [g [Hg Hx]].
      destruct (p (fst g)) eqn:Ep.
      * destruct (in_dec ev_eq_dec e (drows (dirs s))) as [Hd|Hd]; [tauto|].
        left. apply in_app_iff; right. apply pruned_unsaved_In. split; [|exact Hd].
        apply frows_In. exists g; split; [apply filter_In; auto|exact Hx].
      * right; left. apply frows_In. exists g; split; [apply filter_In; rewrite Ep; auto|exact Hx].
    + right; right; apply fw_dirs_mono, H.
  - destruct He as [He|[]]. exact (HS e He).
  - destruct He as [He|[]]. proj. rewrite frows_touch. exact (HS e He).
Qed.

Lemma safe_run_from : forall ls D s, safe D s -> safe (D ++ durable_from (walq s) ls) (run s ls).
Proof.
  induction ls as [|l r IH]; intros D s HS; cbn [run fold_left durable_from]; [rewrite app_nil_r; exact HS|].
  rewrite app_assoc, <- walq_step. apply IH, safe_step, HS.
Qed.

Lemma safe_run : forall c ls, safe (durable ls) (run (init c) ls).
Proof. intros c ls. apply (safe_run_from ls [] (init c)). intros e []. Qed.

Lemma recoverable_all_events : forall s e, recoverable s e -> In e (all_events s).
Proof.
  intros s e H. apply all_events_In. unfold recoverable in H. rewrite frows_prows, drows_all_rows in H. tauto.
Qed.

Lemma select_at_most_once : forall s u e, (occ e (select s u) <= 1)%nat.
Proof.
  intros s u e. unfold occ. apply NoDup_count_occ. apply (NoDup_map_inv ek), select_keys_nodup.
Qed.

Lemma select_once : forall s u e,
  In e (scan s u) -> KeyInj (scan s u) -> occ e (select s u) = 1%nat.
Proof.
  intros s u e Hin Hu. unfold occ.
  apply (proj1 (NoDup_count_occ' ev_eq_dec (select s u))).
  - apply (NoDup_map_inv ek), select_keys_nodup.
  - apply in_select; assumption.
Qed.

Lemma scan_all_events : forall s u e, In e (scan s u) -> In e (all_events s) /\ euid e = u.
Proof. intros s u e H. apply in_scan in H as [H Hu]. split; [apply rows_all_events, H | exact Hu]. Qed.

Lemma scan_restart : forall s u,
  scan (restart s) u = of_uid u (frows (walfiles s) ++ drows (dirs s)).
Proof.
  intros s u. unfold scan. rewrite restart_mem, restart_seg_rows, frows_prows, drows_all_rows. reflexivity.
Qed.

Lemma scan_restart_In : forall s u e, In e (scan (restart s) u) <-> recoverable s e /\ euid e = u.
Proof. intros; rewrite scan_restart, of_uid_in, in_app_iff; unfold recoverable; tauto. Qed.

Lemma restart_reads_stored : forall c ls u e,
  In e (scan (restart (run (init c) ls)) u) -> In e (stored ls) /\ euid e = u.
Proof.
  intros c ls u e H. apply scan_restart_In in H as [H Hu]. split; [apply (events_in_stored c), recoverable_all_events, H | exact Hu].
Qed.

Lemma recoverable_read_once : forall c ls e,
  NoDup (map ek (stored ls)) -> recoverable (run (init c) ls) e ->
  occ e (select (restart (crash (run (init c) ls))) (euid e)) = 1%nat /\
  occ e (select (restart (run (init c) ls)) (euid e)) = 1%nat.
Proof.
  intros c ls e Hn Hr. rewrite restart_crash. enough (occ e (select (restart (run (init c) ls)) (euid e)) = 1%nat) by auto.
  apply select_once.
  - apply scan_restart_In; split; [exact Hr|reflexivity].
  - eapply KeyInj_incl; [|apply KeyInj_nodup, Hn]. intros a Ha. apply (restart_reads_stored c ls _ a Ha).
Qed.

Theorem survives_unless_pruned : forall c ls e,
  NoDup (map ek (stored ls)) ->
  In e (durable ls) -> ~ In e (wlost (run (init c) ls)) ->
  occ e (select (restart (crash (run (init c) ls))) (euid e)) = 1%nat /\
  occ e (select (restart (run (init c) ls)) (euid e)) = 1%nat.
Proof.
  intros c ls e Hn Hd Hl. apply recoverable_read_once; [exact Hn|].
  destruct (safe_run c ls e Hd) as [H|H]; [contradiction|exact H].
Qed.

(** Known class [OpenWalFilePruned] (known/C01.json): the event's WAL entry went to, or was
    in, a log file that the flush worker pruned while no directory held the event. *)
Definition OpenWalFilePruned (c : N) (ls : list label) (e : event) : Prop :=
  In e (wlost (run (init c) ls)).

Theorem durable_exactly_once_outside_known : forall c ls e,
  NoDup (map ek (stored ls)) -> In e (durable ls) -> ~ OpenWalFilePruned c ls e ->
  occ e (select (restart (crash (run (init c) ls))) (euid e)) = 1%nat /\
  occ e (select (restart (run (init c) ls)) (euid e)) = 1%nat.
Proof. exact survives_unless_pruned. Qed.

Theorem no_phantom : forall c ls u e,
  In e (select (run (init c) ls) u) -> In e (stored ls) /\ euid e = u.
Proof.
  intros c ls u e H. apply select_scan, scan_all_events in H. destruct H as [H Hu].
  split; [apply (events_in_stored c), H|exact Hu].
Qed.

Theorem no_phantom_after_crash : forall c ls u e,
  In e (select (restart (crash (run (init c) ls))) u) -> In e (stored ls) /\ euid e = u.
Proof.
  intros c ls u e H. rewrite restart_crash in H. apply (restart_reads_stored c), select_scan, H.
Qed.

Theorem never_duplicated : forall s u e,
  NoDup (map ek (select s u)) /\ (occ e (select s u) <= 1)%nat.
Proof. intros; split; [apply select_keys_nodup|apply select_at_most_once]. Qed.

(** * The lockstep fragment: one lifetime, no manual FLUSH

    Positions in [stored ls]: the [k]-th memtable rotation (segment [k]) holds the
    positions [k*c .. (k+1)*c-1]; WAL file [k] holds positions below [(k+1)*c]. *)

Definition at_pos (P : list event) (i : N) (e : event) : Prop := nth_error P (N.to_nat i) = Some e.

Lemma at_pos_lt : forall P i e, at_pos P i e -> i < len P.
Proof.
  unfold at_pos, len; intros P i e H.
  assert (H0 : nth_error P (N.to_nat i) <> None) by congruence. apply nth_error_Some in H0. lia.
Qed.

Lemma at_pos_in : forall P i e, at_pos P i e -> In e P.
Proof. unfold at_pos; intros P i e H; eapply nth_error_In, H. Qed.

Lemma at_pos_app_l : forall P Q i e, at_pos P i e -> at_pos (P ++ Q) i e.
Proof.
  unfold at_pos; intros P Q i e H. rewrite nth_error_app1; [exact H|]. apply nth_error_Some; congruence.
Qed.

Lemma at_pos_app_inv : forall P Q i e, at_pos (P ++ Q) i e -> i < len P -> at_pos P i e.
Proof.
  unfold at_pos, len; intros P Q i e H L. rewrite nth_error_app1 in H; [exact H|lia].
Qed.

Lemma at_pos_mid : forall A e B, at_pos (A ++ e :: B) (len A) e.
Proof.
  unfold at_pos, len; intros A e B. rewrite Nat2N.id, nth_error_app2, PeanoNat.Nat.sub_diag; [reflexivity|lia].
Qed.

Lemma at_pos_snoc : forall P x i e, at_pos (P ++ [x]) i e -> at_pos P i e \/ (i = len P /\ e = x).
Proof.
  intros P x i e H. destruct (N.ltb_spec i (len P)) as [L|L].
  - left; eapply at_pos_app_inv; eassumption.
  - right. pose proof (at_pos_lt _ _ _ H) as L2. rewrite len_app, len_cons, len_nil in L2.
    assert (E : i = len P) by lia. split; [exact E|]. subst i.
    pose proof (at_pos_mid P x []) as M. unfold at_pos in *. congruence.
Qed.

Definition indexed (st : stage) : bool := match st with StQueued | StBegun => false | _ => true end.

Lemma indexed_written : indexed = written.
Proof. reflexivity. Qed.

Definition hseg (js : list job) (a : N) : N := match js with [] => a | j :: _ => jseg j end.
(** number of segments whose directory is complete *)
Definition pubn (js : list job) (a : N) : N :=
  match js with [] => a | j :: _ => if indexed (jstage j) then jseg j + 1 else jseg j end.
(** strict bound of the existing directory ids *)
Definition dirbound (js : list job) (a : N) : N :=
  match js with [] => a | j :: _ => match jstage j with StQueued => jseg j | _ => jseg j + 1 end end.

(** the queued jobs are the rotations [h, h+1, .., a-1]; job [k] holds the positions of chunk [k] *)
Fixpoint jobs_from (P : list event) (c h : N) (js : list job) (a : N) : Prop :=
  match js with
  | [] => h = a
  | j :: r => jseg j = h /\ jevs j <> [] /\
              (forall i e, h * c <= i < (h + 1) * c -> at_pos P i e -> In e (jevs j)) /\
              jobs_from P c (h + 1) r a
  end.

Lemma jobs_from_le : forall P c js h a, jobs_from P c h js a -> h <= a.
Proof.
  induction js as [|j r IH]; intros h a H; cbn [jobs_from] in H; [lia|].
  destruct H as (_ & _ & _ & H). apply IH in H. lia.
Qed.

Lemma jobs_from_ext : forall P Q c js h a,
  jobs_from P c h js a -> a * c <= len P -> jobs_from (P ++ Q) c h js a.
Proof.
  induction js as [|j r IH]; intros h a H L; cbn [jobs_from] in *; [exact H|].
  destruct H as (H1 & H2 & H3 & H4). repeat split; [exact H1|exact H2| |apply IH; assumption].
  intros i e Hi Hp. apply (H3 i e Hi). apply at_pos_app_inv with (Q := Q); [exact Hp|].
  pose proof (jobs_from_le _ _ _ _ _ H4) as Hle. pose proof (N.mul_le_mono_r _ _ c Hle). lia.
Qed.

Lemma jobs_from_snoc : forall P c js h a j,
  jobs_from P c h js a -> jseg j = a -> jevs j <> [] ->
  (forall i e, a * c <= i < (a + 1) * c -> at_pos P i e -> In e (jevs j)) ->
  jobs_from P c h (js ++ [j]) (a + 1).
Proof.
  induction js as [|x r IH]; intros h a j H Hs Hn Hj; cbn [jobs_from app] in *.
  - subst h. repeat split; assumption || reflexivity.
  - destruct H as (H1 & H2 & H3 & H4). repeat split; try assumption. apply IH; assumption.
Qed.

Lemma hseg_snoc : forall js a j, jseg j = a -> hseg (js ++ [j]) (a + 1) = hseg js a.
Proof. intros [|x r] a j H; cbn [app hseg]; [exact H|reflexivity]. Qed.
Lemma pubn_snoc : forall js a j, jseg j = a -> jstage j = StQueued -> pubn (js ++ [j]) (a + 1) = pubn js a.
Proof. intros [|x r] a j H Hq; cbn [app pubn]; [rewrite Hq; exact H|reflexivity]. Qed.
Lemma dirbound_snoc : forall js a j, jseg j = a -> jstage j = StQueued -> dirbound (js ++ [j]) (a + 1) = dirbound js a.
Proof. intros [|x r] a j H Hq; cbn [app dirbound]; [rewrite Hq; exact H|reflexivity]. Qed.

Lemma queued_counters : forall P c h js a,
  jobs_from P c h js a -> Forall (fun j => jstage j = StQueued) js ->
  hseg js a = h /\ pubn js a = h /\ dirbound js a = h.
Proof.
  intros P c h [|j r] a H Hq; cbn [jobs_from hseg pubn dirbound] in *; [auto|].
  destruct H as (Hs & _). apply Forall_inv in Hq. rewrite Hq. cbn [indexed]. auto.
Qed.

(** [P] the stored events, [D] the durable ones.  The WAL thread is at position [len D] of [P]; the
    memtable and the queued jobs are the last rotations of [P]; the directories hold every position
    below the first rotation not indexed yet ([pubn]); the directory of the job being flushed holds a
    type completely or not at all ([li_head]); a writer whose file is unlinked is behind [pubn], so
    what it loses is in a directory. *)
Record lock_inv (c : N) (P D : list event) (s : shard) : Prop := {
  li_cap : cap s = c;
  li_fifo : P = D ++ walq s;
  li_cnt : len D = wcur s * c + wcnt s /\ wcnt s <= c;
  li_ids : forall f, In f (walfiles s) -> fst f <= wcur s;
  li_files : forall f e, In f (walfiles s) -> In e (snd f) -> exists i, i < (fst f + 1) * c /\ at_pos P i e;
  li_mem : len P = alloc0 s * c + len (mem s) /\ len (mem s) < c;
  li_memrows : forall i e, alloc0 s * c <= i -> at_pos P i e -> In e (mem s);
  li_jobs : jobs_from P c (hseg (jobs s) (alloc0 s)) (jobs s) (alloc0 s);
  li_tail : Forall (fun j => jstage j = StQueued) (tl (jobs s));
  li_pub : forall i e, i < pubn (jobs s) (alloc0 s) * c -> at_pos P i e -> In e (drows (dirs s));
  li_unl : wunlinked s = true -> wcur s < pubn (jobs s) (alloc0 s);
  li_dirs : forall d, In d (dirs s) -> sid d < dirbound (jobs s) (alloc0 s);
  li_head : forall j r, jobs s = j :: r -> jstage j = StBegun ->
            forall e, In e (jevs j) -> has_uid (dirs s) (jseg j) (euid e) = true -> In e (drows (dirs s));
  li_lost : forall e, In e (wlost s) -> In e (drows (dirs s))
}.

(** the fields of [lock_inv], in order *)
Ltac dL HI := destruct HI as [Icap Ififo Icnt Iids Ifiles Imem Imemrows Ijobs Itail Ipub Iunl Idirs Ihead Ilost].

Lemma lock_init : forall c, 0 < c -> lock_inv c [] [] (init c).
Proof.
  intros c Hc. constructor; unfold init; proj; cbn [hseg pubn dirbound jobs_from tl app].
  - reflexivity.
  - reflexivity.
  - rewrite len_nil. lia.
  - intros f [<-|[]]. cbn [fst]. lia.
  - intros f e [<-|[]] [].
  - rewrite len_nil. lia.
  - intros i e _ H. apply at_pos_in in H. destruct H.
  - reflexivity.
  - constructor.
  - intros i e H. lia.
  - discriminate.
  - intros d [].
  - discriminate.
  - intros e [].
Qed.

Lemma lock_store : forall c P D s e, lock_inv c P D s -> lock_inv c (P ++ [e]) D (store s e).
Proof.
  intros c P D s e HI. dL HI.
  assert (Hfifo : P ++ [e] = D ++ walq s ++ [e]) by (rewrite Ififo, app_assoc; reflexivity).
  assert (Hfiles : forall f x, In f (walfiles s) -> In x (snd f) -> exists i, i < (fst f + 1) * c /\ at_pos (P ++ [e]) i x).
  { intros f x Hf Hx. destruct (Ifiles f x Hf Hx) as [i [Hi Hp]]. exists i; split; [exact Hi|apply at_pos_app_l, Hp]. }
  assert (Hpub : forall i x, i < pubn (jobs s) (alloc0 s) * c -> at_pos (P ++ [e]) i x -> In x (drows (dirs s))).
  { intros i x Hi Hp. apply (Ipub i x Hi). apply at_pos_app_inv with (Q := [e]); [exact Hp|].
    assert (Hpa : pubn (jobs s) (alloc0 s) <= alloc0 s).
    { destruct (jobs s) as [|j r]; cbn [pubn hseg jobs_from] in *; [lia|].
      destruct Ijobs as (Hs & _ & _ & Hr). apply jobs_from_le in Hr. destruct (indexed (jstage j)); lia. }
    pose proof (N.mul_le_mono_r _ _ c Hpa). lia. }
  assert (Hjobs : jobs_from (P ++ [e]) c (hseg (jobs s) (alloc0 s)) (jobs s) (alloc0 s)) by (apply jobs_from_ext; [exact Ijobs|lia]).
  assert (Hrows : forall i x, alloc0 s * c <= i -> at_pos (P ++ [e]) i x -> In x (mem s ++ [e])).
  { intros i x Hi Hp. apply in_app_iff. apply at_pos_snoc in Hp.
    destruct Hp as [Hp|[_ ->]]; [left; eapply Imemrows; eassumption|right; left; reflexivity]. }
  destruct (store_cases s e) as [[Hlt ->]|[Hge ->]]; constructor; proj;
    rewrite <- ?N.add_1_r, ?hseg_snoc, ?pubn_snoc, ?dirbound_snoc by reflexivity; try assumption.
  - (* li_mem *) rewrite !len_app, len_cons, len_nil. lia.
  - (* li_mem, after the rotation *) rewrite !len_app, len_cons, !len_nil. lia.
  - (* li_memrows *) intros i x Hi Hp. apply at_pos_lt in Hp. rewrite len_app, len_cons, len_nil in Hp. lia.
  - apply jobs_from_snoc; proj; [exact Hjobs | reflexivity | destruct (mem s); discriminate|].
    intros i x Hi. apply Hrows. lia.
  - destruct (jobs s) as [|j r]; cbn [app tl] in *; [constructor|].
    apply Forall_app; split; [exact Itail|constructor; [reflexivity|constructor]].
  - intros j r Ejr Est. destruct (jobs s) as [|j0 r0] eqn:Ejs; cbn [app] in Ejr.
    + inversion Ejr; subst j; discriminate.
    + inversion Ejr; subst j0 r. apply (Ihead j r0 eq_refl Est).
Qed.

Lemma lock_wal_write : forall c P D s,
  lock_inv c P D s -> wcnt s < c ->
  lock_inv c P (D ++ written_by (walq s) LWalWrite) (wal_write s).
Proof.
  intros c P D s HI Hw. destruct (wal_write_cases s) as [[Eq ->]|(e & q & Eq & ->)]; rewrite Eq; cbn [written_by].
  { rewrite app_nil_r. exact HI. }
  dL HI.
  rewrite Eq in Ififo.
  assert (Hpos : at_pos P (len D) e) by (rewrite Ififo; apply at_pos_mid).
  assert (Hposlt : len D < (wcur s + 1) * c) by lia.
  constructor; proj; try assumption.
  - rewrite Ififo, <- app_assoc. reflexivity.
  - (* li_cnt *) rewrite len_app, len_cons, len_nil. lia.
  - destruct (wunlinked s); [exact Iids|].
    intros f Hf. rewrite wal_append_upd in Hf. apply wal_upd_In in Hf as [H|(es & -> & _)]; [apply Iids, H|cbn [fst]; lia].
  - destruct (wunlinked s); [exact Ifiles|].
    intros f x Hf Hx. rewrite wal_append_upd in Hf. apply wal_upd_In in Hf as [H|(es & -> & Hes)]; [exact (Ifiles f x H Hx)|].
    cbn [fst snd] in *. apply in_app_iff in Hx as [Hx|[<-|[]]]; [|exists (len D); auto].
    destruct Hes as [->|Hes]; [destruct Hx|exact (Ifiles _ x Hes Hx)].
  - destruct (wunlinked s); [|exact Ilost].
    intros x Hx. apply in_app_iff in Hx. destruct Hx as [Hx|[<-|[]]]; [apply Ilost, Hx|].
    apply (Ipub (len D)); [|exact Hpos]. specialize (Iunl eq_refl).
    assert (Hle : wcur s + 1 <= pubn (jobs s) (alloc0 s)) by lia.
    pose proof (N.mul_le_mono_r _ _ c Hle). lia.
Qed.

Lemma lock_wal_rotate : forall c P D s, lock_inv c P D s -> lock_inv c P D (wal_rotate s).
Proof.
  intros c P D s HI. destruct (wal_rotate_cases s) as [[_ ->]|[Hr ->]]; [exact HI|].
  dL HI.
  assert (E0 : wal_count_entries (wal_touch (walfiles s) (N.succ (wcur s))) = 0).
  { (* the highest id is at least the new one, and every older file has a lower id *)
    unfold wal_count_entries. apply wal_lines_empty. intros f Hf Em.
    destruct (wal_upd_has (fun es => es) (walfiles s) (N.succ (wcur s))) as [es Hes]. rewrite <- wal_touch_upd in Hes.
    apply wal_max_id_ge in Hes. cbn [fst] in Hes.
    destruct (wal_touch_In _ _ _ Hf) as [H| ->]; [specialize (Iids f H); lia | reflexivity]. }
  constructor; proj; rewrite ?E0; try assumption.
  - (* li_cnt *) lia.
  - intros f Hf. destruct (wal_touch_In _ _ _ Hf) as [H| ->]; [specialize (Iids f H); lia|cbn [fst]; lia].
  - intros f x Hf Hx. destruct (wal_touch_In _ _ _ Hf) as [H| ->]; [exact (Ifiles f x H Hx)|destruct Hx].
  - (* li_unl *) discriminate.
Qed.

(** [s'] differs from [s] in the queue and in fields the invariant does not read *)
Lemma lock_adv : forall c P D s s' j rest st',
  lock_inv c P D s -> jobs s = j :: rest ->
  (cap s', mem s', walq s', walfiles s', wcur s', wcnt s', wunlinked s', alloc0 s', wlost s', dirs s') =
  (cap s, mem s, walq s, walfiles s, wcur s, wcnt s, wunlinked s, alloc0 s, wlost s, dirs s) ->
  jobs s' = mkJob (jseg j) (jevs j) st' :: rest ->
  (indexed st' = true -> indexed (jstage j) = true \/ forall e, In e (jevs j) -> In e (drows (dirs s))) ->
  (indexed st' = false -> indexed (jstage j) = false) -> st' <> StQueued ->
  (st' = StBegun -> forall e, In e (jevs j) -> has_uid (dirs s) (jseg j) (euid e) = true -> In e (drows (dirs s))) ->
  lock_inv c P D s'.
Proof.
  intros c P D s s' j rest st' [Icap Ififo Icnt Iids Ifiles Imem Imemrows Ijobs Itail Ipub Iunl Idirs _ Ilost] Ej E Ej' H1 H2 Hq Hh.
  injection E as Ec Em Eq Ef Ew En Eu Ea El Ed.
  rewrite Ej in *. cbn [hseg pubn dirbound jobs_from tl] in *.
  constructor; rewrite ?Ec, ?Em, ?Eq, ?Ef, ?Ew, ?En, ?Eu, ?Ea, ?El, ?Ed, ?Ej'; cbn [hseg pubn dirbound jobs_from tl jseg jevs jstage]; try assumption.
  - intros i e Hi Hp. destruct (indexed st') eqn:Hs.
    + destruct (H1 eq_refl) as [Hx|Hcov]; [rewrite Hx in Ipub; exact (Ipub i e Hi Hp)|].
      destruct (N.ltb_spec i (jseg j * c)) as [L|L].
      * apply (Ipub i e); [clear - L; destruct (indexed (jstage j)); lia | exact Hp].
      * apply Hcov, (proj1 (proj2 (proj2 Ijobs)) i e); [clear - L Hi; lia | exact Hp].
    + rewrite (H2 eq_refl) in Ipub. exact (Ipub i e Hi Hp).
  - intros Hu. specialize (Iunl Hu). destruct (indexed st'); [destruct (indexed (jstage j)); lia|]. rewrite (H2 eq_refl) in Iunl. exact Iunl.
  - intros d Hd. specialize (Idirs d Hd). clear - Idirs Hq. destruct st'; [contradiction|..]; destruct (jstage j); lia.
  - (* li_head *) intros j0 r [= <- <-]. exact Hh.
Qed.

Lemma lock_add_rows : forall c P D s j rest r,
  lock_inv c P D s -> jobs s = j :: rest -> jstage j = StBegun ->
  (forall e, In e (jevs j) -> existsb (fun x => euid x =? euid e) r = true -> In e r) ->
  lock_inv c P D (set_dirs s (dir_add_rows (dirs s) (jseg j) r)).
Proof.
  intros c P D s j rest r HI Ej Est Hcl. dL HI.
  constructor; proj; try assumption.
  - intros i e Hi Hp. apply drows_add_in. left. exact (Ipub i e Hi Hp).
  - intros d Hd. apply add_sid in Hd as [->|Hd]; [|exact (Idirs d Hd)]. rewrite Ej. cbn [dirbound]. rewrite Est. lia.
  - intros j0 r0 Ejr Est0 e He Hu. rewrite Ej in Ejr. injection Ejr as <- <-.
    rewrite has_uid_add, N.eqb_refl in Hu. apply drows_add_in.
    apply orb_true_iff in Hu as [Hu|Hu]; [left; exact (Ihead j rest Ej Est e He Hu) | right; exact (Hcl e He Hu)].
  - intros e He. apply drows_add_in. left. apply Ilost, He.
Qed.

(** log files with ids up to the head job's are deleted once its directory is complete and published *)
Lemma lock_prune : forall c P D s j rest p unl st',
  lock_inv c P D s -> jobs s = j :: rest -> jstage j = StCleared -> indexed st' = true ->
  (forall i, p i = true -> i < jseg j + 1) -> (unl = true -> wcur s < jseg j + 1) ->
  lock_inv c P D (set_jobs (wal_prune s p unl) (mkJob (jseg j) (jevs j) st' :: rest)).
Proof.
  intros c P D s j rest p unl st' HI Ej Est Hst' Hp Hunl.
  apply (lock_adv c P D (wal_prune s p unl) _ j rest st'); try reflexivity; try exact Ej;
    [|rewrite Est; auto | congruence | intros ->; discriminate | intros ->; discriminate].
  dL HI.
  assert (Epub : pubn (jobs s) (alloc0 s) = jseg j + 1) by (rewrite Ej; cbn [pubn]; rewrite Est; reflexivity).
  rewrite Epub in Ipub, Iunl. constructor; proj; rewrite ?Epub; try assumption.
  - intros f Hf. apply filter_In in Hf. apply Iids, Hf.
  - intros f e Hf. apply filter_In in Hf. apply Ifiles, Hf.
  - (* li_unl *) intros Hu. apply orb_true_iff in Hu as [Hu|Hu]; auto.
  - intros e He. apply in_app_iff in He as [He|He]; [apply Ilost, He|].
    apply pruned_unsaved_In in He as [He _]. apply frows_In in He as (f & Hf & He).
    apply filter_In in Hf as [Hf Hpf]. destruct (Ifiles f e Hf He) as (i & Hi & Hpos). apply (Ipub i e); [|exact Hpos].
    pose proof (N.mul_le_mono_r (fst f + 1) (jseg j + 1) c) as Hm. specialize (Hp _ Hpf). clear - Hi Hm Hp. lia.
Qed.

Lemma lock_done : forall c P D s s' j rest,
  lock_inv c P D s -> jobs s = j :: rest -> jstage j = StWalCleaned ->
  (cap s', mem s', walq s', walfiles s', wcur s', wcnt s', wunlinked s', alloc0 s', wlost s', dirs s') =
  (cap s, mem s, walq s, walfiles s, wcur s, wcnt s, wunlinked s, alloc0 s, wlost s, dirs s) ->
  jobs s' = rest -> lock_inv c P D s'.
Proof.
  intros c P D s s' j rest [Icap Ififo Icnt Iids Ifiles Imem Imemrows Ijobs Itail Ipub Iunl Idirs _ Ilost] Ej Est E Ej'.
  injection E as Ec Em Eq Ef Ew En Eu Ea El Ed.
  rewrite Ej in *. cbn [hseg pubn dirbound jobs_from tl] in *. rewrite Est in *. cbn [indexed] in *.
  destruct Ijobs as (_ & _ & _ & Hrest). destruct (queued_counters _ _ _ _ _ Hrest Itail) as (Hh1 & Hh2 & Hh3).
  constructor; rewrite ?Ec, ?Em, ?Eq, ?Ef, ?Ew, ?En, ?Eu, ?Ea, ?El, ?Ed, ?Ej', ?Hh1, ?Hh2, ?Hh3; try assumption.
  - destruct Itail; [constructor | assumption].
  - (* li_head *) intros j0 r Ejr Hst. rewrite Ejr in Itail. apply Forall_inv in Itail. congruence.
Qed.

(** a lockstep lifetime has no manual FLUSH, so no job of an empty memtable *)
Lemma lock_head_nonempty : forall c P D s j rest, lock_inv c P D s -> jobs s = j :: rest -> jevs j <> [].
Proof.
  intros c P D s j rest HI Ej. pose proof (li_jobs _ _ _ _ HI) as Hj. rewrite Ej in Hj. apply Hj.
Qed.

Lemma lock_fw : forall c P D s l, lock_inv c P D s -> lock_inv c P D (fw_step s l).
Proof.
  intros c P D s l HI. destruct (fw_step_cases s l) as [->|(j & rest & Ej & C)]; [exact HI|].
  pose proof (lock_head_nonempty _ _ _ _ _ _ HI Ej) as Hne.
  pose proof (li_head _ _ _ _ HI j rest Ej) as Hhead.
  destruct C as [Est|Est|u Est _ _|Est _ Hall|Est|Est|id Est _ Hid|_ He|Est _|[Est|[_ He]]].
  - (* FwBegin: no directory [jseg j] exists yet *)
    eapply lock_adv; [exact HI | exact Ej | reflexivity | reflexivity | discriminate | intros _; rewrite Est; reflexivity | discriminate |].
    assert (Edb : dirbound (jobs s) (alloc0 s) = jseg j) by (rewrite Ej; cbn [dirbound]; rewrite Est; reflexivity).
    intros _ e _ Hu. rewrite has_uid_none in Hu; [discriminate|].
    intros d Hd. apply (li_dirs _ _ _ _ HI) in Hd. lia.
  - eapply lock_add_rows; [exact HI | exact Ej | exact Est | intros e _ H; discriminate H].
  - eapply lock_add_rows; [exact HI | exact Ej | exact Est |].
    intros e He Hu. apply existsb_exists in Hu as (x & Hx & Hxu). apply filter_In in Hx as [_ Hx].
    apply N.eqb_eq in Hx, Hxu. apply filter_In. split; [apply flush_order_in, He | apply N.eqb_eq; congruence].
  - (* FwIndex: every type of the job is in its directory *)
    eapply lock_adv; [exact HI | exact Ej | reflexivity | reflexivity | | discriminate | discriminate | discriminate].
    intros _. right. intros e He. apply (Hhead Est e He). rewrite <- dir_has_uid_dirs.
    rewrite forallb_forall in Hall. apply Hall, memb_true, uids_of_in, He.
  - eapply lock_adv; [exact HI | exact Ej | reflexivity | reflexivity | rewrite Est; auto | discriminate | discriminate | discriminate].
  - eapply lock_adv; [exact HI | exact Ej | reflexivity | reflexivity | rewrite Est; auto | discriminate | discriminate | discriminate].
  - apply lock_prune; [exact HI | exact Ej | exact Est | reflexivity | intros i Hi; apply N.eqb_eq in Hi; lia |].
    intros Hu. apply N.eqb_eq in Hu. lia.
  - contradiction.
  - apply lock_prune; [exact HI | exact Ej | exact Est | reflexivity | intros i Hi; apply N.ltb_lt in Hi; lia |].
    intros Hu. apply andb_true_iff in Hu as [Hu _]. apply N.ltb_lt in Hu. lia.
  - eapply lock_done; [exact HI | exact Ej | exact Est | reflexivity | reflexivity].
  - contradiction.
Qed.

Definition lockstep_label (l : label) : bool :=
  match l with LFlushCmd | LCrash | LRestart => false | _ => true end.
Definition lockstep (ls : list label) : bool := forallb lockstep_label ls.

(** The WAL thread checks for a rotation right after each write
    ([entries_written >= capacity] in wal_handle.rs), so in a trace of one lifetime
    it never writes while a rotation is due.  Label lists that break this program
    order are not traces of the engine; see [lockstep_needs_wal_order_refuted]. *)
Fixpoint wal_ordered (s : shard) (ls : list label) : bool :=
  match ls with
  | [] => true
  | l :: r => (match l with LWalWrite => wcnt s <? cap s | _ => true end) && wal_ordered (step s l) r
  end.

Lemma lock_step : forall c P D s l,
  lock_inv c P D s -> lockstep_label l = true -> (l = LWalWrite -> wcnt s < c) ->
  lock_inv c (P ++ stored [l]) (D ++ written_by (walq s) l) (step s l).
Proof.
  intros c P D s l HI Hl Hw. destruct l as [e0| | | |f| |]; try discriminate Hl; cbn [step stored].
  - cbn [written_by]. rewrite app_nil_r. apply lock_store, HI.
  - rewrite app_nil_r. apply lock_wal_write; [exact HI|apply Hw; reflexivity].
  - cbn [written_by]. rewrite !app_nil_r. apply lock_wal_rotate, HI.
  - cbn [written_by]. rewrite !app_nil_r. apply lock_fw, HI.
Qed.

Lemma lock_run_from : forall ls c P D s, lock_inv c P D s ->
  lockstep ls = true -> wal_ordered s ls = true ->
  lock_inv c (P ++ stored ls) (D ++ durable_from (walq s) ls) (run s ls).
Proof.
  induction ls as [|l r IH]; intros c P D s HI Hl Ho; [cbn [stored durable_from]; rewrite !app_nil_r; exact HI|].
  cbn [lockstep forallb wal_ordered] in Hl, Ho. apply andb_true_iff in Hl as [Hl Hlr], Ho as [Ho Hor].
  rewrite stored_cons. cbn [durable_from run fold_left]. rewrite !app_assoc, <- walq_step.
  apply IH; [apply lock_step; [exact HI | exact Hl |] | exact Hlr | exact Hor].
  intros ->. apply N.ltb_lt in Ho. rewrite (li_cap _ _ _ _ HI) in Ho. exact Ho.
Qed.

Lemma lock_run : forall c ls, 0 < c ->
  lockstep ls = true -> wal_ordered (init c) ls = true ->
  lock_inv c (stored ls) (durable ls) (run (init c) ls).
Proof. intros c ls Hc. apply (lock_run_from ls c [] [] (init c)), lock_init, Hc. Qed.

Theorem lockstep_wlost_in_dirs : forall c ls, 0 < c ->
  lockstep ls = true -> wal_ordered (init c) ls = true ->
  forall e, In e (wlost (run (init c) ls)) -> In e (drows (dirs (run (init c) ls))).
Proof. intros c ls Hc Hl Ho. exact (li_lost _ _ _ _ (lock_run c ls Hc Hl Ho)). Qed.

Theorem lockstep_no_loss : forall c ls, 0 < c ->
  lockstep ls = true -> wal_ordered (init c) ls = true ->
  forall e, In e (durable ls) -> recoverable (run (init c) ls) e.
Proof.
  intros c ls Hc Hl Ho e He. destruct (safe_run c ls e He) as [H|H]; [|exact H].
  right. eapply lockstep_wlost_in_dirs; eassumption.
Qed.

Theorem exactly_once_after_first_crash : forall c ls e, 0 < c ->
  lockstep ls = true -> wal_ordered (init c) ls = true ->
  NoDup (map ek (stored ls)) -> In e (durable ls) ->
  occ e (select (restart (crash (run (init c) ls))) (euid e)) = 1%nat /\
  occ e (select (restart (run (init c) ls)) (euid e)) = 1%nat.
Proof.
  intros c ls e Hc Hl Ho Hn He. apply recoverable_read_once; [exact Hn|]. eapply lockstep_no_loss; eassumption.
Qed.

(** at every log-file deletion the WAL thread is idle (queue drained, no rotation due): the guard under
    which nothing reaches the ghost list ([lockstep_wlost_empty] in ShardC01RestartProofs) *)
Fixpoint wal_idle_at_prune (s : shard) (ls : list label) : bool :=
  match ls with
  | [] => true
  | l :: r =>
      (match l with
       | LFw (FwWalDel _) | LFw FwWalClean => is_empty (walq s) && (wcnt s <? cap s)
       | _ => true
       end) && wal_idle_at_prune (step s l) r
  end.

Definition prune_ok (s : shard) (l : label) : bool :=
  match l with
  | LFw (FwWalDel _) | LFw FwWalClean => is_empty (walq s) && (wcnt s <? cap s)
  | _ => true
  end.

Lemma wal_idle_at_prune_cons : forall s l r,
  wal_idle_at_prune s (l :: r) = prune_ok s l && wal_idle_at_prune (step s l) r.
Proof. reflexivity. Qed.

(** ** COUNT after recovery *)

Lemma dedup_len : forall l seen, len (dedup_ev l seen) <= len l.
Proof.
  induction l as [|x r IH]; intros seen; cbn [dedup_ev]; [lia|].
  destruct (memb (ek x) seen); rewrite ?len_cons.
  - specialize (IH seen). lia.
  - specialize (IH (ek x :: seen)). lia.
Qed.

Lemma of_uid_len : forall u l, len (of_uid u l) <= len l.
Proof.
  induction l as [|x r IH]; cbn [of_uid filter]; [lia|]. fold (of_uid u r).
  destruct (euid x =? u); rewrite ?len_cons; lia.
Qed.

Lemma count_typed : forall s u, count s u = len (of_uid u (mem_rows s)) + len (of_uid u (seg_rows s)).
Proof. exact ShardC03Proofs.count_typed. Qed.

Theorem count_is_scan : forall s u, count s u = len (scan s u).
Proof. exact count_scan. Qed.

Theorem count_ge_select : forall s u, len (select s u) <= count s u.
Proof.
  intros s u. rewrite count_is_scan. unfold select. apply dedup_len.
Qed.

Theorem count_exact_when_ids_distinct : forall s u,
  NoDup (map ek (scan s u)) -> count s u = len (select s u).
Proof. exact count_select. Qed.

Theorem count_after_restart : forall s u,
  count (restart (crash s)) u = len (of_uid u (frows (walfiles s))) + len (of_uid u (drows (dirs s))) /\
  count (restart s) u = len (of_uid u (frows (walfiles s))) + len (of_uid u (drows (dirs s))).
Proof.
  intros s u. rewrite restart_crash, count_is_scan, scan_restart, of_uid_app, len_app. split; reflexivity.
Qed.

Lemma durable_nodup : forall ls, NoDup (map ek (stored ls)) -> NoDup (durable ls).
Proof.
  intros ls Hn. apply NoDup_map_inv, durable_pending_nodup, nodup_app in Hn. tauto.
Qed.

Theorem count_covers_durable : forall c ls u,
  NoDup (map ek (stored ls)) ->
  (forall e, In e (durable ls) -> ~ In e (wlost (run (init c) ls))) ->
  len (of_uid u (durable ls)) <= len (select (restart (crash (run (init c) ls))) u) /\
  len (select (restart (crash (run (init c) ls))) u) <= count (restart (crash (run (init c) ls))) u.
Proof.
  intros c ls u Hn Hl. split; [|apply count_ge_select].
  assert (Hle : (length (of_uid u (durable ls)) <= length (select (restart (crash (run (init c) ls))) u))%nat).
  { apply NoDup_incl_length.
    - unfold of_uid. apply NoDup_filter, durable_nodup, Hn.
    - intros e He. apply of_uid_in in He. destruct He as [He <-].
      destruct (survives_unless_pruned c ls e Hn He (Hl e He)) as [H _].
      unfold occ in H. apply (count_occ_In ev_eq_dec). lia. }
  unfold len. lia.
Qed.

Definition one_lifetime (ls : list label) : bool :=
  forallb (fun l => match l with LCrash | LRestart => false | _ => true end) ls.
Definition no_manual_flush (ls : list label) : bool :=
  forallb (fun l => match l with LFlushCmd => false | _ => true end) ls.

Lemma one_lifetime_no_crash : forall ls, one_lifetime ls = true <-> no_crash ls.
Proof.
  intros ls. unfold one_lifetime, no_crash. induction ls as [|l r IH]; cbn [forallb]; [reflexivity|].
  rewrite !andb_true_iff, IH. destruct l; cbn [is_crash negb]; reflexivity.
Qed.

Module Traces.
  Definition E (k : N) : event := mkEv k 0 0.
  Definition S (k : N) : label := LStore (E k).
  Definition W := LWalWrite.
  Definition Wr := LWalRotate.
  Definition fb := LFw FwBegin.
  Definition fm := LFw FwMkdir.
  Definition fw0 := LFw (FwWrite 0).
  Definition fi := LFw FwIndex.
  Definition fp := LFw FwPublish.
  Definition fc := LFw FwClear.
  Definition wd (n : N) := LFw (FwWalDel n).
  Definition fx := LFw FwWalClean.
  Definition fd := LFw FwDone.
  Definition K := LCrash.
  Definition T := LRestart.

  (** cap 4: three events, manual FLUSH run to completion, a fourth event *)
  Definition manual_flush : list label :=
    [S 1; W; S 2; W; S 3; W; LFlushCmd; fb; fm; fw0; fi; fp; fc; fx; fd; S 4; W].

  (** cap 4, no manual FLUSH: crash during the second WAL rotation, restart,
      further stores and rotations (the trace observed on the engine) *)
  Definition id_drift : list label :=
    [S 1; W; S 2; W; S 3; W; S 4; fb; W; Wr; fm; fw0; fi; fp; fc; wd 0; fx; fd;
     S 5; W; S 6; W; S 7; W; S 8; fb; fm; W; Wr; K; T;
     S 9; fb; W; fm; fw0; fi; fp; fc; wd 2; wd 1; fx; fd;
     S 10; W; S 11; W; S 12; W; Wr; S 13; W; fb; fm; fw0; fi; fp; fc; wd 3; fx; fd;
     S 14; W; S 15; W; S 16; W; Wr].

  (** cap 2, the same drift in its shortest form: crash after the directory of an
      unfinished flush was created; the restart takes the next segment id from the
      directory list (1) but the WAL id from the log files (0) *)
  Definition id_drift_short : list label :=
    [S 1; S 2; W; fb; fm; K; T; S 3; W; Wr; fb; fm; fw0; fi; fp; fc; fx; fd; S 4; W].

  (** cap 2, not a trace of the engine: a third write without the due rotation *)
  Definition unordered : list label :=
    [S 1; W; S 2; W; S 3; W; fb; fm; fw0; fi; fp; fc; fx; fd].

  (** cap 2: the flush worker finishes before the WAL thread has written anything *)
  Definition flush_outruns_wal : list label :=
    [S 1; S 2; fb; fm; fw0; fi; fp; fc; fx; fd; W; W; Wr].

  (** cap 2: a full cycle in lockstep, a second batch half way, one event not yet written *)
  Definition lockstep_ok : list label :=
    [S 1; W; S 2; W; Wr; fb; fm; fw0; fi; fp; fc; wd 0; fx; fd; S 3; W; S 4; W; Wr; fb; fm; fw0; S 5].

  (** cap 2, two event types: the first memtable holds one event of each type *)
  Definition two_types : list label :=
    [LStore (mkEv 1 0 0); LStore (mkEv 2 0 1); LStore (mkEv 3 0 1); W; W; Wr; W].

  (** cap 2, one type: the directory is written, the log not yet pruned *)
  Definition leftover_dir : list label :=
    [S 1; S 2; W; W; Wr; fb; fm; fw0; fi].
End Traces.

(** manual FLUSH of a partly filled memtable: the flush worker prunes the log file
    the writer still has open; the next acknowledged event is lost by a crash *)
Theorem manual_flush_refuted :
  exists c ls e, 0 < c /\ one_lifetime ls = true /\ wal_ordered (init c) ls = true /\
    NoDup (map ek (stored ls)) /\ In e (durable ls) /\
    occ e (select (restart (crash (run (init c) ls))) (euid e)) = 0%nat /\
    In e (wlost (run (init c) ls)).
Proof.
  exists 4, Traces.manual_flush, (Traces.E 4). by_eval.
Qed.

(** a crash and restart lets segment ids run ahead of WAL file ids; later the open log file is pruned *)
Theorem id_drift_refuted :
  exists c ls e, 0 < c /\ no_manual_flush ls = true /\
    NoDup (map ek (stored ls)) /\ In e (durable ls) /\
    occ e (select (restart (crash (run (init c) ls))) (euid e)) = 0%nat /\
    In e (wlost (run (init c) ls)).
Proof.
  exists 4, Traces.id_drift, (Traces.E 16). by_eval.
Qed.

Theorem id_drift_short_refuted :
  exists c ls e, 0 < c /\ no_manual_flush ls = true /\
    NoDup (map ek (stored ls)) /\ In e (durable ls) /\
    occ e (select (restart (crash (run (init c) ls))) (euid e)) = 0%nat /\
    In e (wlost (run (init c) ls)).
Proof.
  exists 2, Traces.id_drift_short, (Traces.E 4). by_eval.
Qed.

Theorem durable_exactly_once_refuted :
  ~ (forall c ls e, 0 < c -> NoDup (map ek (stored ls)) -> In e (durable ls) ->
       occ e (select (restart (crash (run (init c) ls))) (euid e)) = 1%nat).
Proof.
  intros H. destruct manual_flush_refuted as (c & ls & e & Hc & _ & _ & Hn & Hd & H0 & _).
  rewrite (H c ls e Hc Hn Hd) in H0. discriminate.
Qed.

Theorem lockstep_needs_wal_order_refuted :
  exists c ls e, 0 < c /\ lockstep ls = true /\ wal_ordered (init c) ls = false /\
    NoDup (map ek (stored ls)) /\ In e (durable ls) /\
    occ e (select (restart (crash (run (init c) ls))) (euid e)) = 0%nat.
Proof.
  exists 2, Traces.unordered, (Traces.E 3). by_eval.
Qed.

(** in the lockstep fragment the ghost list need not be empty (its entries are then in a
    directory, [lockstep_wlost_in_dirs]) *)
Theorem lockstep_wlost_empty_refuted :
  exists c ls, 0 < c /\ lockstep ls = true /\ wal_ordered (init c) ls = true /\
    wlost (run (init c) ls) <> [].
Proof.
  exists 2, Traces.flush_outruns_wal. by_eval.
Qed.

(** COUNT after recovery: the in-memory rows (the replayed WAL) are counted by type, so with events
    of two types in the log COUNT is the selection ... *)
Example count_two_types_exact :
  let c := 2 in let ls := Traces.two_types in let u := 0 in
  0 < c /\ lockstep ls = true /\ wal_ordered (init c) ls = true /\
    NoDup (map ek (stored ls)) /\ wlost (run (init c) ls) = [] /\
    select (restart (crash (run (init c) ls))) u = of_uid u (durable ls) /\
    NoDup (map ek (scan (restart (crash (run (init c) ls))) u)) /\
    count (restart (crash (run (init c) ls))) u = len (select (restart (crash (run (init c) ls))) u).
Proof.
  by_eval.
Qed.

(** ... and rows present in a leftover directory and in the log are counted twice *)
Theorem count_double_refuted :
  exists c ls u, 0 < c /\ lockstep ls = true /\ wal_ordered (init c) ls = true /\
    NoDup (map ek (stored ls)) /\ wlost (run (init c) ls) = [] /\
    select (restart (crash (run (init c) ls))) u = of_uid u (durable ls) /\
    count (restart (crash (run (init c) ls))) u = 2 * len (select (restart (crash (run (init c) ls))) u) /\
    len (select (restart (crash (run (init c) ls))) u) = 2.
Proof.
  exists 2, Traces.leftover_dir, 0. by_eval.
Qed.

(** [survives_unless_pruned]: on a history with a manual FLUSH, a crash and a restart,
    where another event was pruned *)
Example survives_nonvacuous :
  exists c ls e, NoDup (map ek (stored ls)) /\ In e (durable ls) /\ ~ In e (wlost (run (init c) ls)) /\
    one_lifetime ls = false /\ no_manual_flush ls = false /\ wlost (run (init c) ls) <> [].
Proof.
  exists 4, (Traces.manual_flush ++ [LCrash; LRestart; Traces.S 5; LWalWrite]), (Traces.E 5).
  do 2 eval_split. split; [vm_compute; intros [H|[]]; discriminate H | by_eval].
Qed.

(** [count_covers_durable]: a history with a crash and a restart in which nothing durable was pruned *)
Example count_covers_nonvacuous :
  exists c ls u, NoDup (map ek (stored ls)) /\
    (forall e, In e (durable ls) -> ~ In e (wlost (run (init c) ls))) /\
    one_lifetime ls = false /\ of_uid u (durable ls) <> [].
Proof.
  exists 2, (Traces.lockstep_ok ++ [LCrash; LRestart; Traces.S 6; LWalWrite]), 0.
  eval_split. split; [|by_eval].
  replace (wlost _) with (@nil event) by (vm_compute; reflexivity). intros e _ [].
Qed.

(** [no_phantom], [no_phantom_after_crash]: a result can be non-empty *)
Example no_phantom_nonvacuous :
  exists c ls u e, In e (select (run (init c) ls) u) /\ In e (select (restart (crash (run (init c) ls))) u).
Proof.
  exists 2, Traces.lockstep_ok, 0, (Traces.E 3). by_eval.
Qed.

(** the lockstep theorems: a trace with a full flush cycle satisfies every hypothesis *)
Example lockstep_nonvacuous :
  exists c ls e, 0 < c /\ lockstep ls = true /\ wal_ordered (init c) ls = true /\
    wal_idle_at_prune (init c) ls = true /\ NoDup (map ek (stored ls)) /\ In e (durable ls) /\
    dirs (run (init c) ls) <> [] /\ pending ls <> [].
Proof.
  exists 2, Traces.lockstep_ok, (Traces.E 4). by_eval.
Qed.

(** [lockstep_wlost_in_dirs] has a non-empty ghost list to talk about *)
Example wlost_in_dirs_nonvacuous :
  exists c ls e, 0 < c /\ lockstep ls = true /\ wal_ordered (init c) ls = true /\
    In e (wlost (run (init c) ls)).
Proof.
  exists 2, Traces.flush_outruns_wal, (Traces.E 1). by_eval.
Qed.
