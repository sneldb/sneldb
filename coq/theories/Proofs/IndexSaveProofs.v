(** Proofs about Model/IndexSave.v: the save protocol of the code
    ([Params.index_save_steps], regenerated) replaces the index atomically. *)
From Coq Require Import List.
Import ListNotations.
From Snel Require Import Model.IndexSave.

(** Proved by evaluating the regenerated step list, so it stops checking when the protocol
    in the source changes. *)
Lemma save_states (C : Type) (new : C) (i t a : option (cont C)) :
  states new (mkFs i t a) save_steps =
  [mkFs i t a; mkFs i (Some Partial) a; mkFs i (Some (Full new)) a; mkFs (Some (Full new)) None a].
Proof. reflexivity. Qed.

Lemma index_old_or_new (C : Type) (new : C) (i t a : option (cont C)) :
  Forall (fun s => f_idx s = i \/ f_idx s = Some (Full new)) (states new (mkFs i t a) save_steps).
Proof.
  rewrite save_states. repeat (first [apply Forall_nil | apply Forall_cons]); cbn [f_idx]; auto.
Qed.

Lemma index_replaced_atomically :
  forall (C : Type) (old new : C) (t a : option (cont C)),
    Forall (fun s => load s = Some old \/ load s = Some new)
           (states new (mkFs (Some (Full old)) t a) save_steps).
Proof.
  intros C old new t a. eapply Forall_impl; [|apply index_old_or_new].
  intros s [E|E]; unfold load; rewrite E; auto.
Qed.

Lemma index_save_installs_new :
  forall (C : Type) (old new : C) (t a : option (cont C)),
    load (final new (mkFs (Some (Full old)) t a) save_steps) = Some new.
Proof. reflexivity. Qed.

Lemma index_first_save_never_partial :
  forall (C : Type) (new : C) (t a : option (cont C)),
    Forall (fun s => f_idx s = None \/ f_idx s = Some (Full new))
           (states new (mkFs None t a) save_steps).
Proof. intros C new t a. apply index_old_or_new. Qed.

Lemma index_never_partial :
  forall (C : Type) (new : C) (i : option C) (t a : option (cont C)),
    Forall (fun s => f_idx s <> Some Partial)
           (states new (mkFs (option_map Full i) t a) save_steps).
Proof.
  intros C new i t a. eapply Forall_impl; [|apply index_old_or_new].
  intros s [E|E]; rewrite E; destruct i; discriminate.
Qed.

(** Sensitivity: the statement separates the protocols. *)
Lemma backup_first_refuted :
  exists s, In s (states 1 (mkFs (Some (Full 0)) None None) backup_first_steps) /\ load s = None.
Proof.
  exists (mkFs None (Some (Full 1)) (Some (Full 0))). split; [cbn; tauto | reflexivity].
Qed.

Lemma in_place_refuted :
  exists s, In s (states 1 (mkFs (Some (Full 0)) None None) in_place_steps) /\ load s = None.
Proof.
  exists (mkFs (Some Partial) None None). split; [cbn; tauto | reflexivity].
Qed.

Lemma index_save_example :
  map load (states 1 (mkFs (Some (Full 0)) (Some Partial) None) save_steps) = [Some 0; Some 0; Some 0; Some 1] /\
  final 1 (mkFs (Some (Full 0)) (Some Partial) None) save_steps = mkFs (Some (Full 1)) None None.
Proof. split; reflexivity. Qed.
