(** C07: text lemmas — decimal printing followed by the Rust / serde_json readers is the
    identity on integers; results of the integer readers are in range. *)
From Coq Require Import ZArith List Bool Lia.
From Coq Require Import ZifyBool.
From Snel Require Import Base.Bytes Model.Float64 Model.RustText Model.JsonV7 Gen.Params.
From Snel Require Import Proofs.BytesFacts Proofs.DecimalFacts.
Import ListNotations.
Open Scope Z_scope.

Lemma digits_val_ge : forall s acc, 0 <= acc -> acc <= digits_val s acc.
Proof.
  induction s as [|c s IH]; intros acc H; cbn [digits_val]; [lia|].
  specialize (IH (acc * 10 + Z.of_N (digit_val c))). lia.
Qed.

(** the reader's digit test and evaluator against those of Proofs/DecimalFacts.v *)
Lemma all_digits_Forall : forall s, all_digits s = true <-> all_digit s.
Proof.
  induction s as [|c s IH]; cbn [all_digits]; [split; constructor|].
  rewrite andb_true_iff, IH. split; [intros [H1 H2]; constructor; assumption|intros H; inversion H; auto].
Qed.

Lemma digits_val_fold : forall s acc,
  digits_val s (Z.of_N acc) = Z.of_N (fold_left (fun a c => 10 * a + digit_val c)%N s acc).
Proof.
  induction s as [|c s IH]; intros acc; cbn [digits_val fold_left]; [reflexivity|]. rewrite <- IH. f_equal. lia.
Qed.

Definition head_nonzero (ds : bytes) : Prop :=
  match ds with c :: _ => c <> 48%N | [] => False end.

Lemma dec_of_N_spec : forall n,
  all_digits (dec_of_N n) = true /\ digits_val (dec_of_N n) 0 = Z.of_N n /\ dec_of_N n <> [] /\
  ((0 < n)%N -> head_nonzero (dec_of_N n)).
Proof.
  intros n. destruct (dec_of_N_digits n) as (H1 & H2 & H3 & H4).
  split; [apply all_digits_Forall, H1|]. split; [rewrite (digits_val_fold _ 0); f_equal; exact H3|].
  split; [exact H2|]. intros Hp. specialize (H4 Hp). destruct (dec_of_N n); [contradiction|exact H4].
Qed.

Lemma all_digits_head : forall c s, all_digits (c :: s) = true -> is_digit c = true.
Proof. intros c s H. cbn [all_digits] in H. apply andb_true_iff in H. tauto. Qed.

Lemma is_digit_not_sign : forall c, is_digit c = true -> c <> 43%N /\ c <> 45%N.
Proof. intros c H. apply is_digit_range in H. lia. Qed.

Lemma digits_opt_dec : forall n, digits_opt (dec_of_N n) = Some (Z.of_N n).
Proof.
  intros n. destruct (dec_of_N_spec n) as (H1 & H2 & H3 & _). unfold digits_opt.
  destruct (dec_of_N n) as [|c r]; [contradiction|]. rewrite H1, H2. reflexivity.
Qed.

(** The readers match on the literal bytes 43 ('+') and 45 ('-'), and such a [match] reduces only on a byte
    that is a constructor term.  So here, in [parse_i64_nosign] and in [split_sign_nosign], the byte [c] is taken
    apart down to the bits of 43 / 45: every other shape reduces the [match] to its default branch, and the one
    shape left is excluded by the hypothesis. *)
Lemma parse_u64_noplus : forall c r, c <> 43%N ->
  parse_u64 (c :: r) = match digits_opt (c :: r) with
                       | Some v => if v <=? u64_max then Some v else None
                       | None => None end.
Proof.
  intros c r Hc. unfold parse_u64. destruct c as [|p]; [reflexivity|].
  repeat (destruct p as [p|p|]; try reflexivity). contradiction.
Qed.
Lemma parse_i64_nosign : forall c r, c <> 43%N -> c <> 45%N ->
  parse_i64 (c :: r) = match digits_opt (c :: r) with
                       | Some v => if v <=? i64_max then Some v else None
                       | None => None end.
Proof.
  intros c r Hp Hm. unfold parse_i64. destruct c as [|p]; [reflexivity|].
  repeat (destruct p as [p|p|]; try reflexivity); contradiction.
Qed.
Lemma parse_i64_plus : forall r,
  parse_i64 (43%N :: r) = match digits_opt r with
                          | Some v => if v <=? i64_max then Some v else None
                          | None => None end.
Proof. reflexivity. Qed.
Lemma parse_i64_minus : forall r,
  parse_i64 (45%N :: r) = match digits_opt r with
                          | Some v => if v <=? 2 ^ 63 then Some (- v) else None
                          | None => None end.
Proof. reflexivity. Qed.
Lemma parse_u64_plus : forall r,
  parse_u64 (43%N :: r) = match digits_opt r with
                          | Some v => if v <=? u64_max then Some v else None
                          | None => None end.
Proof. reflexivity. Qed.

Lemma parse_u64_dec : forall n, 0 <= n <= u64_max -> parse_u64 (dec_of_Z n) = Some n.
Proof.
  intros n Hn. rewrite dec_of_Z_nonneg by lia.
  destruct (dec_of_N_head (Z.to_N n)) as (c & r & E & Hc). rewrite E.
  destruct (is_digit_not_sign c Hc) as [Hp _].
  rewrite parse_u64_noplus by exact Hp. rewrite <- E, digits_opt_dec, Z2N.id by lia.
  destruct (Z.leb_spec n u64_max); [reflexivity|lia].
Qed.

Lemma parse_i64_dec : forall z, i64_min <= z <= i64_max -> parse_i64 (dec_of_Z z) = Some z.
Proof.
  intros z Hz. unfold i64_min, i64_max in Hz. destruct (Z.ltb_spec z 0) as [Hneg|Hpos].
  - rewrite dec_of_Z_neg by lia. rewrite parse_i64_minus, digits_opt_dec, Z2N.id by lia.
    destruct (Z.leb_spec (- z) (2 ^ 63)); [f_equal; lia|lia].
  - rewrite dec_of_Z_nonneg by lia.
    destruct (dec_of_N_head (Z.to_N z)) as (c & r & E & Hc). rewrite E.
    destruct (is_digit_not_sign c Hc) as [Hp Hm].
    rewrite parse_i64_nosign by assumption. rewrite <- E, digits_opt_dec, Z2N.id by lia.
    unfold i64_max. destruct (Z.leb_spec z (2 ^ 63 - 1)); [reflexivity|lia].
Qed.

Lemma digits_val_nonneg : forall s acc, 0 <= acc -> 0 <= digits_val s acc.
Proof. intros s acc H. pose proof (digits_val_ge s acc H). lia. Qed.

Lemma digits_opt_nonneg : forall s v, digits_opt s = Some v -> 0 <= v.
Proof.
  intros s v H. unfold digits_opt in H. destruct s as [|c r]; [discriminate|].
  destruct (all_digits (c :: r)); [|discriminate]. inversion H. apply digits_val_nonneg. lia.
Qed.

Lemma parse_u64_range : forall s u, parse_u64 s = Some u -> 0 <= u <= u64_max.
Proof.
  intros s u H. unfold parse_u64 in H.
  destruct (digits_opt _) as [v|] eqn:E; [|discriminate].
  destruct (Z.leb_spec v u64_max); [|discriminate]. inversion H. subst.
  split; [eapply digits_opt_nonneg, E|assumption].
Qed.

Lemma parse_i64_inv : forall s z, parse_i64 s = Some z ->
  exists sg ds v, s = sg ++ ds /\ digits_opt ds = Some v /\
    ((sg = [45%N] /\ v <= 2 ^ 63 /\ z = - v) \/ ((sg = [43%N] \/ sg = []) /\ v <= i64_max /\ z = v)).
Proof.
  intros s z H. destruct s as [|c r]; [discriminate H|].
  destruct (N.eq_dec c 45) as [->|Hm]; [|destruct (N.eq_dec c 43) as [->|Hp]].
  - rewrite parse_i64_minus in H. destruct (digits_opt r) as [v|] eqn:E; [|discriminate H].
    destruct (Z.leb_spec v (2 ^ 63)); [|discriminate H]. injection H as <-. exists [45%N], r, v. auto 6.
  - rewrite parse_i64_plus in H. destruct (digits_opt r) as [v|] eqn:E; [|discriminate H].
    destruct (Z.leb_spec v i64_max); [|discriminate H]. injection H as <-. exists [43%N], r, v. auto 7.
  - rewrite parse_i64_nosign in H by assumption. destruct (digits_opt (c :: r)) as [v|] eqn:E; [|discriminate H].
    destruct (Z.leb_spec v i64_max); [|discriminate H]. injection H as <-. exists [], (c :: r), v. auto 7.
Qed.

Lemma parse_i64_range : forall s z, parse_i64 s = Some z -> i64_min <= z <= i64_max.
Proof.
  intros s z H. destruct (parse_i64_inv s z H) as (sg & ds & v & _ & E & [(_ & Hv & ->)|(_ & Hv & ->)]);
    pose proof (digits_opt_nonneg _ _ E); unfold i64_min, i64_max in *; lia.
Qed.

Lemma parse_u64_i64 : forall s u z, parse_u64 s = Some u -> parse_i64 s = Some z -> u = z.
Proof.
  intros [|c r] u z Hu Hi; [discriminate Hu|].
  destruct (N.eq_dec c 45) as [->|Hm]; [discriminate Hu|]. destruct (N.eq_dec c 43) as [->|Hp].
  - rewrite parse_u64_plus in Hu. rewrite parse_i64_plus in Hi. destruct (digits_opt r) as [v|]; [|discriminate Hu].
    destruct (v <=? u64_max), (v <=? i64_max); congruence.
  - rewrite parse_u64_noplus in Hu by exact Hp. rewrite parse_i64_nosign in Hi by assumption.
    destruct (digits_opt (c :: r)) as [v|]; [|discriminate Hu]. destruct (v <=? u64_max), (v <=? i64_max); congruence.
Qed.

Lemma split_sign_nosign : forall c r, c <> 43%N -> c <> 45%N -> split_sign (c :: r) = (false, c :: r).
Proof.
  intros c r Hp Hm. unfold split_sign. destruct c as [|p]; [reflexivity|].
  repeat (destruct p as [p|p|]; try reflexivity); contradiction.
Qed.

Lemma span_digits_all : forall s acc cnt,
  all_digits s = true -> span_digits s acc cnt = (digits_val s acc, cnt + Z.of_nat (length s), []).
Proof.
  induction s as [|c s IH]; intros acc cnt H; cbn [span_digits digits_val length].
  - f_equal. f_equal. lia.
  - cbn [all_digits] in H. apply andb_true_iff in H. destruct H as [H1 H2]. rewrite H1, IH by exact H2.
    f_equal. f_equal. lia.
Qed.

Lemma to_lower_digit : forall c, is_digit c = true -> to_lower c = c.
Proof.
  intros c H. apply is_digit_range in H. unfold to_lower.
  destruct ((65 <=? c)%N && (c <=? 90)%N) eqn:E; [lia|reflexivity].
Qed.

Lemma ndigits_fuel_bounds : forall f x c, c <= ndigits_fuel f x c <= c + Z.of_nat f.
Proof.
  induction f as [|f IH]; intros x c; cbn [ndigits_fuel]; [lia|].
  destruct (x <=? 0); [lia|]. specialize (IH (x / 10) (c + 1)). lia.
Qed.

Lemma dec_mag_int : forall m, 0 <= m < 2 ^ 64 -> dec_mag m 0 = round_mag m 1.
Proof.
  intros m Hm. unfold dec_mag. destruct (Z.leb_spec m 0) as [H0|H0].
  - assert (m = 0) by lia. subst m. reflexivity.
  - pose proof (ndigits_fuel_bounds (S (Z.to_nat (Z.log2 m))) m 0) as Hb. fold (ndigits m) in Hb.
    assert (Hl : Z.log2 m < 64) by (apply Z.log2_lt_pow2; lia).
    destruct (Z.ltb_spec 400 (0 + ndigits m)); [lia|].
    destruct (Z.ltb_spec (0 + ndigits m) (-400)); [lia|].
    cbn [Z.leb Z.compare]. change (10 ^ 0) with 1. rewrite Z.mul_1_r. reflexivity.
Qed.

Lemma parse_f64_unsigned_digits : forall neg s,
  s <> [] -> all_digits s = true -> digits_val s 0 < 2 ^ 64 ->
  parse_f64_unsigned neg s = Some (f64_with_sign neg (round_mag (digits_val s 0) 1)).
Proof.
  intros neg s Hne Hd Hv. destruct s as [|c r]; [contradiction|].
  pose proof (all_digits_head _ _ Hd) as Hc. pose proof (is_digit_range c Hc) as Rc.
  unfold parse_f64_unsigned.
  assert (Hl : lower (c :: r) = c :: lower r) by (unfold lower; cbn [map]; rewrite to_lower_digit by exact Hc; reflexivity).
  rewrite Hl. unfold kw_inf, kw_infinity, kw_nan. cbn [bytes_eqb].
  replace (c =? 105)%N with false by lia. replace (c =? 110)%N with false by lia. cbn [andb orb].
  rewrite span_digits_all by exact Hd.
  assert (Hlen : (0 + Z.of_nat (length (c :: r)) + 0 =? 0) = false) by (cbn [length]; lia).
  rewrite Hlen. unfold f64_of_dec. rewrite dec_mag_int; [reflexivity|].
  split; [apply digits_val_nonneg; lia|exact Hv].
Qed.

Lemma parse_f64_dec : forall z, - 2 ^ 64 < z < 2 ^ 64 -> parse_f64 (dec_of_Z z) = Some (f64_of_int z).
Proof.
  intros z Hz. unfold parse_f64, f64_of_int. destruct (Z.ltb_spec z 0) as [Hneg|Hpos].
  - rewrite dec_of_Z_neg by lia. cbn [split_sign].
    destruct (dec_of_N_spec (Z.to_N (- z))) as (H1 & H2 & H3 & _).
    rewrite parse_f64_unsigned_digits; try assumption; rewrite H2, Z2N.id by lia; [reflexivity|lia].
  - rewrite dec_of_Z_nonneg by lia.
    destruct (dec_of_N_spec (Z.to_N z)) as (H1 & H2 & H3 & _).
    destruct (dec_of_N_head (Z.to_N z)) as (c & r & E & Hc).
    destruct (is_digit_not_sign c Hc) as [Hp Hm].
    rewrite E, split_sign_nosign by assumption. rewrite <- E.
    rewrite parse_f64_unsigned_digits; try assumption; rewrite H2, Z2N.id by lia; [reflexivity|lia].
Qed.

Lemma int_digits_all : forall r acc,
  all_digits r = true -> 0 <= acc -> digits_val r acc <= u64_max ->
  int_digits r acc = (digits_val r acc, 0, false, []).
Proof.
  induction r as [|c r IH]; intros acc Hd Ha Hv; cbn [int_digits digits_val]; [reflexivity|].
  cbn [all_digits] in Hd. apply andb_true_iff in Hd. destruct Hd as [Hc Hr]. rewrite Hc.
  cbn [digits_val] in Hv.
  assert (Hs : 0 <= acc * 10 + Z.of_N (digit_val c)) by lia.
  pose proof (digits_val_ge r _ Hs) as Hge.
  destruct (Z.ltb_spec u64_max (acc * 10 + Z.of_N (digit_val c))); [lia|].
  apply IH; assumption.
Qed.

Lemma parse_number_legacy_digits : forall c r n,
  all_digits (c :: r) = true -> digits_val (c :: r) 0 = n -> 0 <= n <= u64_max -> (c = 48%N -> r = []) ->
  parse_number_legacy false (c :: r) = Some (JU64 n, []).
Proof.
  intros c r n Hd Hv Hn H0. pose proof (all_digits_head _ _ Hd) as Hc.
  cbn [all_digits] in Hd. apply andb_true_iff in Hd. destruct Hd as [_ Hr].
  cbn [digits_val] in Hv. rewrite Z.mul_0_l, Z.add_0_l in Hv.
  unfold parse_number_legacy. rewrite Hc.
  destruct (N.eqb_spec c 48) as [E48|E48].
  - rewrite (H0 E48) in *. subst c. cbn in Hv. subst n. reflexivity.
  - rewrite int_digits_all; [|exact Hr|lia|rewrite Hv; lia].
    rewrite Hv. cbn [number_tail negb]. reflexivity.
Qed.

Lemma parse_number_rt_digits : forall c r n,
  all_digits (c :: r) = true -> digits_val (c :: r) 0 = n -> 0 <= n <= u64_max -> (c = 48%N -> r = []) ->
  parse_number_rt false (c :: r) = Some (JU64 n, []).
Proof.
  intros c r n Hd Hv Hn H0. pose proof (all_digits_head _ _ Hd) as Hc.
  assert (Hb : number_body_rt false (c :: r) = Some (JU64 n, [])).
  { unfold number_body_rt. rewrite span_digits_all by exact Hd. rewrite Hv.
    unfold number_int. destruct (Z.ltb_spec u64_max n); [lia|]. reflexivity. }
  unfold parse_number_rt. rewrite Hc.
  destruct (N.eqb_spec c 48) as [E48|E48]; [|exact Hb].
  rewrite (H0 E48) in *. exact Hb.
Qed.

Lemma parse_json_dec : forall n, 0 <= n <= u64_max -> parse_json (dec_of_Z n) = Some (JU64 n).
Proof.
  intros n Hn. rewrite dec_of_Z_nonneg by lia.
  destruct (dec_of_N_spec (Z.to_N n)) as (H1 & H2 & H3 & H4).
  destruct (dec_of_N_head (Z.to_N n)) as (c & r & E & Hc).
  assert (H0 : c = 48%N -> r = []).
  { intros ->. destruct (Z.eq_dec n 0) as [->|Hnz].
    - cbn in E. inversion E. reflexivity.
    - exfalso. assert (Hp : (0 < Z.to_N n)%N) by lia. specialize (H4 Hp). rewrite E in H4. cbn [head_nonzero] in H4. contradiction. }
  unfold parse_json. rewrite E in *.
  replace (2 * length (c :: r) + 4)%nat with (S (2 * length (c :: r) + 3))%nat by lia.
  cbn [pvalue].
  pose proof (is_digit_range c Hc) as Rc.
  (* a digit is not white space and opens none of the other productions *)
  replace (skip_ws (c :: r)) with (c :: r)
    by (unfold skip_ws, is_json_ws; cbn [drop_while]; replace (_ || _ || _ || _) with false by lia; reflexivity).
  assert (T : (c =? 110)%N = false /\ (c =? 116)%N = false /\ (c =? 102)%N = false /\ (c =? 34)%N = false
              /\ (c =? 45)%N = false) by lia.
  destruct T as (T1 & T2 & T3 & T4 & T5). rewrite T1, T2, T3, T4, T5, Hc.
  rewrite Z2N.id in H2 by lia.
  assert (Hp : parse_number false (c :: r) = Some (JU64 n, [])).
  { unfold parse_number. destruct value_serde_float_roundtrip;
      [apply parse_number_rt_digits|apply parse_number_legacy_digits]; assumption. }
  rewrite Hp. cbn [skip_ws drop_while]. reflexivity.
Qed.

(** one direction of [BytesFacts.bytes_eqb_neq] (an iff) under the same name: in a file that imports this one
    after BytesFacts the unqualified name is this implication *)
Lemma bytes_eqb_neq : forall a b, bytes_eqb a b = false -> a <> b.
Proof. intros a b. apply BytesFacts.bytes_eqb_neq. Qed.
