(** Facts about Model/Shard.v that the shard proof files share: the helpers of the
    model (membership, sorting, the flusher's order), what STORE, the WAL thread's
    labels and the flush worker's step do by cases, and the deciders used by the
    witnesses on concrete histories. *)
From Coq Require Import NArith List Bool Lia Permutation.
From Snel Require Import Model.Shard.
From Snel Require Export Proofs.ListFacts.
Import ListNotations.
Open Scope N_scope.

Lemma len_app {A} (a b : list A) : len (a ++ b) = len a + len b.
Proof. unfold len. rewrite app_length. lia. Qed.
Lemma len_cons {A} (x : A) l : len (x :: l) = len l + 1.
Proof. unfold len. cbn [length]. lia. Qed.
Lemma len_nil {A} : len (@nil A) = 0.
Proof. reflexivity. Qed.

Lemma is_empty_true {T} (l : list T) : is_empty l = true -> l = [].
Proof. destruct l; [reflexivity | discriminate]. Qed.
Lemma is_empty_false {T} (l : list T) : is_empty l = false -> l <> [].
Proof. destruct l; discriminate. Qed.

Lemma memb_true x l : memb x l = true <-> In x l.
Proof. apply (existsb_eqb_In N.eqb N.eqb_eq). Qed.

Lemma memb_false x l : memb x l = false <-> ~ In x l.
Proof. rewrite <- memb_true. destruct (memb x l); split; congruence. Qed.

(** directed forms: [apply] of the equivalences would unify against a whole trace *)
Lemma memb_true_in x l : memb x l = true -> In x l.
Proof. apply memb_true. Qed.
Lemma memb_false_notin x l : memb x l = false -> ~ In x l.
Proof. apply memb_false. Qed.

Lemma memb_cons x y l : memb x (y :: l) = (x =? y) || memb x l.
Proof. reflexivity. Qed.

Lemma memb_app x l l' : memb x (l ++ l') = memb x l || memb x l'.
Proof. apply existsb_app. Qed.

Lemma memb_remove x y l : x <> y -> memb x (remove_n y l) = memb x l.
Proof.
  intros Hne. induction l as [|z r IH]; cbn [remove_n]; [reflexivity|].
  destruct (N.eqb_spec y z) as [->|Hz].
  - rewrite IH, memb_cons. destruct (N.eqb_spec x z); [contradiction | reflexivity].
  - rewrite !memb_cons, IH. reflexivity.
Qed.

Lemma ev_eqb_eq a b : ev_eqb a b = true <-> a = b.
Proof.
  unfold ev_eqb. destruct a as [k1 c1 u1], b as [k2 c2 u2]; cbn [ek ectx euid].
  rewrite !andb_true_iff, !N.eqb_eq. split; [intros [[-> ->] ->]; reflexivity | intros H; inversion H; auto].
Qed.

Lemma insert_sorted_perm x l : Permutation (insert_sorted x l) (x :: l).
Proof.
  apply insert_perm; [reflexivity|]. intros y r. cbn [insert_sorted]. destruct (x <=? y); [left | right]; reflexivity.
Qed.

Lemma insert_sorted_in y x l : In y (insert_sorted x l) <-> y = x \/ In y l.
Proof.
  apply insert_in; [reflexivity|]. intros z r. cbn [insert_sorted]. destruct (x <=? z); [left | right; right]; reflexivity.
Qed.

Lemma sort_n_perm l : Permutation (sort_n l) l.
Proof. apply fold_insert_perm, insert_sorted_perm. Qed.

Lemma sort_n_in y l : In y (sort_n l) <-> In y l.
Proof. split; apply Permutation_in; [|symmetry]; apply sort_n_perm. Qed.

Lemma dedup_n_in y l : In y (dedup_n l) <-> In y l.
Proof.
  induction l as [|z r IH]; cbn [dedup_n In]; [tauto|].
  destruct (memb z r) eqn:Hm; cbn [In]; rewrite IH; [|tauto].
  apply memb_true in Hm. split; [auto | intros [->|H]; auto].
Qed.

Lemma uids_of_in e evs : In e evs -> memb (euid e) (uids_of evs) = true.
Proof.
  intros H. apply memb_true. unfold uids_of. apply sort_n_in, dedup_n_in, in_map, H.
Qed.

Lemma uids_of_iff evs u : In u (uids_of evs) <-> exists e, In e evs /\ euid e = u.
Proof.
  unfold uids_of. rewrite sort_n_in, dedup_n_in, in_map_iff. split; intros (e & H1 & H2); exists e; auto.
Qed.

Lemma insert_by_ctx_perm e l : Permutation (insert_by_ctx e l) (e :: l).
Proof.
  apply insert_perm; [reflexivity|]. intros x r. cbn [insert_by_ctx]. destruct (ectx x <=? ectx e); [right | left]; reflexivity.
Qed.

Lemma flush_order_perm l : Permutation (flush_order l) l.
Proof.
  unfold flush_order.
  assert (G : forall evs acc, Permutation (fold_left (fun acc e => insert_by_ctx e acc) evs acc) (acc ++ evs)).
  { induction evs as [|a r IH]; intros acc; cbn [fold_left]; [rewrite app_nil_r; reflexivity|].
    rewrite IH, insert_by_ctx_perm. cbn [app]. apply Permutation_middle. }
  apply (G l []).
Qed.

Lemma flush_order_in e l : In e (flush_order l) <-> In e l.
Proof.
  split; apply Permutation_in; [apply flush_order_perm | symmetry; apply flush_order_perm].
Qed.

Lemma of_uid_app u a b : of_uid u (a ++ b) = of_uid u a ++ of_uid u b.
Proof. apply filter_app. Qed.

Lemma of_uid_in u l e : In e (of_uid u l) <-> In e l /\ euid e = u.
Proof. unfold of_uid. rewrite filter_In, N.eqb_eq. tauto. Qed.

Lemma of_uid_none u l : (forall e, In e l -> euid e <> u) -> of_uid u l = [].
Proof. intros H. apply filter_none. intros e He. apply N.eqb_neq, H, He. Qed.

Lemma of_uid_all u l : (forall e, In e l -> euid e = u) -> of_uid u l = l.
Proof. intros H. apply filter_all. intros e He. apply N.eqb_eq, H, He. Qed.

Lemma run_snoc s ls l : run s (ls ++ [l]) = step (run s ls) l.
Proof. unfold run. rewrite fold_left_app. reflexivity. Qed.

Definition ins (s : shard) (e : event) : shard :=
  mkShard (cap s) (mem s ++ [e]) (passives s) (inflight s) (live s) (dirs s) (index s)
          (walq s ++ [e]) (walfiles s) (wcur s) (wcnt s) (wunlinked s) (alloc0 s) (jobs s) (wlost s).

Lemma store_cases s e :
  (len (mem s) + 1 < cap s /\ store s e = ins s e) \/
  (cap s <= len (mem s) + 1 /\ store s e = rotate (ins s e)).
Proof.
  unfold store. fold (ins s e). cbn [ins mem]. rewrite len_app. change (len [e]) with 1.
  destruct (N.leb_spec (cap s) (len (mem s) + 1)); auto.
Qed.

(** [wal_append] and [wal_touch] are one update of the listing, which is kept in id order:
    entry [id], empty if there is none, becomes [g] of itself. *)
Fixpoint wal_upd (g : list event -> list event) (files : list (N * list event)) (id : N) : list (N * list event) :=
  match files with
  | [] => [(id, g [])]
  | (i, es) :: r =>
      if i =? id then (i, g es) :: r
      else if id <? i then (id, g []) :: files
      else (i, es) :: wal_upd g r id
  end.

Lemma wal_append_upd files id e : wal_append files id e = wal_upd (fun es => es ++ [e]) files id.
Proof. induction files as [|[i es] r IH]; cbn [wal_append wal_upd]; [|rewrite IH]; reflexivity. Qed.

Lemma wal_touch_upd files id : wal_touch files id = wal_upd (fun es => es) files id.
Proof. induction files as [|[i es] r IH]; cbn [wal_touch wal_upd]; [|rewrite IH]; reflexivity. Qed.

Lemma wal_upd_In g f' files id : In f' (wal_upd g files id) ->
  In f' files \/ exists es, f' = (id, g es) /\ (es = [] \/ In (id, es) files).
Proof.
  induction files as [|[i es] r IH]; cbn [wal_upd In].
  - intros [<-|[]]. right. exists []. auto.
  - destruct (N.eqb_spec i id) as [E|E]; [|destruct (id <? i)]; cbn [In].
    + intros [<-|H]; [|auto]. right. exists es. rewrite E. auto.
    + intros [<-|H]; [|auto]. right. exists []. auto.
    + intros [<-|H]; [auto|]. destruct (IH H) as [H1|(es' & -> & [->|H1])]; [auto | right; exists []; auto | right; exists es'; auto].
Qed.

Lemma wal_upd_has g files id : exists es, In (id, es) (wal_upd g files id).
Proof.
  induction files as [|[i es] r IH]; cbn [wal_upd].
  - exists (g []). left. reflexivity.
  - destruct (N.eqb_spec i id) as [E|E]; [|destruct (id <? i)].
    + exists (g es). left. rewrite E. reflexivity.
    + exists (g []). left. reflexivity.
    + destruct IH as [es' H]. exists es'. right. exact H.
Qed.

Definition wal_put (s : shard) (e : event) (q : list event) : shard :=
  mkShard (cap s) (mem s) (passives s) (inflight s) (live s) (dirs s) (index s) q
          (if wunlinked s then walfiles s else wal_append (walfiles s) (wcur s) e)
          (wcur s) (N.succ (wcnt s)) (wunlinked s) (alloc0 s) (jobs s)
          (if wunlinked s then wlost s ++ [e] else wlost s).

Lemma wal_write_cases s :
  (walq s = [] /\ wal_write s = s) \/ exists e q, walq s = e :: q /\ wal_write s = wal_put s e q.
Proof. unfold wal_write. destruct (walq s) as [|e q]; [left | right; exists e, q]; split; reflexivity. Qed.

Definition wal_next (s : shard) : shard :=
  mkShard (cap s) (mem s) (passives s) (inflight s) (live s) (dirs s) (index s) (walq s)
          (wal_touch (walfiles s) (N.succ (wcur s))) (N.succ (wcur s))
          (wal_count_entries (wal_touch (walfiles s) (N.succ (wcur s)))) false (alloc0 s) (jobs s) (wlost s).

Lemma wal_rotate_cases s :
  (wcnt s < cap s /\ wal_rotate s = s) \/ (cap s <= wcnt s /\ wal_rotate s = wal_next s).
Proof. unfold wal_rotate. destruct (N.leb_spec (cap s) (wcnt s)); auto. Qed.

Lemma crash_disk s :
  walfiles (crash s) = walfiles s /\ dirs (crash s) = dirs s /\ index (crash s) = index s /\ wlost (crash s) = wlost s.
Proof. repeat split. Qed.

(** [restart] reads only what [crash] keeps: a clean stop is a crash *)
Lemma restart_crash s : restart (crash s) = restart s.
Proof. reflexivity. Qed.

Definition core (s : shard) :=
  (mem s, passives s, inflight s, live s, dirs s, index s, jobs s, alloc0 s).

Lemma wal_write_core s : core (wal_write s) = core s.
Proof. destruct (wal_write_cases s) as [[_ ->]|(e & q & _ & ->)]; reflexivity. Qed.

Lemma wal_rotate_core s : core (wal_rotate s) = core s.
Proof. destruct (wal_rotate_cases s) as [[_ ->]|[_ ->]]; reflexivity. Qed.

(** [fw_step] changes at most two of the fields below; its outcomes are written with these updates. *)

Definition set_passives (s : shard) (x : list (N * list event)) : shard :=
  mkShard (cap s) (mem s) x (inflight s) (live s) (dirs s) (index s) (walq s) (walfiles s) (wcur s) (wcnt s)
          (wunlinked s) (alloc0 s) (jobs s) (wlost s).
Definition set_inflight (s : shard) (x : list N) : shard :=
  mkShard (cap s) (mem s) (passives s) x (live s) (dirs s) (index s) (walq s) (walfiles s) (wcur s) (wcnt s)
          (wunlinked s) (alloc0 s) (jobs s) (wlost s).
Definition set_live (s : shard) (x : list N) : shard :=
  mkShard (cap s) (mem s) (passives s) (inflight s) x (dirs s) (index s) (walq s) (walfiles s) (wcur s) (wcnt s)
          (wunlinked s) (alloc0 s) (jobs s) (wlost s).
Definition set_dirs (s : shard) (x : list segdir) : shard :=
  mkShard (cap s) (mem s) (passives s) (inflight s) (live s) x (index s) (walq s) (walfiles s) (wcur s) (wcnt s)
          (wunlinked s) (alloc0 s) (jobs s) (wlost s).
Definition set_index (s : shard) (x : list (N * list N)) : shard :=
  mkShard (cap s) (mem s) (passives s) (inflight s) (live s) (dirs s) x (walq s) (walfiles s) (wcur s) (wcnt s)
          (wunlinked s) (alloc0 s) (jobs s) (wlost s).

(** [unl]: the writer's open file is among the deleted *)
Definition wal_prune (s : shard) (p : N -> bool) (unl : bool) : shard :=
  mkShard (cap s) (mem s) (passives s) (inflight s) (live s) (dirs s) (index s) (walq s)
          (filter (fun f => negb (p (fst f))) (walfiles s)) (wcur s) (wcnt s) (wunlinked s || unl) (alloc0 s) (jobs s)
          (wlost s ++ pruned_unsaved (dirs s) (filter (fun f => p (fst f)) (walfiles s))).

(** the fields of a state written with these updates, with [mkShard], or reached by [rotate], [crash] or [restart] *)
Ltac proj := cbn [set_jobs set_passives set_inflight set_live set_dirs set_index wal_prune
                  ins wal_put wal_next rotate flush_cmd crash restart
                  cap mem passives inflight live dirs index walq walfiles wcur wcnt wunlinked
                  alloc0 jobs wlost jseg jevs jstage sid srows fst snd].

(** the outcomes of a step that does something, [j :: rest] being the flush queue.  [fw_waldel]
    leaves the queue alone; it is written as a stage change to the same stage so that one lemma
    about log-file deletion serves both prune labels. *)
Inductive fw_case (s : shard) (j : job) (rest : list job) : fwlabel -> shard -> Prop :=
| fw_begin : jstage j = StQueued ->
    fw_case s j rest FwBegin
      (set_jobs (set_inflight s (inflight s ++ [jseg j])) (mkJob (jseg j) (jevs j) StBegun :: rest))
| fw_mkdir : jstage j = StBegun ->
    fw_case s j rest FwMkdir (set_dirs s (dir_add_rows (dirs s) (jseg j) []))
| fw_write u : jstage j = StBegun -> memb u (uids_of (jevs j)) = true -> dir_has_uid s (jseg j) u = false ->
    fw_case s j rest (FwWrite u)
      (set_dirs s (dir_add_rows (dirs s) (jseg j) (filter (fun e => euid e =? u) (flush_order (jevs j)))))
| fw_index : jstage j = StBegun -> jevs j <> [] ->
    forallb (dir_has_uid s (jseg j)) (uids_of (jevs j)) = true ->
    fw_case s j rest FwIndex
      (set_jobs (set_index s (index s ++ [(jseg j, uids_of (jevs j))])) (mkJob (jseg j) (jevs j) StIndexed :: rest))
| fw_publish : jstage j = StIndexed ->
    fw_case s j rest FwPublish
      (set_jobs (set_live s (if is_empty (jevs j) || memb (jseg j) (live s) then live s else live s ++ [jseg j]))
                (mkJob (jseg j) (jevs j) StPublished :: rest))
| fw_clear : jstage j = StPublished ->
    fw_case s j rest FwClear
      (set_jobs (set_passives s (if is_empty (jevs j) then passives s else clear_passive (passives s) (jseg j)))
                (mkJob (jseg j) (jevs j) StCleared :: rest))
| fw_waldel id : jstage j = StCleared -> jevs j <> [] -> id < N.succ (jseg j) ->
    fw_case s j rest (FwWalDel id)
      (set_jobs (wal_prune s (fun i => i =? id) (wcur s =? id)) (mkJob (jseg j) (jevs j) StCleared :: rest))
| fw_walclean_none : jstage j = StCleared -> jevs j = [] ->
    fw_case s j rest FwWalClean (set_jobs s (mkJob (jseg j) (jevs j) StWalCleaned :: rest))
| fw_walclean : jstage j = StCleared -> jevs j <> [] ->
    fw_case s j rest FwWalClean
      (set_jobs (wal_prune s (fun i => i <? N.succ (jseg j))
                       ((wcur s <? N.succ (jseg j)) && negb (is_empty (filter (fun f => fst f =? wcur s) (walfiles s)))))
                (mkJob (jseg j) (jevs j) StWalCleaned :: rest))
| fw_done : jstage j = StWalCleaned \/ (jstage j = StBegun /\ jevs j = []) ->
    fw_case s j rest FwDone (set_jobs (set_inflight s (remove_n (jseg j) (inflight s))) rest).

Lemma fw_step_cases s l :
  fw_step s l = s \/ exists j rest, jobs s = j :: rest /\ fw_case s j rest l (fw_step s l).
Proof.
  destruct (jobs s) as [|j rest] eqn:Ej; [left; unfold fw_step; rewrite Ej; reflexivity|].
  enough (fw_step s l = s \/ fw_case s j rest l (fw_step s l)) as [H|H]; [left; exact H | right; eauto |].
  unfold fw_step. rewrite Ej.
  destruct l, (jstage j) eqn:Est; try (left; reflexivity).
  - right. apply fw_begin, Est.
  - right. rewrite <- Ej. apply fw_mkdir, Est.
  - destruct (memb u (uids_of (jevs j))) eqn:Hu; [|left; reflexivity].
    destruct (dir_has_uid s (jseg j) u) eqn:Hd; [left; reflexivity|].
    right. rewrite <- Ej. apply fw_write; assumption.
  - destruct (is_empty (jevs j)) eqn:He; [left; reflexivity|].
    destruct (forallb _ _) eqn:Hall; [|left; reflexivity].
    right. apply fw_index; [exact Est | apply is_empty_false, He | exact Hall].
  - (* the model's two branches are the one outcome of the constructor, here and for FwClear *)
    right. generalize (fw_publish s j rest Est). destruct (is_empty (jevs j)); exact (fun C => C).
  - right. generalize (fw_clear s j rest Est). destruct (is_empty (jevs j)); exact (fun C => C).
  - destruct (is_empty (jevs j)) eqn:He; [left; reflexivity|].
    destruct (N.ltb_spec id (N.succ (jseg j))) as [Hid|Hid]; [|left; reflexivity].
    right. generalize (fw_waldel s j rest id Est (is_empty_false _ He) Hid).
    destruct j as [g v st]. cbn [jstage] in Est. rewrite Est. exact (fun C => C).
  - right. destruct (is_empty (jevs j)) eqn:He.
    + apply fw_walclean_none; [exact Est | apply is_empty_true, He].
    + apply fw_walclean; [exact Est | apply is_empty_false, He].
  - destruct (is_empty (jevs j)) eqn:He; [|left; reflexivity].
    right. apply fw_done. right. split; [exact Est | apply is_empty_true, He].
  - right. apply fw_done. left. exact Est.
Qed.

Lemma fw_queue s l :
  jobs (fw_step s l) = jobs s \/
  exists j rest, jobs s = j :: rest /\
    (jobs (fw_step s l) = rest \/ exists st, jobs (fw_step s l) = mkJob (jseg j) (jevs j) st :: rest).
Proof.
  destruct (fw_step_cases s l) as [->|(j & rest & Ej & C)]; [left; reflexivity|].
  destruct C; try (left; reflexivity); right; exists j, rest; (split; [exact Ej|]); [right; eexists; reflexivity ..|left; reflexivity].
Qed.

Lemma fw_frame s l :
  cap (fw_step s l) = cap s /\ mem (fw_step s l) = mem s /\ walq (fw_step s l) = walq s /\
  wcur (fw_step s l) = wcur s /\ wcnt (fw_step s l) = wcnt s /\ alloc0 (fw_step s l) = alloc0 s.
Proof.
  destruct (fw_step_cases s l) as [->|(j & rest & _ & C)]; [|destruct C]; repeat split.
Qed.

Lemma fw_dirs s l :
  dirs (fw_step s l) = dirs s \/
  exists j rest rows, jobs s = j :: rest /\ jstage j = StBegun /\ incl rows (jevs j) /\
    dirs (fw_step s l) = dir_add_rows (dirs s) (jseg j) rows.
Proof.
  destruct (fw_step_cases s l) as [->|(j & rest & Ej & C)]; [left; reflexivity|].
  destruct C; try (left; reflexivity); right; exists j, rest; eexists; (split; [exact Ej|split; [eassumption|split; [|reflexivity]]]).
  - intros x [].
  - intros x Hx. apply filter_In in Hx. apply flush_order_in, Hx.
Qed.

Lemma fw_files s l :
  (walfiles (fw_step s l) = walfiles s /\ wlost (fw_step s l) = wlost s) \/
  exists p : N -> bool,
    walfiles (fw_step s l) = filter (fun f => negb (p (fst f))) (walfiles s) /\
    wlost (fw_step s l) = wlost s ++ pruned_unsaved (dirs s) (filter (fun f => p (fst f)) (walfiles s)) /\
    dirs (fw_step s l) = dirs s.
Proof.
  destruct (fw_step_cases s l) as [->|(j & rest & _ & C)]; [left; split; reflexivity|].
  destruct C; try (left; split; reflexivity); right; eexists; repeat split.
Qed.

Fixpoint nodupb (l : list N) : bool :=
  match l with [] => true | x :: r => negb (memb x r) && nodupb r end.

Lemma nodupb_sound l : nodupb l = true -> NoDup l.
Proof.
  induction l as [|x r IH]; cbn [nodupb]; intros H; [constructor|].
  apply andb_true_iff in H as [Hx Hr]. apply negb_true_iff, memb_false in Hx. constructor; auto.
Qed.

Lemma inb_In e l : existsb (ev_eqb e) l = true -> In e l.
Proof. intros H. apply existsb_exists in H as (x & Hx & E). apply ev_eqb_eq in E. subst. exact Hx. Qed.

(** A witness is a conjunction of closed facts about a concrete history; each conjunct is
    decided by evaluation, [NoDup] and (non-)membership through their boolean forms.  The form
    is chosen by the shape of the goal: [apply] of one that does not fit, or [split] on an
    equation, makes unification evaluate the history lazily and does not return. *)
Ltac eval_fact :=
  lazymatch goal with
  | |- NoDup _ => apply nodupb_sound
  | |- @In event _ _ => apply inb_In
  | |- @In N _ _ => apply memb_true_in
  | |- ~ @In N _ _ => apply memb_false_notin
  | |- _ => idtac
  end; vm_compute; first [reflexivity | discriminate].
Ltac eval_split := lazymatch goal with |- _ /\ _ => split; [eval_fact|] end.
Ltac by_eval := cbv zeta; repeat eval_split; eval_fact.
