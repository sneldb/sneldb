(** Lemmas about Model/ZoneSel.v, and the zone map [am_fill] with [zone_map_sound], on which the enum-bitmap and
    zone-xor proofs rest. *)
From Coq Require Import NArith List Bool.
From Snel Require Import Model.ZoneSel Proofs.ListFacts Proofs.AssocFacts.
Open Scope N_scope.

Lemma zs_insert_in : forall z s x, In x (zs_insert z s) <-> x = z \/ In x s.
Proof.
  intros z. apply insert_in; [reflexivity|]. intros x r. cbn [zs_insert].
  destruct (N.ltb_spec z x); [auto|]. destruct (N.eqb_spec z x); auto.
Qed.

Lemma zs_union_in : forall a b x, In x (zs_union a b) <-> In x a \/ In x b.
Proof. apply (fold_insert_in zs_insert zs_insert_in). Qed.

Lemma zs_of_list_in : forall l x, In x (zs_of_list l) <-> In x l.
Proof. intros l x. unfold zs_of_list. rewrite (fold_insert_in zs_insert zs_insert_in). cbn [In]. tauto. Qed.

Lemma zs_mem_in : forall z s, zs_mem z s = true <-> In z s.
Proof. exact (existsb_eqb_In N.eqb N.eqb_eq). Qed.

Section AMap.
  Context {A : Type}.

  Lemma am_get_set : forall k k' (v : A) m,
    am_get k (am_set k' v m) = if k =? k' then Some v else am_get k m.
  Proof.
    intros k k' v m. induction m as [|[k2 v2] r IH]; cbn [am_set am_get]; [reflexivity|].
    destruct (k' <? k2); [reflexivity|]. destruct (N.eqb_spec k' k2) as [->|Hne]; cbn [am_get].
    - destruct (k =? k2); reflexivity.
    - rewrite IH. destruct (N.eqb_spec k k2) as [->|_]; [|reflexivity].
      destruct (N.eqb_spec k2 k'); [congruence | reflexivity].
  Qed.

  Lemma am_get_set_same : forall k (v : A) m, am_get k (am_set k v m) = Some v.
  Proof. intros k v m. now rewrite am_get_set, N.eqb_refl. Qed.

  Lemma am_get_set_other : forall k k' (v : A) m, k <> k' -> am_get k (am_set k' v m) = am_get k m.
  Proof. intros k k' v m Hne. rewrite am_get_set. now destruct (N.eqb_spec k k'). Qed.

  Lemma am_get_in : forall k (v : A) m, am_get k m = Some v -> In (k, v) m.
  Proof. apply (assoc_In N.eqb am_get N.eqb_eq); reflexivity. Qed.

  Lemma am_in_get : forall (m : list (N * A)) k v, In (k, v) m -> am_get k m <> None.
  Proof.
    intros m k v Hin. apply (assoc_some_iff N.eqb am_get N.eqb_eq); [reflexivity..|].
    change k with (fst (k, v)). now apply in_map.
  Qed.
End AMap.

(** Zone [z] is filed under key [b] of a map filled by [am_add_zone]; the hour and day maps of Model/Temporal.v
    are such maps. *)
Definition in_bucket (m : list (N * list N)) (b z : N) : Prop :=
  exists s, am_get b m = Some s /\ In z s.

Lemma in_bucket_add_same : forall m k z, in_bucket (am_add_zone k z m) k z.
Proof.
  intros m k z. unfold in_bucket, am_add_zone. rewrite am_get_set_same.
  eexists. split; [reflexivity|]. apply zs_insert_in. now left.
Qed.

Lemma in_bucket_add_mono : forall m k z b z0, in_bucket m b z0 -> in_bucket (am_add_zone k z m) b z0.
Proof.
  intros m k z b z0 [s [Hg Hin]]. unfold in_bucket, am_add_zone.
  destruct (N.eq_dec b k) as [->|Hne].
  - rewrite am_get_set_same. rewrite Hg. eexists. split; [reflexivity|]. apply zs_insert_in. now right.
  - rewrite am_get_set_other by assumption. now exists s.
Qed.

(** A zone map: one summary per zone under the zone's id, asked by filtering the summaries. *)
Definition am_fill {R S} (summ : R -> option S) (zones : list (N * R)) (acc : list (N * S)) : list (N * S) :=
  fold_left (fun m z => match summ (snd z) with Some s => am_set (fst z) s m | None => m end) zones acc.

Lemma am_fill_cons {R S} (summ : R -> option S) z r zs acc :
  am_fill summ ((z, r) :: zs) acc = am_fill summ zs (match summ r with Some s => am_set z s acc | None => acc end).
Proof. reflexivity. Qed.

Lemma am_fill_get {R S} (summ : R -> option S) : forall zones acc zid r,
  NoDup (map fst zones) -> In (zid, r) zones ->
  am_get zid (am_fill summ zones acc) = match summ r with Some s => Some s | None => am_get zid acc end.
Proof.
  assert (Other : forall zones acc zid, ~ In zid (map fst zones) -> am_get zid (am_fill summ zones acc) = am_get zid acc).
  { induction zones as [|[z r0] zs IH]; intros acc zid Hn; cbn [map fst In] in Hn; [reflexivity|].
    rewrite am_fill_cons, IH by tauto.
    destruct (summ r0); [apply am_get_set_other; intros ->; tauto | reflexivity]. }
  induction zones as [|[z r0] zs IH]; intros acc zid r Hnd Hin; [destruct Hin|].
  cbn [map fst] in Hnd. apply NoDup_cons_iff in Hnd as [Hfresh Hnd].
  rewrite am_fill_cons. destruct Hin as [[= -> ->]|Hin].
  - rewrite Other by exact Hfresh. destruct (summ r); [apply am_get_set_same | reflexivity].
  - rewrite (IH _ zid r Hnd Hin). destruct (summ r); [reflexivity|].
    destruct (summ r0); [|reflexivity]. apply am_get_set_other. intros ->. apply Hfresh, (in_map fst _ _ Hin).
Qed.

Theorem zone_map_sound {R S} (summ : R -> option S) (test : S -> bool) zones acc zid r s :
  NoDup (map fst zones) -> In (zid, r) zones -> summ r = Some s -> test s = true ->
  In zid (zs_of_list (map fst (filter (fun e => test (snd e)) (am_fill summ zones acc)))).
Proof.
  intros Hnd Hin Hs Ht. apply zs_of_list_in, in_map_iff. exists (zid, s). split; [reflexivity|].
  apply filter_In. split; [|exact Ht]. apply am_get_in.
  now rewrite (am_fill_get summ zones acc zid r Hnd Hin), Hs.
Qed.

Lemma select_some : forall st op infl all zs,
  bypass st op = false -> select st op infl all (Some zs) = zs.
Proof. intros st op infl all zs H. unfold select. now rewrite H. Qed.

Lemma select_bypass : forall st op infl all r,
  bypass st op = true -> select st op infl all r = all.
Proof. intros st op infl all r H. unfold select. now rewrite H. Qed.

Lemma select_none_op_all : forall st op infl all,
  bypass st op = false -> none_op_all st op = true -> select st op infl all None = all.
Proof. intros st op infl all H1 H2. unfold select. now rewrite H1, H2. Qed.

Lemma bypass_eq : forall st, bypass st OEq = false.
Proof. reflexivity. Qed.

(** [bypass st ONeq] is the strategy's flag in Gen/Params.v itself, and decides for every operator but [=] *)
Lemma bypass_off : forall st op, bypass st ONeq = false -> bypass st op = false.
Proof. intros st op H. unfold bypass in *. cbn [cmp_op_eqb negb andb] in H. rewrite H. apply andb_false_r. Qed.

Lemma bypass_on : forall st op, bypass st ONeq = true -> op <> OEq -> bypass st op = true.
Proof.
  intros st op H Hop. unfold bypass in *. cbn [cmp_op_eqb negb andb] in H. rewrite H.
  destruct op; [congruence | reflexivity ..].
Qed.
