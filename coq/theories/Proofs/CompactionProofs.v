(** Proofs about Model/Compaction.v for C05: compaction changes layout, never content.

    One batch on a well-formed state ([WF]): the state after it is given by what the
    index lists ([listed_after]), the live names ([in_live_after]) and the rows of each
    directory ([ob_rows_of]).  The rows read before and after differ by one multiset
    equation ([obc_perm]); that the same rows are read, and what COUNT reports, follow
    from it.  [WF] holds after a flush-only history ([wf_reachable]) and is kept by a batch
    ([ob_wf]); that a base label keeps it is not proved, so several batches are batches back to back. *)
From Coq Require Import NArith List Bool Lia Permutation.
From Snel Require Import Model.Shard Proofs.ShardC03Proofs Proofs.ShardC04Proofs Model.Compaction.
Import ListNotations.
Open Scope N_scope.

(** [rows_of] below is the model's [Compaction.rows_of] *)
Lemma rows_of_same ds i : ShardC03Proofs.rows_of ds i = rows_of ds i.
Proof. apply rows_of_model. Qed.

Lemma perm_concat_split {A B} (f : A -> list B) (q : A -> bool) (l : list A) :
  Permutation (concat (map f l))
              (concat (map f (filter q l)) ++ concat (map f (filter (fun x => negb (q x)) l))).
Proof.
  rewrite <- !flat_map_concat_map, <- flat_map_app. apply Permutation_flat_map, filter_split_perm.
Qed.

Lemma len_perm {A} (a b : list A) : Permutation a b -> len a = len b.
Proof. intros H. unfold len. rewrite (Permutation_length H). reflexivity. Qed.

Lemma len_nil_iff {A} (l : list A) : len l = 0 <-> l = [].
Proof. destruct l; unfold len; cbn [length]; split; intros H; try reflexivity; try discriminate. Qed.

Lemma of_uid_perm u a b : Permutation a b -> Permutation (of_uid u a) (of_uid u b).
Proof. apply Permutation_filter. Qed.

Definition has_dir (ds : list segdir) (i : N) : Prop := exists d, In d ds /\ sid d = i.

Lemma has_dir_sids ds i : has_dir ds i <-> In i (map sid ds).
Proof. symmetry. apply in_sids. Qed.

Lemma has_dir_add_iff ds seg r i : has_dir (dir_add_rows ds seg r) i <-> has_dir ds i \/ i = seg.
Proof.
  rewrite !has_dir_sids. apply add_rows_sids_iff.
Qed.

Lemma has_dir_add ds seg r i : has_dir ds i -> has_dir (dir_add_rows ds seg r) i.
Proof. intros H. apply has_dir_add_iff. left. exact H. Qed.

Lemma live_rows_scanned s i e : In i (live s) -> In e (rows_of (dirs s) i) -> In e (seg_rows s).
Proof.
  intros Hl He. apply in_rows_of_iff in He as (d & Hd & Hs & He). apply in_seg_rows.
  exists d. subst i. auto.
Qed.

Lemma cp_write_has_dir s b i : has_dir (dirs (cp_write s b)) i <-> has_dir (dirs s) i \/ i = b_out b.
Proof.
  unfold cp_write, has_dir. cbn [dirs]. split.
  - intros (d & Hd & E). apply in_app_iff in Hd as [Hd|[<-|[]]]; [|right; symmetry; exact E].
    apply filter_In in Hd as [Hd _]. left. exists d. auto.
  - assert (Ho : exists d, In d (filter (fun d => negb (sid d =? b_out b)) (dirs s) ++
                   [mkSeg (b_out b) (filter (fun e => negb (memb (euid e) (b_uids b))) (rows_of (dirs s) (b_out b))
                                     ++ batch_rows (dirs s) b)]) /\ sid d = b_out b)
      by (eexists; split; [apply in_app_iff; right; left; reflexivity | reflexivity]).
    intros [(d & Hd & E)| ->]; [|exact Ho].
    destruct (N.eqb_spec (sid d) (b_out b)) as [Eo|Eo]; [rewrite <- E, Eo; exact Ho|].
    exists d. split; [|exact E]. apply in_app_iff. left. apply filter_In.
    split; [exact Hd | apply negb_true_iff, N.eqb_neq, Eo].
Qed.

Lemma cp_write_dirs_fresh s b :
  (forall d, In d (dirs s) -> sid d <> b_out b) ->
  dirs (cp_write s b) = dirs s ++ [mkSeg (b_out b) (batch_rows (dirs s) b)].
Proof.
  intros Hf. unfold cp_write. cbn [dirs]. rewrite (rows_of_no_dir _ _ Hf). cbn [filter app].
  rewrite filter_all; [reflexivity|]. intros d Hd. apply negb_true_iff, N.eqb_neq, Hf, Hd.
Qed.

Lemma cp_reclaim_rows s dr i :
  rows_of (dirs (cp_reclaim s dr)) i = if memb i dr then [] else rows_of (dirs s) i.
Proof.
  unfold cp_reclaim. cbn [dirs]. destruct (memb i dr) eqn:Hm.
  - apply rows_of_no_dir. intros d Hd E. apply filter_In in Hd as [_ Hd]. rewrite E, Hm in Hd. discriminate.
  - apply rows_of_filter. intros d _ E. rewrite E, Hm. reflexivity.
Qed.

Lemma cp_reclaim_has_dir s dr i : has_dir (dirs (cp_reclaim s dr)) i <-> has_dir (dirs s) i /\ ~ In i dr.
Proof.
  unfold cp_reclaim, has_dir. cbn [dirs]. split.
  - intros (d & Hd & E). apply filter_In in Hd as [Hd Hm]. apply negb_true_iff, memb_false in Hm.
    rewrite E in Hm. split; [exists d; auto | exact Hm].
  - intros [(d & Hd & E) Hn]. exists d. split; [|exact E]. apply filter_In. split; [exact Hd|].
    apply negb_true_iff, memb_false. rewrite E. exact Hn.
Qed.

(** * The merge neither drops nor invents rows *)

Lemma merge_rows_perm ds inputs u :
  Permutation (merge_rows ds inputs u) (of_uid u (concat (map (rows_of ds) inputs))).
Proof.
  unfold merge_rows. unfold of_uid at 2. rewrite flush_order_perm, filter_concat, map_map. reflexivity.
Qed.

Lemma merge_rows_in ds inputs u e :
  In e (merge_rows ds inputs u) <-> euid e = u /\ exists i, In i inputs /\ In e (rows_of ds i).
Proof.
  split.
  - intros H. apply (Permutation_in _ (merge_rows_perm ds inputs u)) in H.
    apply of_uid_in in H as [H Hu]. split; [exact Hu|].
    apply in_concat in H as (z & Hz & He). apply in_map_iff in Hz as (i & <- & Hi). eauto.
  - intros (Hu & i & Hi & He). apply (Permutation_in _ (Permutation_sym (merge_rows_perm ds inputs u))).
    apply of_uid_in. split; [|exact Hu]. apply in_concat. exists (rows_of ds i). split; [apply in_map, Hi | exact He].
Qed.

Lemma batch_rows_in ds b e :
  In e (batch_rows ds b) <->
  In (euid e) (b_uids b) /\ exists i, In i (b_inputs b) /\ In e (rows_of ds i).
Proof.
  unfold batch_rows. rewrite in_concat. split.
  - intros (z & Hz & He). apply in_map_iff in Hz as (u & <- & Hu). apply merge_rows_in in He as [E H].
    subst u. auto.
  - intros (Hu & H). exists (merge_rows ds (b_inputs b) (euid e)). split; [apply in_map, Hu|].
    apply merge_rows_in. auto.
Qed.

Theorem rows_multiset : forall ds b u,
  NoDup (b_uids b) -> In u (b_uids b) ->
  Permutation (of_uid u (batch_rows ds b)) (of_uid u (concat (map (rows_of ds) (b_inputs b)))).
Proof.
  intros ds b u Hn Hu. rewrite of_uid_batch_rows_in by assumption. apply merge_rows_perm.
Qed.

Lemma rows_multiset_other : forall ds b u, ~ In u (b_uids b) -> of_uid u (batch_rows ds b) = [].
Proof.
  intros ds b u Hn. apply of_uid_none. intros e He E. apply batch_rows_in in He as [Hu _]. subst u. auto.
Qed.

Definition batch_labels (s : shard) (b : batch) : list clabel :=
  [CWrite b; CIndex b; CLive b (drained (index s) b); CReclaim (drained (index s) b)].

Lemma batch_labels_steps s b : batch_labels s b = batch_steps s b ++ [CReclaim (drained (index s) b)].
Proof. reflexivity. Qed.

Definition run_batch (s : shard) (b : batch) : shard := crun s (batch_labels s b).

Lemma run_batch_mem s b : mem (run_batch s b) = mem s. Proof. reflexivity. Qed.
Lemma run_batch_passives s b : passives (run_batch s b) = passives s. Proof. reflexivity. Qed.
Lemma run_batch_inflight s b : inflight (run_batch s b) = inflight s. Proof. reflexivity. Qed.
Lemma run_batch_jobs s b : jobs (run_batch s b) = jobs s. Proof. reflexivity. Qed.
Lemma run_batch_mem_rows s b : mem_rows (run_batch s b) = mem_rows s. Proof. reflexivity. Qed.

Lemma run_batch_live s b :
  live (run_batch s b) =
  sort_n (filter (fun i => negb (memb i (drained (index s) b))) (live s) ++ [b_out b]).
Proof. reflexivity. Qed.

Lemma run_batch_index s b : index (run_batch s b) = index (cp_index s b).
Proof. reflexivity. Qed.

Lemma run_batch_dirs s b : dirs (run_batch s b) = dirs (cp_reclaim (cp_write s b) (drained (index s) b)).
Proof. reflexivity. Qed.

Definition keep_uids (b : batch) (us : list N) : list N := filter (fun u => negb (memb u (b_uids b))) us.

Lemma keep_uids_in b us u : In u (keep_uids b us) <-> In u us /\ ~ In u (b_uids b).
Proof. unfold keep_uids. rewrite filter_In, negb_true_iff, memb_false. tauto. Qed.

Lemma in_retire ix b i us' :
  In (i, us') (retire ix b) <->
  exists us, In (i, us) ix /\ us' = if memb i (b_inputs b) then keep_uids b us else us.
Proof.
  unfold retire. rewrite in_map_iff. split.
  - intros ([j us] & E & Hin). cbn [fst snd] in E. exists us.
    destruct (memb j (b_inputs b)) eqn:Hm; injection E as <- <-; rewrite Hm; auto.
  - intros (us & Hin & ->). exists (i, us). cbn [fst snd]. split; [|exact Hin].
    destruct (memb i (b_inputs b)); reflexivity.
Qed.

Lemma in_index_labels ix i : In i (index_labels ix) <-> exists us, In (i, us) ix.
Proof.
  unfold index_labels. rewrite in_map_iff. split.
  - intros ([j us] & E & H). cbn [fst] in E. subst j. eauto.
  - intros (us & H). exists (i, us). auto.
Qed.

Lemma retire_labels ix b : index_labels (retire ix b) = index_labels ix.
Proof.
  unfold index_labels, retire. rewrite map_map. apply map_ext. intros [i us]. cbn [fst snd].
  destruct (memb i (b_inputs b)); reflexivity.
Qed.

Lemma index_entry_unique ix i us us' :
  NoDup (index_labels ix) -> In (i, us) ix -> In (i, us') ix -> us = us'.
Proof.
  intros Hn H1 H2. unfold index_labels in Hn.
  assert (E : (i, us) = (i, us')) by (apply (nodup_map_inj_on fst ix Hn); auto). congruence.
Qed.

(** the index lists type [u] for segment [i]: the files of [u] in directory [i] are to be read *)
Definition listed (ix : list (N * list N)) (i u : N) : Prop := exists us, In (i, us) ix /\ In u us.

Lemma listed_retire ix b i u :
  listed (retire ix b) i u <-> listed ix i u /\ ~ (In i (b_inputs b) /\ In u (b_uids b)).
Proof.
  unfold listed. split.
  - intros (us' & Hin & Hu). apply in_retire in Hin as (us & Hin & ->).
    destruct (memb i (b_inputs b)) eqn:Hm.
    + apply keep_uids_in in Hu as [Hu Hn]. split; [eauto | tauto].
    + apply memb_false in Hm. split; [eauto | tauto].
  - intros [(us & Hin & Hu) Hn]. eexists. split; [apply in_retire; eauto|].
    destruct (memb i (b_inputs b)) eqn:Hm; [|exact Hu]. apply memb_true in Hm. apply keep_uids_in. tauto.
Qed.

Lemma in_drained ix b i :
  In i (drained ix b) <->
  In i (b_inputs b) /\ exists us, In (i, us) ix /\ keep_uids b us = [].
Proof.
  unfold drained. rewrite in_map_iff. split.
  - intros ([j us'] & E & Hin). cbn [fst] in E. subst j. apply filter_In in Hin as [Hin Hc].
    cbn [fst snd] in Hc. apply andb_true_iff in Hc as [Hi He]. apply is_empty_true in He.
    apply in_retire in Hin as (us & Hin & E). rewrite Hi in E. apply memb_true in Hi.
    split; [exact Hi|]. exists us. split; [exact Hin | congruence].
  - intros (Hi & us & Hin & He). apply memb_true in Hi. exists (i, []). split; [reflexivity|]. apply filter_In. split.
    + apply in_retire. exists us. rewrite Hi, He. auto.
    + cbn [fst snd]. rewrite Hi. reflexivity.
Qed.

Lemma drained_listed ix b i u :
  NoDup (index_labels ix) -> In i (drained ix b) -> listed ix i u -> In u (b_uids b).
Proof.
  intros Hn Hd (us & Hin & Hu). apply in_drained in Hd as (_ & us2 & Hin2 & He).
  rewrite (index_entry_unique _ _ _ _ Hn Hin2 Hin) in He.
  destruct (in_dec N.eq_dec u (b_uids b)) as [H|H]; [exact H|].
  assert (Hk : In u (keep_uids b us)) by (apply keep_uids_in; auto). rewrite He in Hk. destruct Hk.
Qed.

Lemma drained_nodup ix b : NoDup (index_labels ix) -> NoDup (drained ix b).
Proof.
  intros Hn. unfold drained. apply nodup_map_filter. fold (index_labels (retire ix b)).
  rewrite retire_labels. exact Hn.
Qed.

Lemma in_cp_index s b i us :
  In (i, us) (index (cp_index s b)) <->
  (i, us) = (b_out b, b_uids b) \/
  (i <> b_out b /\ In (i, us) (retire (index s) b) /\ memb i (b_inputs b) && is_empty us = false).
Proof.
  unfold cp_index. cbn [index]. rewrite in_app_iff, !filter_In. cbn [In fst snd]. rewrite !negb_true_iff, N.eqb_neq.
  intuition.
Qed.

Lemma listed_after s b i u :
  listed (index (run_batch s b)) i u <->
  (i = b_out b /\ In u (b_uids b)) \/
  (i <> b_out b /\ listed (index s) i u /\ ~ (In i (b_inputs b) /\ In u (b_uids b))).
Proof.
  rewrite <- listed_retire. unfold listed. rewrite run_batch_index. split.
  - intros (us & Hin & Hu). apply in_cp_index in Hin as [[= -> ->]|(Ho & Hin & _)]; [left; auto | right; eauto].
  - intros [[-> Hu]|(Ho & us & Hin & Hu)]; [exists (b_uids b); split; [apply in_cp_index; left; reflexivity | exact Hu]|].
    exists us. split; [|exact Hu]. apply in_cp_index. right. split; [exact Ho|]. split; [exact Hin|].
    (* an entry that lists a type is not empty *)
    destruct us; [destruct Hu | apply andb_false_r].
Qed.

Lemma cp_index_labels s b i :
  In i (index_labels (index (cp_index s b))) -> i = b_out b \/ In i (index_labels (index s)).
Proof.
  intros H. apply in_index_labels in H as (us & H).
  apply in_cp_index in H as [[= -> _]|(_ & H & _)]; [left; reflexivity | right].
  rewrite <- (retire_labels (index s) b). apply in_index_labels. eauto.
Qed.

Lemma index_after_labels s b i :
  NoDup (index_labels (index s)) ->
  In i (index_labels (index (run_batch s b))) ->
  i = b_out b \/ (In i (index_labels (index s)) /\ ~ In i (drained (index s) b)).
Proof.
  intros Hn H. rewrite run_batch_index in H. apply in_index_labels in H as (us' & Hin).
  apply in_cp_index in Hin as [[= -> _]|(_ & Hin & Hc)]; [left; reflexivity | right].
  rewrite <- (retire_labels _ b) in *. split; [apply in_index_labels; eauto|].
  unfold drained. intros Hd. apply in_map_iff in Hd as ([j us2] & E & Hd). cbn [fst] in E. subst j.
  apply filter_In in Hd as [Hd Hc2]. rewrite (index_entry_unique _ _ _ _ Hn Hd Hin) in Hc2.
  cbn [fst snd] in Hc2. congruence.
Qed.

Lemma index_after_nodup s b : NoDup (index_labels (index s)) -> NoDup (index_labels (index (run_batch s b))).
Proof.
  intros Hn. rewrite run_batch_index. unfold cp_index, index_labels. cbn [index]. rewrite map_app. cbn [map fst].
  apply nodup_snoc.
  - apply nodup_map_filter, nodup_map_filter. fold (index_labels (retire (index s) b)).
    rewrite retire_labels. exact Hn.
  - intros Hy. apply in_map_iff in Hy as (z & E & Hz). apply filter_In in Hz as [_ Hz].
    apply negb_true_iff, N.eqb_neq in Hz. auto.
Qed.

Lemma in_cp_live s b dr i : In i (live (cp_live s b dr)) <-> i = b_out b \/ (In i (live s) /\ ~ In i dr).
Proof.
  unfold cp_live. cbn [live]. rewrite sort_n_in, in_app_iff, filter_In, negb_true_iff, memb_false. cbn [In].
  intuition.
Qed.

Lemma in_live_after s b i :
  In i (live (run_batch s b)) <-> i = b_out b \/ (In i (live s) /\ ~ In i (drained (index s) b)).
Proof. exact (in_cp_live s b _ i). Qed.

Lemma has_dir_after s b i :
  has_dir (dirs (run_batch s b)) i <-> (has_dir (dirs s) i \/ i = b_out b) /\ ~ In i (drained (index s) b).
Proof. rewrite run_batch_dirs, cp_reclaim_has_dir, cp_write_has_dir. reflexivity. Qed.

Lemma labels_of_uid_in ix lvl u i :
  In i (labels_of_uid ix lvl u) -> level_of i = lvl /\ listed ix i u.
Proof.
  unfold labels_of_uid. rewrite sort_n_in, in_map_iff. intros ([j us] & E & H). cbn [fst] in E. subst j.
  apply filter_In in H as [H Hc]. cbn [fst snd] in Hc. apply andb_true_iff in Hc as [Hl Hu].
  apply N.eqb_eq in Hl. apply memb_true in Hu. split; [exact Hl | exists us; auto].
Qed.

Lemma labels_of_uid_nodup ix lvl u : NoDup (index_labels ix) -> NoDup (labels_of_uid ix lvl u).
Proof.
  intros Hn. unfold labels_of_uid. eapply Permutation_NoDup; [symmetry; apply sort_n_perm|].
  apply nodup_map_filter, Hn.
Qed.

Lemma batch_ok_index ix k b :
  batch_ok ix k b = true ->
  (forall u i, In u (b_uids b) -> In i (b_inputs b) -> listed ix i u) /\
  (NoDup (index_labels ix) -> NoDup (b_inputs b)).
Proof.
  intros H. destruct (batch_ok_spec _ _ _ H) as (Hu & _ & lvl & _ & _ & _ & Hsub). split.
  - intros u i Hu0 Hi. apply (Subseq_in _ _ _ (Hsub u Hu0)), labels_of_uid_in in Hi. tauto.
  - intros Hn. destruct (b_uids b) as [|u us]; [contradiction|].
    eapply Subseq_nodup; [apply (Hsub u); left; reflexivity | apply labels_of_uid_nodup, Hn].
Qed.

(** an authoritative copy of [e]: a live segment whose index entry lists the type of [e] holds it *)
Definition Auth (s : shard) (e : event) : Prop :=
  exists j us, In j (live s) /\ In (j, us) (index s) /\ In (euid e) us /\ In e (rows_of (dirs s) j).

Lemma auth_listed t e :
  Auth t e <-> exists j, In j (live t) /\ listed (index t) j (euid e) /\ In e (rows_of (dirs t) j).
Proof.
  unfold Auth, listed. split; [intros (j & us & H1 & H2 & H3 & H4) | intros (j & H1 & (us & H2 & H3) & H4)]; eauto 8.
Qed.

Lemma auth_scanned t e : Auth t e -> In e (seg_rows t).
Proof. intros (j & us & Hl & _ & _ & He). eapply live_rows_scanned; eauto. Qed.

Record WF (s : shard) : Prop := {
  w_dirs : forall i, In i (live s) -> has_dir (dirs s) i;
  w_nd : NoDup (index_labels (index s));
  w_sound : forall i us u, In (i, us) (index s) -> In u us ->
            exists e, In e (rows_of (dirs s) i) /\ euid e = u;
  (* a row of a live directory is listed there, or its type was retired from that
     entry and a live segment listing the type holds the same row *)
  w_auth : forall i e, In i (live s) -> In e (rows_of (dirs s) i) -> Auth s e;
  (* event keys are unique among the scanned rows, up to identical copies: [KeyInj], [w_key_inj] *)
  w_key : forall a b, In a (mem_rows s ++ seg_rows s) -> In b (mem_rows s ++ seg_rows s) ->
          ek a = ek b -> a = b }.

Lemma w_key_inj s : WF s -> KeyInj (mem_rows s ++ seg_rows s).
Proof. exact (w_key s). Qed.

Record BatchPre (k : N) (s : shard) (b : batch) : Prop := {
  bp_ok : batch_ok (index s) k b = true;
  bp_live : forall i, In i (b_inputs b) -> In i (live s);
  bp_fresh : forall d, In d (dirs s) -> sid d <> b_out b }.

Lemma bool_eq_iff (a b : bool) : (a = true <-> b = true) -> a = b.
Proof. destruct a, b; intros [H1 H2]; try reflexivity; [symmetry; auto | auto]. Qed.

Lemma rows_of_list_perm ds l :
  NoDup l ->
  Permutation (concat (map srows (filter (fun d => memb (sid d) l) ds))) (concat (map (rows_of ds) l)).
Proof.
  induction l as [|i r IH]; intros Hn.
  - rewrite filter_none by reflexivity. constructor.
  - apply NoDup_cons_iff in Hn as [Hi Hn]. cbn [map concat].
    rewrite (perm_concat_split srows (fun d => sid d =? i)). rewrite !filter_filter.
    apply Permutation_app.
    + unfold rows_of. erewrite filter_ext_in; [reflexivity|]. intros d _. cbn beta.
      rewrite memb_cons. destruct (sid d =? i); [reflexivity | apply andb_false_r].
    + rewrite <- (IH Hn). erewrite filter_ext_in; [reflexivity|]. intros d _. cbn beta.
      rewrite memb_cons. destruct (N.eqb_spec (sid d) i) as [E|E]; cbn [orb negb]; [|apply andb_true_r].
      rewrite andb_false_r. symmetry. apply memb_false. rewrite E. exact Hi.
Qed.

Definition undrained (s : shard) (b : batch) : list N :=
  filter (fun i => negb (memb i (drained (index s) b))) (b_inputs b).

(** no retired leftovers *)
Definition Exact (s : shard) : Prop :=
  forall i e, In i (live s) -> In e (rows_of (dirs s) i) -> exists us, In (i, us) (index s) /\ In (euid e) us.

(** [ob_...]: the state after the batch, and what is read of it as a set; [obc_...]: the rows read as a
    multiset, from which the equations of COUNT follow. *)
Section OneBatch.
  Variables (k : N) (s : shard) (b : batch).
  Hypothesis W : WF s.
  Hypothesis P : BatchPre k s b.

  Let dr := drained (index s) b.
  Let s' := run_batch s b.

  Lemma ob_out_no_dir : ~ has_dir (dirs s) (b_out b).
  Proof. intros (d & Hd & E). exact (bp_fresh _ _ _ P d Hd E). Qed.

  Lemma ob_out_not_live : ~ In (b_out b) (live s).
  Proof. intros H. apply ob_out_no_dir, (w_dirs _ W), H. Qed.

  Lemma ob_out_not_input : ~ In (b_out b) (b_inputs b).
  Proof. intros H. apply ob_out_not_live, (bp_live _ _ _ P), H. Qed.

  Lemma ob_dr_input i : In i dr -> In i (b_inputs b).
  Proof. intros H. apply in_drained in H. tauto. Qed.

  Lemma ob_out_not_dr : ~ In (b_out b) dr.
  Proof. intros H. apply ob_out_not_input, ob_dr_input, H. Qed.

  Lemma ob_dirs :
    dirs s' = filter (fun d => negb (memb (sid d) dr)) (dirs s) ++ [mkSeg (b_out b) (batch_rows (dirs s) b)].
  Proof.
    unfold s'. rewrite run_batch_dirs. fold dr. unfold cp_reclaim. cbn [dirs].
    rewrite (cp_write_dirs_fresh _ _ (bp_fresh _ _ _ P)), filter_app. cbn [filter sid].
    rewrite (proj2 (memb_false _ _) ob_out_not_dr). reflexivity.
  Qed.

  Lemma ob_rows_of i :
    rows_of (dirs s') i =
    if i =? b_out b then batch_rows (dirs s) b else if memb i dr then [] else rows_of (dirs s) i.
  Proof.
    unfold s'. rewrite run_batch_dirs, cp_reclaim_rows, cp_write_rows. fold dr.
    destruct (N.eqb_spec i (b_out b)) as [->|Ho]; [|destruct (N.eqb_spec (b_out b) i); [congruence | reflexivity]].
    rewrite N.eqb_refl, (proj2 (memb_false _ _) ob_out_not_dr), (rows_of_no_dir _ _ (bp_fresh _ _ _ P)). reflexivity.
  Qed.

  Lemma ob_rows_out : rows_of (dirs s') (b_out b) = batch_rows (dirs s) b.
  Proof. rewrite ob_rows_of, N.eqb_refl. reflexivity. Qed.

  Lemma ob_rows_keep i : i <> b_out b -> ~ In i dr -> rows_of (dirs s') i = rows_of (dirs s) i.
  Proof. intros Ho Hd. rewrite ob_rows_of, (proj2 (N.eqb_neq _ _) Ho), (proj2 (memb_false _ _) Hd). reflexivity. Qed.

  Lemma ob_rows_dr i : In i dr -> rows_of (dirs s') i = [].
  Proof.
    intros Hd. rewrite ob_rows_of, (proj2 (memb_true _ _) Hd).
    destruct (N.eqb_spec i (b_out b)) as [->|_]; [destruct (ob_out_not_dr Hd) | reflexivity].
  Qed.

  Lemma ob_kept i u :
    i <> b_out b -> listed (index s) i u -> ~ (In i (b_inputs b) /\ In u (b_uids b)) ->
    ~ In i dr /\ listed (index s') i u /\ rows_of (dirs s') i = rows_of (dirs s) i.
  Proof.
    intros Ho Hli Hk.
    assert (Hd : ~ In i dr)
      by (intros Hd; apply Hk; split; [apply ob_dr_input, Hd | apply (drained_listed _ _ _ _ (w_nd _ W) Hd Hli)]).
    split; [exact Hd|]. split; [apply listed_after; right; auto | apply ob_rows_keep; assumption].
  Qed.

  (** an authoritative copy stays or moves to the output *)
  Lemma ob_auth e : Auth s e -> Auth s' e.
  Proof.
    rewrite !auth_listed. intros (j & Hl & Hli & He).
    destruct (in_dec N.eq_dec j (b_inputs b)) as [Hj|Hj]; [destruct (in_dec N.eq_dec (euid e) (b_uids b)) as [Hb|Hb]|].
    1:{ exists (b_out b). split; [apply in_live_after; left; reflexivity|]. split; [apply listed_after; left; auto|].
        rewrite ob_rows_out. apply batch_rows_in. eauto. }
    all: destruct (ob_kept j (euid e)) as (Hd & Hli' & Er); [intros ->; apply ob_out_not_live, Hl | exact Hli | tauto|].
    all: exists j; rewrite Er; split; [apply in_live_after; right; auto | auto].
  Qed.

  Lemma obc_memb_live i : i <> b_out b -> ~ In i dr -> memb i (live s') = memb i (live s).
  Proof.
    intros Ho Hd. apply bool_eq_iff. rewrite !memb_true. unfold s'. rewrite in_live_after. fold dr. tauto.
  Qed.

  Lemma obc_seg_rows :
    seg_rows s' =
    concat (map srows (filter (fun d => negb (memb (sid d) dr)) (scanned_dirs s))) ++ batch_rows (dirs s) b.
  Proof.
    unfold seg_rows at 1, scanned_dirs at 1. rewrite ob_dirs.
    rewrite filter_app, map_app, concat_app. f_equal.
    - f_equal. f_equal. unfold scanned_dirs. rewrite !filter_filter. apply filter_ext_in.
      intros d Hd. destruct (memb (sid d) dr) eqn:Hm; cbn [negb andb]; [symmetry; apply andb_false_r|].
      rewrite andb_true_r. rewrite obc_memb_live; [reflexivity | apply (bp_fresh _ _ _ P), Hd | apply memb_false, Hm].
    - cbn [filter sid]. assert (E : memb (b_out b) (live s') = true).
      { apply memb_true. unfold s'. apply in_live_after. left. reflexivity. }
      rewrite E. cbn [orb map concat srows]. apply app_nil_r.
  Qed.

  Lemma obc_perm :
    Permutation (seg_rows s ++ batch_rows (dirs s) b)
                (seg_rows s' ++ concat (map (rows_of (dirs s)) dr)).
  Proof.
    rewrite obc_seg_rows. unfold seg_rows.
    rewrite (perm_concat_split srows (fun d => memb (sid d) dr) (scanned_dirs s)).
    assert (E : filter (fun d => memb (sid d) dr) (scanned_dirs s) = filter (fun d => memb (sid d) dr) (dirs s)).
    { unfold scanned_dirs. rewrite filter_filter. apply filter_ext_in. intros d _.
      destruct (memb (sid d) dr) eqn:Hm; [|apply andb_false_r]. rewrite andb_true_r.
      apply memb_true in Hm. apply ob_dr_input in Hm. apply (bp_live _ _ _ P), memb_true in Hm.
      rewrite Hm. reflexivity. }
    rewrite E, (rows_of_list_perm (dirs s) dr) by (apply drained_nodup, (w_nd _ W)).
    rewrite <- !app_assoc. rewrite Permutation_app_comm, <- !app_assoc. reflexivity.
  Qed.

  (** as sets: the output holds rows of the inputs, a row of a drained directory has an authoritative copy *)
  Lemma ob_seg_rows e : In e (seg_rows s') <-> In e (seg_rows s).
  Proof.
    split; intros H.
    - apply (or_introl (B := In e (concat (map (rows_of (dirs s)) dr)))), in_app_iff in H.
      apply (Permutation_in e (Permutation_sym obc_perm)), in_app_iff in H as [H|H]; [exact H|].
      apply batch_rows_in in H as (_ & i & Hi & H). eapply live_rows_scanned; [apply (bp_live _ _ _ P), Hi | exact H].
    - apply (or_introl (B := In e (batch_rows (dirs s) b))), in_app_iff in H.
      apply (Permutation_in e obc_perm), in_app_iff in H as [H|H]; [exact H|].
      apply in_concat_map in H as (i & Hi & H).
      apply auth_scanned, ob_auth, (w_auth _ W i); [apply (bp_live _ _ _ P), ob_dr_input, Hi | exact H].
  Qed.

  Lemma ob_rows e : In e (mem_rows s' ++ seg_rows s') <-> In e (mem_rows s ++ seg_rows s).
  Proof. rewrite !in_app_iff, ob_seg_rows. reflexivity. Qed.

  Lemma ob_wf : WF s'.
  Proof.
    split.
    - intros i Hi. apply has_dir_after. fold dr. apply in_live_after in Hi as [->|[Hl Hd]].
      + split; [right; reflexivity | exact ob_out_not_dr].
      + split; [left; apply (w_dirs _ W), Hl | exact Hd].
    - apply index_after_nodup, (w_nd _ W).
    - intros i us' u Hix Hu. assert (Hli : listed (index s') i u) by (exists us'; auto).
      apply listed_after in Hli as [[-> Hb]|(Ho & Hli & Hk)].
      + (* the output holds the type's rows of any input; each input lists the type *)
        destruct (batch_ok_spec _ _ _ (bp_ok _ _ _ P)) as (_ & Hne & _).
        destruct (b_inputs b) as [|i0 r] eqn:Hin; [contradiction|].
        assert (Hi0 : In i0 (b_inputs b)) by (rewrite Hin; left; reflexivity).
        destruct (proj1 (batch_ok_index _ _ _ (bp_ok _ _ _ P)) u i0 Hb Hi0) as (us & Hix0 & Hus).
        destruct (w_sound _ W _ _ _ Hix0 Hus) as (e & He & E). exists e. split; [|exact E].
        rewrite ob_rows_out. apply batch_rows_in. rewrite E. eauto.
      + destruct (ob_kept i u Ho Hli Hk) as (_ & _ & ->). destruct Hli as (us & Hix0 & Hus).
        exact (w_sound _ W _ _ _ Hix0 Hus).
    - intros i e Hi He. apply ob_auth. apply in_live_after in Hi as [->|[Hl Hd]].
      + rewrite ob_rows_out in He. apply batch_rows_in in He as (_ & i & Hi & He).
        apply (w_auth _ W i); [apply (bp_live _ _ _ P), Hi | exact He].
      + rewrite ob_rows_keep in He; [|intros E; subst i; apply ob_out_not_live, Hl | exact Hd].
        apply (w_auth _ W i); assumption.
    - intros x y Hx Hy. apply ob_rows in Hx, Hy. apply (w_key _ W); assumption.
  Qed.

  Lemma obc_count_eq u :
    count s' u + len (of_uid u (concat (map (rows_of (dirs s)) dr)))
    = count s u + len (of_uid u (batch_rows (dirs s) b)).
  Proof.
    rewrite !count_typed. pose proof (len_perm _ _ (of_uid_perm u _ _ obc_perm)) as H.
    rewrite !of_uid_app, !len_app in H. change (mem_rows s') with (mem_rows s). lia.
  Qed.

  Lemma obc_inputs_split :
    NoDup (b_inputs b) -> Permutation (b_inputs b) (dr ++ undrained s b).
  Proof.
    intros Hn. apply NoDup_Permutation; [exact Hn | |].
    - apply nodup_app. split; [apply drained_nodup, (w_nd _ W)|]. split; [apply NoDup_filter, Hn|].
      intros x Hx Hx2. apply filter_In in Hx2 as [_ Hc]. apply negb_true_iff, memb_false in Hc. auto.
    - intros x. rewrite in_app_iff. unfold undrained. rewrite filter_In, negb_true_iff, memb_false. fold dr.
      split; [intros Hx; destruct (in_dec N.eq_dec x dr); auto|].
      intros [Hx|[Hx _]]; [apply ob_dr_input, Hx | exact Hx].
  Qed.

  Lemma obc_count_in u :
    NoDup (b_uids b) -> In u (b_uids b) ->
    count s' u = count s u + len (of_uid u (concat (map (rows_of (dirs s)) (undrained s b)))).
  Proof.
    intros Hn Hu. pose proof (obc_count_eq u) as H.
    destruct (batch_ok_index _ _ _ (bp_ok _ _ _ P)) as [_ Hni].
    pose proof (obc_inputs_split (Hni (w_nd _ W))) as Hsp.
    pose proof (len_perm _ _ (rows_multiset (dirs s) b u Hn Hu)) as H2.
    pose proof (Permutation_flat_map (rows_of (dirs s)) Hsp) as Hp. rewrite !flat_map_concat_map in Hp.
    rewrite (len_perm _ _ (of_uid_perm u _ _ Hp)) in H2.
    rewrite map_app, concat_app, of_uid_app, len_app in H2. lia.
  Qed.

  (** another type: COUNT loses the rows of that type held by the drained directories;
      without retired leftovers these hold none *)
  Lemma obc_count_other u : ~ In u (b_uids b) -> Exact s -> count s' u = count s u.
  Proof.
    intros Hu X. pose proof (obc_count_eq u) as H. rewrite (rows_multiset_other _ _ _ Hu), of_uid_none in H.
    - change (len (@nil event)) with 0 in H. lia.
    - intros e He E. apply in_concat_map in He as (i & Hi & He).
      apply Hu. rewrite <- E. apply (drained_listed _ _ i _ (w_nd _ W) Hi).
      exact (X i e (bp_live _ _ _ P i (ob_dr_input i Hi)) He).
  Qed.

  Lemma obc_full_drain u :
    Exact s -> NoDup (b_uids b) -> (forall i, In i (b_inputs b) -> In i dr) -> count s' u = count s u.
  Proof.
    intros X Hn Hall. destruct (in_dec N.eq_dec u (b_uids b)) as [Hu|Hu]; [|exact (obc_count_other u Hu X)].
    rewrite (obc_count_in u Hn Hu). unfold undrained. rewrite filter_none.
    - cbn [map concat of_uid filter]. change (len (@nil event)) with 0. lia.
    - intros i Hi. apply negb_false_iff, memb_true, Hall, Hi.
  Qed.

  Lemma obc_exact : Exact s -> (forall i, In i (b_inputs b) -> In i dr) -> Exact s'.
  Proof.
    intros X Hall i e Hi He. change (listed (index s') i (euid e)). apply listed_after.
    unfold s' in Hi. apply in_live_after in Hi as [->|[Hl Hd]].
    - left. rewrite ob_rows_out in He. apply batch_rows_in in He. tauto.
    - assert (Ho : i <> b_out b) by (intros E; subst i; apply ob_out_not_live, Hl).
      rewrite (ob_rows_keep i Ho Hd) in He. right. split; [exact Ho|]. split; [exact (X i e Hl He)|].
      intros [Hin _]. apply Hd, Hall, Hin.
  Qed.
End OneBatch.

Lemma select_perm_of_rows s t u :
  (forall e, In e (mem_rows t ++ seg_rows t) <-> In e (mem_rows s ++ seg_rows s)) ->
  KeyInj (mem_rows s ++ seg_rows s) -> Permutation (select s u) (select t u).
Proof.
  intros Hset Hk.
  assert (Ks : KeyInj (scan s u)) by (eapply KeyInj_incl; [|exact Hk]; intros x Hx; apply in_scan in Hx; tauto).
  assert (Kt : KeyInj (scan t u)) by (eapply KeyInj_incl; [|exact Hk]; intros x Hx; apply in_scan in Hx as [Hx _]; apply Hset, Hx).
  apply NoDup_Permutation; try apply (NoDup_map_inv ek), select_keys_nodup.
  intros e. rewrite (in_select s u e Ks), (in_select t u e Kt), !in_scan, Hset. reflexivity.
Qed.

Theorem select_preserved : forall k s b,
  WF s -> BatchPre k s b ->
  WF (run_batch s b) /\ forall u, Permutation (select s u) (select (run_batch s b) u).
Proof.
  intros k s b W P. split; [eapply ob_wf; eassumption|].
  intros u. apply select_perm_of_rows; [intros e; eapply ob_rows; eassumption | exact (w_key_inj _ W)].
Qed.

Definition run_batches (s : shard) (bs : list batch) : shard := fold_left run_batch bs s.

Fixpoint batches_pre (k : N) (s : shard) (bs : list batch) : Prop :=
  match bs with
  | [] => True
  | b :: r => BatchPre k s b /\ batches_pre k (run_batch s b) r
  end.

Theorem select_preserved_rounds : forall k bs s,
  WF s -> batches_pre k s bs ->
  WF (run_batches s bs) /\ forall u, Permutation (select s u) (select (run_batches s bs) u).
Proof.
  intros k bs. induction bs as [|b r IH]; intros s W H; cbn [run_batches fold_left].
  - split; [exact W | reflexivity].
  - destruct H as [P H]. destruct (select_preserved k s b W P) as [W1 S1].
    destruct (IH _ W1 H) as [W2 S2]. split; [exact W2|]. intros u. rewrite (S1 u). apply S2.
Qed.

Lemma run_batches_crun s bs :
  run_batches s bs = fold_left (fun t b => crun t (batch_labels t b)) bs s.
Proof. reflexivity. Qed.

Theorem count_after_batch : forall k s b u,
  WF s -> BatchPre k s b -> NoDup (b_uids b) ->
  (In u (b_uids b) ->
     count (run_batch s b) u
     = count s u + len (of_uid u (concat (map (rows_of (dirs s)) (undrained s b))))) /\
  (~ In u (b_uids b) -> Exact s -> count (run_batch s b) u = count s u).
Proof.
  intros k s b u W P Hn. split; [intros Hu; eapply obc_count_in | eapply obc_count_other]; eassumption.
Qed.

Theorem count_preserved_full_drain : forall k s b,
  WF s -> Exact s -> BatchPre k s b -> NoDup (b_uids b) ->
  (forall i, In i (b_inputs b) -> In i (drained (index s) b)) ->
  Exact (run_batch s b) /\ forall u, count (run_batch s b) u = count s u.
Proof.
  intros k s b W X P Hn Hall. split.
  - eapply obc_exact; eassumption.
  - intros u. eapply obc_full_drain; eassumption.
Qed.

Lemma single_type_full_drain s b u :
  b_uids b = [u] ->
  (forall i us, In i (b_inputs b) -> In (i, us) (index s) -> forall v, In v us -> v = u) ->
  (forall i, In i (b_inputs b) -> In i (index_labels (index s))) ->
  forall i, In i (b_inputs b) -> In i (drained (index s) b).
Proof.
  intros Hu Hone Hix i Hi. apply in_drained. split; [exact Hi|].
  apply Hix in Hi as Hl. apply in_index_labels in Hl as (us & Hin). exists us. split; [exact Hin|].
  destruct (keep_uids b us) as [|v r] eqn:Hk; [reflexivity|]. exfalso.
  assert (Hv : In v (keep_uids b us)) by (rewrite Hk; left; reflexivity).
  apply keep_uids_in in Hv as [Hv Hn]. apply Hn. rewrite Hu. left. symmetry. eapply Hone; eauto.
Qed.

(** * A run that stops after the output was written *)

Definition wal_rows (s : shard) : list event := concat (map snd (walfiles s)).

Lemma wal_rows_prows s : wal_rows s = prows (walfiles s).
Proof. reflexivity. Qed.

Definition KeysOkDisk (s : shard) : Prop :=
  forall a b, In a (wal_rows s ++ all_rows (dirs s)) -> In b (wal_rows s ++ all_rows (dirs s)) ->
              ek a = ek b -> a = b.

Lemma keys_ok_disk_inj s : KeysOkDisk s <-> KeyInj (wal_rows s ++ all_rows (dirs s)).
Proof. reflexivity. Qed.

Lemma restart_mem_rows t : mem_rows (restart t) = wal_rows t ++ [].
Proof. rewrite app_nil_r, wal_rows_prows. apply restart_mem. Qed.

Lemma all_rows_app a b : all_rows (a ++ b) = all_rows a ++ all_rows b.
Proof. unfold all_rows. rewrite map_app, concat_app. reflexivity. Qed.

Theorem failed_run_harmless : forall s b,
  (forall d, In d (dirs s) -> sid d <> b_out b) -> KeysOkDisk s ->
  let s1 := crun s [CWrite b; CBase LCrash; CBase LRestart] in
  let s0 := crun s [CBase LCrash; CBase LRestart] in
  index s1 = index s0 /\
  (forall u, Permutation (select s1 u) (select s0 u)) /\
  (forall u, count s1 u = count s0 u + len (of_uid u (batch_rows (dirs s) b))).
Proof.
  intros s b Hf Hk s1 s0. split; [reflexivity|].
  assert (Hm1 : mem_rows s1 = wal_rows s) by (rewrite wal_rows_prows; exact (restart_mem (crash (cp_write s b)))).
  assert (Hm0 : mem_rows s0 = wal_rows s) by (rewrite wal_rows_prows; exact (restart_mem (crash s))).
  assert (Hs1 : seg_rows s1 = all_rows (dirs s) ++ batch_rows (dirs s) b).
  { change s1 with (restart (crash (cp_write s b))). rewrite restart_seg_rows.
    destruct (crash_disk (cp_write s b)) as (_ & -> & _).
    rewrite (cp_write_dirs_fresh _ _ Hf), all_rows_app. unfold all_rows at 2. cbn [map concat srows].
    rewrite app_nil_r. reflexivity. }
  assert (Hs0 : seg_rows s0 = all_rows (dirs s)).
  { change s0 with (restart (crash s)). rewrite restart_seg_rows. reflexivity. }
  split.
  - intros u. symmetry. apply select_perm_of_rows.
    + intros e. rewrite Hm1, Hm0, Hs1, Hs0, !in_app_iff. split; [|tauto].
      intros [H|[H|H]]; auto. right. apply batch_rows_in in H as (_ & i & _ & H).
      eapply rows_of_sub_all, H.
    + rewrite Hm0, Hs0. apply keys_ok_disk_inj, Hk.
  - intros u. rewrite !count_typed. rewrite Hm1, Hm0, Hs1, Hs0, !of_uid_app, !len_app. lia.
Qed.

Theorem failed_run_unread : forall s b,
  (forall d, In d (dirs s) -> sid d <> b_out b) ->
  ~ In (b_out b) (live s) -> ~ In (b_out b) (inflight s) ->
  let s1 := cstep s (CWrite b) in
  index s1 = index s /\ live s1 = live s /\
  forall u, select s1 u = select s u /\ count s1 u = count s u.
Proof.
  intros s b Hf Hl Hi s1. split; [reflexivity|]. split; [reflexivity|].
  assert (E : seg_rows s1 = seg_rows s).
  { unfold seg_rows, scanned_dirs. change (live s1) with (live s). change (inflight s1) with (inflight s).
    change (dirs s1) with (dirs (cp_write s b)). rewrite (cp_write_dirs_fresh _ _ Hf), filter_app.
    cbn [filter sid]. apply memb_false in Hl, Hi. rewrite Hl, Hi. cbn [orb]. rewrite app_nil_r. reflexivity. }
  intros u. rewrite !count_typed. unfold select, scan. rewrite E. split; reflexivity.
Qed.

(** * Flush-only histories reach well-formed states

    The index lists the segments whose entry is written; what it lists is on disk
    with exactly the types of the rotated memtable. *)

Lemma uids_of_inv evs u : In u (uids_of evs) -> exists e, In e evs /\ euid e = u.
Proof. apply uids_of_iff. Qed.

Theorem wf_reachable : forall c ls,
  no_crash ls -> NoDup (map ek (applied ls)) ->
  WF (run (init c) ls) /\ Exact (run (init c) ls).
Proof.
  intros c ls Hc Hk. destruct (reach_run c ls Hc) as (a & W & E & EA). set (s := run (init c) ls) in *.
  assert (Hpw : forall st, published st = true -> written st = true) by (intros []; auto).
  assert (X : Exact s).
  { intros i e Hi He. apply (v_live a s E) in Hi as (g & Hg & <- & Hp). apply (v_rows_of a s E) in He as (g' & Hg' & Ei & _ & He).
    rewrite (gid_inj a W g' g Hg' Hg Ei) in He. exists (uids_of (gevs g)). split.
    - apply (v_index a s E). exists g. auto.
    - apply uids_of_iff. exists e. split; [apply grows_sub, He | reflexivity]. }
  assert (Kk : KeyInj (mem_rows s ++ seg_rows s)) by (eapply KeyInj_incl; [apply (run_rows c ls Hc) | apply KeyInj_nodup, Hk]).
  split; [|exact X]. split.
  - (* w_dirs *) intros i Hi. apply (v_live a s E) in Hi as (g & Hg & <- & Hp). apply has_dir_sids, (v_sids a s E). exists g.
    destruct (k_c _ (seg_ok_in a g W Hg) (Hpw _ Hp)) as (_ & Hw & _). auto.
  - (* w_nd *) apply sorted_lt_nodup, (v_index_sorted a s W E).
  - (* w_sound *) intros i us u Hix Hu. apply (v_index a s E) in Hix as (g & Hg & <- & -> & Hw). apply uids_of_iff in Hu as (e & He & <-).
    pose proof (seg_ok_in a g W Hg) as K. destruct (k_c _ K Hw) as (_ & Hd & _).
    exists e. split; [|reflexivity]. apply (v_rows_of a s E). exists g. repeat split; auto. apply grows_complete; assumption.
  - (* w_auth *) intros i e Hi He. destruct (X i e Hi He) as (us & Hix & Hu). exists i, us. auto.
  - (* w_key *) exact Kk.
Qed.

(** whatever the history, crashes included: log files and directories hold stored events only *)
Lemma keys_ok_disk c ls : NoDup (map ek (applied ls)) -> KeysOkDisk (run (init c) ls).
Proof.
  intros Hk. apply keys_ok_disk_inj. eapply KeyInj_incl; [|apply KeyInj_nodup, Hk].
  intros e He. rewrite wal_rows_prows in He. apply (events_stored c), all_events_In.
  apply in_app_iff in He as [He|He]; [do 4 right | do 5 right]; left; exact He.
Qed.

Theorem keys_ok_disk_reachable : forall c ls,
  no_crash ls -> NoDup (map ek (applied ls)) -> KeysOkDisk (run (init c) ls).
Proof. intros c ls _. apply keys_ok_disk. Qed.

Definition batch_pre_b (k : N) (s : shard) (b : batch) : bool :=
  batch_ok (index s) k b && forallb (fun i => memb i (live s)) (b_inputs b)
  && forallb (fun d => negb (sid d =? b_out b)) (dirs s).

Lemma incl_b_sound (l l' : list N) : forallb (fun i => memb i l') l = true -> forall i, In i l -> In i l'.
Proof. intros H i Hi. rewrite forallb_forall in H. apply memb_true, H, Hi. Qed.

Lemma fresh_b_sound (ds : list segdir) (o : N) :
  forallb (fun d => negb (sid d =? o)) ds = true -> forall d, In d ds -> sid d <> o.
Proof. intros H d Hd. rewrite forallb_forall in H. apply N.eqb_neq, negb_true_iff, H, Hd. Qed.

Lemma batch_pre_b_sound k s b : batch_pre_b k s b = true -> BatchPre k s b.
Proof.
  unfold batch_pre_b. intros H. apply andb_true_iff in H as [H H3]. apply andb_true_iff in H as [H1 H2].
  split; [exact H1 | apply incl_b_sound, H2 | apply fresh_b_sound, H3].
Qed.

Fixpoint batches_pre_b (k : N) (s : shard) (bs : list batch) : bool :=
  match bs with
  | [] => true
  | b :: r => batch_pre_b k s b && batches_pre_b k (run_batch s b) r
  end.

Lemma batches_pre_b_sound k bs : forall s, batches_pre_b k s bs = true -> batches_pre k s bs.
Proof.
  induction bs as [|b r IH]; intros s H; cbn [batches_pre_b batches_pre] in *; [exact I|].
  apply andb_true_iff in H as [H1 H2]. split; [apply batch_pre_b_sound, H1 | apply IH, H2].
Qed.

(** CountAfterPartialDrain.  Capacity 2: segment 0 holds types {0,1}, segment 1 type 0 only; with
    k = 2 the policy plans [0;1] -> 10000 for type 0.  Segment 1 is drained; segment 0 stays live
    for type 1 and keeps the files of type 0. *)
Definition ls_pd : list label :=
  [LStore (mkEv 0 0 0); LStore (mkEv 1 0 1)] ++ flush_all [0; 1] ++
  [LStore (mkEv 2 0 0); LStore (mkEv 3 1 0)] ++ flush_all [0].
Definition b_pd : batch := mkBatch 10000 [0; 1] [0].

Lemma count_partial_drain_refuted :
  exists c ls k b u,
    let s := run (init c) ls in
    no_crash ls /\ NoDup (map ek (applied ls)) /\ BatchPre k s b /\ NoDup (b_uids b) /\ In u (b_uids b) /\
    index s = [(0, [0; 1]); (1, [0])] /\
    drained (index s) b = [1] /\ undrained s b = [0] /\
    live (run_batch s b) = [0; 10000] /\ index (run_batch s b) = [(0, [1]); (10000, [0])] /\
    count s u = 3 /\ count (run_batch s b) u = 4 /\
    select (run_batch s b) u = select s u /\ len (select s u) = 3.
Proof.
  exists 2, ls_pd, 2, b_pd, 0. cbv zeta. do 2 eval_split.
  split; [apply batch_pre_b_sound; vm_compute; reflexivity | by_eval].
Qed.

(** the same batch, stopped after the output was written *)
Lemma failed_run_count_refuted :
  exists c ls b u,
    let s := run (init c) ls in
    let s1 := crun s [CWrite b; CBase LCrash; CBase LRestart] in
    let s0 := crun s [CBase LCrash; CBase LRestart] in
    no_crash ls /\ NoDup (map ek (applied ls)) /\ (forall d, In d (dirs s) -> sid d <> b_out b) /\
    live s1 = [0; 1; 10000] /\ index s1 = index s /\
    select s1 u = select s0 u /\ count s0 u = 3 /\ count s1 u = 6.
Proof.
  exists 2, ls_pd, b_pd, 0. cbv zeta. do 2 eval_split.
  split; [apply fresh_b_sound; vm_compute; reflexivity | by_eval].
Qed.

(** two event types in different subsets of three segments (segment 0 {0,1}, segment 1 {0},
    segment 2 {1}) and one event in the memtable; two batches of the k = 2 policy, the first
    drains segment 0 partially, the second completely *)
Definition ls_3 : list label :=
  ls_pd ++ [LStore (mkEv 4 1 1); LStore (mkEv 5 0 1)] ++ flush_all [1] ++ [LStore (mkEv 6 2 0)].
Definition b_31 : batch := mkBatch 10000 [0; 1] [0].
Definition b_32 : batch := mkBatch 10001 [0; 2] [1].

Example select_preserved_example :
  let s := run (init 2) ls_3 in
  let t := run_batches s [b_31; b_32] in
  no_crash ls_3 /\ NoDup (map ek (applied ls_3)) /\ batches_pre 2 s [b_31; b_32] /\
  index s = [(0, [0; 1]); (1, [0]); (2, [1])] /\ live s = [0; 1; 2] /\
  index t = [(10000, [0]); (10001, [1])] /\ live t = [10000; 10001] /\ map sid (dirs t) = [10000; 10001] /\
  select s 0 = [mkEv 6 2 0; mkEv 0 0 0; mkEv 2 0 0; mkEv 3 1 0] /\ select t 0 = select s 0 /\
  select s 1 = [mkEv 1 0 1; mkEv 5 0 1; mkEv 4 1 1] /\ select t 1 = select s 1 /\
  count s 0 = 4 /\ count (run_batch s b_31) 0 = 5 /\ count t 0 = 4.
Proof.
  cbv zeta. do 2 eval_split. split; [apply batches_pre_b_sound; vm_compute; reflexivity | by_eval].
Qed.

(** a single event type, two segments: the batch drains both inputs *)
Definition ls_fd : list label :=
  [LStore (mkEv 0 1 0); LStore (mkEv 1 0 0)] ++ flush_all [0] ++
  [LStore (mkEv 2 0 0); LStore (mkEv 3 1 0)] ++ flush_all [0] ++ [LStore (mkEv 4 0 0)].

Example count_preserved_full_drain_example :
  let s := run (init 2) ls_fd in
  let b := mkBatch 10000 [0; 1] [0] in
  no_crash ls_fd /\ NoDup (map ek (applied ls_fd)) /\ BatchPre 2 s b /\ NoDup (b_uids b) /\
  (forall i, In i (b_inputs b) -> In i (drained (index s) b)) /\
  live (run_batch s b) = [10000] /\ count s 0 = 5 /\ count (run_batch s b) 0 = 5.
Proof.
  cbv zeta. do 2 eval_split. split; [apply batch_pre_b_sound; vm_compute; reflexivity|]. eval_split.
  split; [apply incl_b_sound; vm_compute; reflexivity | by_eval].
Qed.

Example failed_run_example :
  let s := run (init 2) ls_3 in
  no_crash ls_3 /\ NoDup (map ek (applied ls_3)) /\
  (forall d, In d (dirs s) -> sid d <> b_out b_31) /\
  live (crun s [CWrite b_31; CBase LCrash; CBase LRestart]) = [0; 1; 2; 10000].
Proof.
  cbv zeta. do 2 eval_split. split; [apply fresh_b_sound; vm_compute; reflexivity | by_eval].
Qed.
