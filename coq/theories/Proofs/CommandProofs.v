(** C17 — statements about [parse_command] and the dispatch table. *)
From Coq Require Import NArith ZArith Arith List Bool Lia.
From Snel Require Import Base.Bytes Model.Parser Model.Command Gen.Params.
Import ListNotations.
Open Scope N_scope.

(** * Dispatch: [Batch] is the only variant without an arm (table regenerated from dispatcher.rs) *)

Lemma dispatch_batch_unhandled : dispatch_handled KBatch = false.
Proof. vm_compute. reflexivity. Qed.

Lemma dispatch_others_handled : forall k, k <> KBatch -> dispatch_handled k = true.
Proof. intros [] H; try reflexivity. congruence. Qed.

Definition is_batch (c : command) : bool := match c with CBatch _ => true | _ => false end.

Lemma kind_of_batch_iff : forall c, kind_of c = KBatch <-> is_batch c = true.
Proof. intros []; cbn; split; intro H; try discriminate; auto. Qed.

(** the parse hypothesis plays no part in the proof *)
Lemma parsed_commands_dispatched : forall fx s c, parse_command fx s = POk c -> is_batch c = false ->
  dispatch_handled (kind_of c) = true.
Proof.
  intros fx s c _ Hb. apply dispatch_others_handled. intro E. apply kind_of_batch_iff in E. congruence.
Qed.

Lemma dispatch_refuted : exists k, In k all_kinds /\ dispatch_handled k = false.
Proof. exists KBatch. split; [cbn; tauto|apply dispatch_batch_unhandled]. Qed.

(** BATCH [ PING ] parses (to a batch) and has no dispatch arm *)
Lemma dispatch_refuted_parsed :
  parse_command_cur [66;65;84;67;72;32;91;32;80;73;78;71;32;93] = POk (CBatch [CPing]) /\
  dispatch_handled (kind_of (CBatch [CPing])) = false.
Proof. split; vm_compute; reflexivity. Qed.

(** * Numbers out of range are parse errors: the conversions are fallible grammar actions (sneldb 57cd0c4) *)

Definition txt_limit : bytes :=   (* QUERY e LIMIT 4294967296 *)
  [81;85;69;82;89;32;101;32;76;73;77;73;84;32;52;50;57;52;57;54;55;50;57;54].
Definition txt_offset : bytes :=  (* QUERY e OFFSET -1 *)
  [81;85;69;82;89;32;101;32;79;70;70;83;69;84;32;45;49].
Definition txt_int : bytes :=     (* QUERY e WHERE x = 99999999999999999999 *)
  [81;85;69;82;89;32;101;32;87;72;69;82;69;32;120;32;61;32;57;57;57;57;57;57;57;57;57;57;57;57;57;57;57;57;57;57;57;57].
Definition txt_float : bytes :=   (* QUERY e WHERE x = 1[0 x 309].0 *)
  [81;85;69;82;89;32;101;32;87;72;69;82;69;32;120;32;61;32;49] ++ repeat 48 309 ++ [46;48].

Lemma former_witnesses_rejected :
  parse_command_cur txt_limit = PErr /\ parse_command_cur txt_offset = PErr /\
  parse_command_cur txt_int = PErr /\ parse_command_cur txt_float = PErr.
Proof.
  (* [apply conj], not [split]: [split] on an equation is [apply eq_refl], which would run the lazy machine
     on the 311-digit literal of [txt_float] before [vm_compute] is reached *)
  repeat apply conj; vm_compute; reflexivity.
Qed.

(** the in-range neighbours are accepted: LIMIT 4294967295, x = -9223372036854775808 *)
Lemma limits_accepted :
  (exists q, parse_command_cur [81;85;69;82;89;32;101;32;76;73;77;73;84;32;52;50;57;52;57;54;55;50;57;53] = POk (CQuery q)
             /\ q_limit q = Some 4294967295) /\
  (exists q, parse_command_cur [81;85;69;82;89;32;101;32;87;72;69;82;69;32;120;32;61;32;45;57;50;50;51;51;55;50;48;51;54;56;53;52;55;55;53;56;48;56]
             = POk (CQuery q) /\ q_where q = Some (ECmp [120] OpEq (VInt (-9223372036854775808)))).
Proof. split; eexists; split; vm_compute; reflexivity. Qed.

(** * STORE: a terminated string literal is skipped by the brace scan (sneldb fced25a) *)
Definition clean_json_str (s : bytes) : bool := forallb (fun c => negb (c =? 34) && negb (c =? 92)) s.

Lemma json_str_end_clean : forall s r, clean_json_str s = true -> json_str_end (s ++ 34 :: r) = Some r.
Proof.
  induction s as [|c s IH]; intros r H; cbn [app json_str_end].
  - reflexivity.
  - cbn [clean_json_str forallb] in H. apply andb_prop in H as [Hc H]. apply andb_prop in Hc as [H1 H2].
    apply negb_true_iff in H1, H2. rewrite H1, H2. auto.
Qed.

(** STORE e FOR c PAYLOAD {"a":"}"} : the brace inside the string is data *)
Example store_brace_in_string :
  parse_command_cur [83;84;79;82;69;32;101;32;70;79;82;32;99;32;80;65;89;76;79;65;68;32;123;34;97;34;58;34;125;34;125]
  = POk (CStore [101] [99] [123;34;97;34;58;34;125;34;125]).
Proof. vm_compute. reflexivity. Qed.

(** [{"k":"v"}], matched as a block whatever braces the strings contain ([store_block_with_string]) *)
Definition member_block (k v : bytes) : bytes := 123 :: 34 :: k ++ 34 :: 58 :: 34 :: v ++ [34; 125].

Lemma cur_store_skips_strings : store_skips_strings = true.
Proof. reflexivity. Qed.

Lemma brace_end_string : forall f s r d, clean_json_str s = true ->
  brace_end (S f) (34 :: s ++ 34 :: r) d = brace_end f r d.
Proof.
  intros f s r d Hs. cbn [brace_end]. change (34 =? 123) with false. change (34 =? 125) with false.
  change (34 =? 34) with true. rewrite cur_store_skips_strings. cbn [andb].
  rewrite (json_str_end_clean s r Hs). reflexivity.
Qed.

Lemma brace_end_other : forall f c r d, (c =? 123) = false -> (c =? 125) = false -> (c =? 34) = false ->
  brace_end (S f) (c :: r) d = brace_end f r d.
Proof. intros f c r d H1 H2 H3. cbn [brace_end]. rewrite H1, H2, H3, andb_false_r. reflexivity. Qed.

Lemma brace_end_close : forall f r, brace_end (S f) (125 :: r) 0 = Some r.
Proof. intros. reflexivity. Qed.

Lemma store_block_with_string : forall k v rest, clean_json_str k = true -> clean_json_str v = true ->
  balanced_braces (member_block k v ++ rest) = Some (member_block k v, rest).
Proof.
  intros k v rest Hk Hv. unfold balanced_braces, member_block. cbn [app]. rewrite N.eqb_refl.
  set (r := 34 :: (k ++ 34 :: 58 :: 34 :: v ++ [34; 125]) ++ rest).
  assert (Hlen : (4 <= length r)%nat).
  { unfold r. cbn [length]. rewrite !app_length. cbn [length]. rewrite app_length. cbn [length]. lia. }
  assert (E : brace_end (length r) r 0 = Some rest).
  { destruct (length r) as [|[|[|[|f]]]] eqn:L; try lia. unfold r.
    rewrite <- !app_assoc. cbn [app]. rewrite (brace_end_string _ k _ _ Hk), (brace_end_other _ 58) by reflexivity.
    rewrite <- !app_assoc. cbn [app]. rewrite (brace_end_string _ v _ _ Hv). apply brace_end_close. }
  rewrite E. f_equal. f_equal.
  change (123 :: r) with ((123 :: 34 :: k ++ 34 :: 58 :: 34 :: v ++ [34; 125]) ++ rest).
  rewrite app_length, Nat.add_sub.
  rewrite firstn_app, Nat.sub_diag, firstn_all. cbn [firstn]. apply app_nil_r.
Qed.

Example store_block_example :
  clean_json_str [125; 123; 123] = true /\ member_block [97] [125; 123; 123] = [123;34;97;34;58;34;125;123;123;34;125].
Proof. split; reflexivity. Qed.
