(** Proofs about Model/Cluster.v (C12). *)
From Coq Require Import NArith List Lia Permutation.
From Coq Require Import ZifyBool ZifyNat ZifyN.
From Snel Require Import Base.Bytes Gen.Params Model.EventId Model.SipHash Model.Cluster.
From Snel Require Import Proofs.BytesFacts Proofs.ListFacts Proofs.EventIdProofs Proofs.SipHashProofs.
Import ListNotations.
Open Scope N_scope.

Lemma bytes_eqb_refl : forall a, bytes_eqb a a = true.
Proof. exact BytesFacts.bytes_eqb_refl. Qed.

Definition placed_ok (n : N) (p : N * event) : Prop :=
  route (ev_ctx (snd p)) n = Some (fst p) /\ id_shard (ev_id (snd p)) = shard_component (fst p).

Definition inv (n : N) (st : cluster) : Prop :=
  cl_n st = n /\ Forall (placed_ok n) (cl_log st).

Lemma gen_next_tag : forall g sh rs id g' rs',
  gen_next g sh rs = Some (id, g', rs') -> id_shard id = shard_component sh.
Proof.
  intros g sh rs id g' rs' H. destruct (gen_next_follows _ _ _ _ _ _ H) as (-> & pre & _ & F).
  unfold gid. apply id_shard_pack. exact (follows_seq _ _ _ F).
Qed.

Lemma apply_op_inv : forall n st o, inv n st -> inv n (apply_op st o).
Proof.
  intros n st o [Hn Hlog]. destruct o as [ctx payload clock|]; cbn [apply_op].
  - destruct (route ctx (cl_n st)) as [i|] eqn:Hr; [|split; assumption].
    destruct (gen_next _ i clock) as [[[id g'] rs']|] eqn:Hg; [|split; assumption].
    split; [exact Hn|]. cbn [cl_log]. apply Forall_app. split; [exact Hlog|].
    constructor; [|constructor]. unfold placed_ok. cbn [fst snd ev_ctx ev_id].
    split; [rewrite <- Hn; exact Hr|]. eapply gen_next_tag. exact Hg.
  - split; assumption.
Qed.

Lemma run_ops_inv : forall n ops, inv n (run_ops n ops).
Proof.
  intros n ops. unfold run_ops.
  assert (G : forall st, inv n st -> inv n (fold_left apply_op ops st)).
  { induction ops as [|o ops IH]; intros st H; cbn [fold_left]; [exact H|].
    apply IH, apply_op_inv, H. }
  apply G. split; [reflexivity|constructor].
Qed.

Lemma logged : forall n ops p, In p (cl_log (run_ops n ops)) -> placed_ok n p.
Proof. intros n ops. apply Forall_forall, run_ops_inv. Qed.

Lemma shard_ids_In : forall n j, In j (shard_ids n) <-> j < n.
Proof. intros n j. unfold shard_ids. rewrite in_map_of_nat_seq. lia. Qed.

Lemma shard_ids_NoDup : forall n, NoDup (shard_ids n).
Proof. intro n. apply nodup_map_of_nat_seq. Qed.

Lemma scoped_shard : forall n st c i j,
  inv n st -> route c n = Some i ->
  filter (for_ctx c) (shard_events st j) = if j =? i then filter (for_ctx c) (applied st) else [].
Proof.
  intros n st c i j [_ Hlog] Hr. unfold shard_events, applied.
  induction Hlog as [|p log [Hp _] _ IH]; [destruct (j =? i); reflexivity|]. cbn [filter map].
  assert (Hc : for_ctx c (snd p) = true -> fst p = i).
  { intro Ec. apply bytes_eqb_eq in Ec. rewrite Ec, Hr in Hp. congruence. }
  destruct (N.eqb_spec (fst p) j) as [<-|Ne], (for_ctx c (snd p)) eqn:Ec; cbn [map filter]; rewrite ?Ec; try exact IH.
  - rewrite (Hc eq_refl), N.eqb_refl in *. f_equal. exact IH.
  - destruct (N.eqb_spec j i) as [->|_]; [|exact IH]. elim Ne. exact (Hc eq_refl).
Qed.

Lemma ctx_locality : forall n ops c i,
  route c n = Some i ->
  let st := run_ops n ops in
  read_scoped st c = filter (for_ctx c) (shard_events st i) /\
  read_scoped st c = filter (for_ctx c) (applied st).
Proof.
  intros n ops c i Hr st. pose proof (run_ops_inv n ops) as Hinv. fold st in Hinv.
  assert (E : read_scoped st c = filter (for_ctx c) (shard_events st i)).
  { unfold read_scoped. rewrite (proj1 Hinv).
    apply flat_map_single with (f := fun j => filter (for_ctx c) (shard_events st j)).
    - apply shard_ids_NoDup.
    - apply shard_ids_In. eapply route_lt_n. exact Hr.
    - intros j _ Hne. rewrite (scoped_shard n st c i j Hinv Hr). apply N.eqb_neq in Hne. rewrite Hne. reflexivity. }
  split; [exact E|]. rewrite E, (scoped_shard n st c i i Hinv Hr), N.eqb_refl. reflexivity.
Qed.

Lemma placement : forall n ops j e,
  In (j, e) (cl_log (run_ops n ops)) -> route (ev_ctx e) n = Some j /\ j < n.
Proof.
  intros n ops j e Hin. destruct (logged _ _ _ Hin) as [Hp _].
  split; [exact Hp|]. eapply route_lt_n. exact Hp.
Qed.

Lemma partition_perm : forall (B : Type) (log : list (N * B)) (l : list N),
  NoDup l -> (forall p, In p log -> In (fst p) l) ->
  Permutation (flat_map (fun j => map snd (filter (fun p => fst p =? j) log)) l) (map snd log).
Proof.
  intros B log l Hnd Hin.
  (* pull [map snd] out of the [flat_map], so that [partition_by_key_perm] applies to the log itself *)
  rewrite flat_map_concat_map, <- (map_map _ (map snd)), <- concat_map, <- flat_map_concat_map.
  apply Permutation_map, (partition_by_key_perm fst N.eqb N.eqb_eq); assumption.
Qed.

Lemma fanout_union : forall n ops,
  Permutation (read_all (run_ops n ops)) (applied (run_ops n ops)).
Proof.
  intros n ops. unfold read_all, applied, shard_events. rewrite (proj1 (run_ops_inv n ops)).
  apply partition_perm; [apply shard_ids_NoDup|].
  intros p Hp. apply shard_ids_In. eapply route_lt_n. exact (proj1 (logged _ _ _ Hp)).
Qed.

Lemma shard_tag_const : forall n ops j1 e1 j2 e2,
  In (j1, e1) (cl_log (run_ops n ops)) -> In (j2, e2) (cl_log (run_ops n ops)) ->
  ev_ctx e1 = ev_ctx e2 ->
  j1 = j2 /\ id_shard (ev_id e1) = id_shard (ev_id e2) /\
  id_shard (ev_id e1) = shard_component j1.
Proof.
  intros n ops j1 e1 j2 e2 H1 H2 Ec.
  destruct (logged _ _ _ H1) as [R1 T1]. destruct (logged _ _ _ H2) as [R2 T2]. cbn [fst snd] in *.
  rewrite Ec in R1. assert (j1 = j2) by congruence. subst j2.
  repeat split; congruence.
Qed.

Lemma shard_tag_is_route : forall n ops j e,
  n <= 2 ^ id_shard_bits -> In (j, e) (cl_log (run_ops n ops)) ->
  route (ev_ctx e) n = Some (id_shard (ev_id e)).
Proof.
  intros n ops j e Hn Hin. destruct (placement _ _ _ _ Hin) as [Hr Hlt].
  destruct (logged _ _ _ Hin) as [_ T]. cbn [fst snd] in T.
  rewrite T, shard_component_small; [exact Hr|]. unfold TB. lia.
Qed.

(** contexts "a", "d", "ctx-1" on three shards, a restart in the middle *)
Example cluster_example :
  let e := id_epoch_ms in
  let a := [97] in let d := [100] in let c := [99; 116; 120; 45; 49] in
  let st := run_ops 3 [Store c 1 [e + 5]; Store a 2 [e + 5]; Store c 3 [e + 5]; Restart;
                       Store d 4 [e + 9]; Store c 5 [e + 9]; Store a 6 [e + 9]] in
  route a 3 = Some 0 /\ route d 3 = Some 1 /\ route c 3 = Some 2 /\
  map ev_payload (read_scoped st c) = [1; 3; 5] /\ map ev_payload (read_scoped st a) = [2; 6] /\
  map ev_payload (read_all st) = [2; 6; 4; 1; 3; 5] /\
  map (fun x => id_shard (ev_id x)) (read_scoped st c) = [2; 2; 2].
Proof. vm_compute. repeat split; reflexivity. Qed.
