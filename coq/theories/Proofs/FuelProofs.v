(** Judgements about the rules of Model/Parser.v, with lemmas for the combinators and terminals:
    - [shrinks], [consumes];
    - [avoids b]: a rule never returns the failure [b].  [OOF] and [Panic] are the two results a rule hands on from
      its sub-rules unchanged, so one lemma serves both: at [Fuel] every repetition consumes input and the fuel the
      entry points supply never runs out; at [Crash] only the numeric conversions panic (PanicProofs.v);
    - [pbelow b], the definedness order: the left rule returns the failure [b] or what the right rule returns.
      Every combinator is monotone for it.  At [Fuel] this says that more fuel never changes a result
      ([or_expr_mono], [or_expr_enough]); at [Crash], that the repaired grammar agrees with the other wherever
      that one does not panic (PanicProofs.fixed_agrees). *)
From Coq Require Import NArith ZArith List Bool Lia.
From Coq Require Import ZifyBool ZifyNat ZifyN.
From Snel Require Import Base.Bytes Model.Tokenizer Model.Parser Proofs.TokenizerProofs Proofs.ParserBasics.
Import ListNotations.
Open Scope N_scope.

Definition shrinks {A} (p : P A) : Prop := forall s a r, p s = Ok (a, r) -> (length r <= length s)%nat.
Definition consumes {A} (p : P A) : Prop := forall s a r, p s = Ok (a, r) -> (length r < length s)%nat.
Definition noof {A} (p : P A) : Prop := forall s, p s <> OOF.

(** [shrinks] and [consumes] are convertible with [drops 0] and [drops 1] *)
Definition drops {A} (n : nat) (p : P A) : Prop := forall s a r, p s = Ok (a, r) -> (n + length r <= length s)%nat.

Lemma consumes_shrinks : forall A (p : P A), consumes p -> shrinks p.
Proof. intros A p H s a r E. apply H in E. lia. Qed.

Lemma ret_shrinks : forall A (a : A), shrinks (ret a).
Proof. intros A a s a' r E. unfold ret in E. inversion E; subst. lia. Qed.

Lemma bind_drops : forall A B n m (p : P A) (f : A -> P B), drops n p -> (forall a, drops m (f a)) -> drops (n + m) (bind p f).
Proof.
  intros A B n m p f Hp Hf s b r E. unfold bind in E. destruct (p s) as [[a r1]| | |] eqn:E1; try discriminate.
  apply Hp in E1. apply Hf in E. lia.
Qed.

Lemma bind_shrinks : forall A B (p : P A) (f : A -> P B),
  shrinks p -> (forall a, shrinks (f a)) -> shrinks (bind p f).
Proof. intros A B. exact (bind_drops A B 0 0). Qed.

Lemma bind_consumes_l : forall A B (p : P A) (f : A -> P B),
  consumes p -> (forall a, shrinks (f a)) -> consumes (bind p f).
Proof. intros A B. exact (bind_drops A B 1 0). Qed.

Lemma bind_consumes_r : forall A B (p : P A) (f : A -> P B),
  shrinks p -> (forall a, consumes (f a)) -> consumes (bind p f).
Proof. intros A B. exact (bind_drops A B 0 1). Qed.

Lemma alt_drops : forall A n (p q : P A), drops n p -> drops n q -> drops n (alt p q).
Proof.
  intros A n p q Hp Hq s a r E. unfold alt in E. destruct (p s) as [[a1 r1]| | |] eqn:E1; try discriminate.
  - inversion E; subst. eapply Hp; eauto.
  - eapply Hq; eauto.
Qed.

Lemma alt_shrinks : forall A (p q : P A), shrinks p -> shrinks q -> shrinks (alt p q).
Proof. intro A. exact (alt_drops A 0). Qed.

Lemma alt_consumes : forall A (p q : P A), consumes p -> consumes q -> consumes (alt p q).
Proof. intro A. exact (alt_drops A 1). Qed.

Lemma opt_shrinks : forall A (p : P A), shrinks p -> shrinks (opt p).
Proof.
  intros A p Hp s a r E. unfold opt in E. destruct (p s) as [[a1 r1]| | |] eqn:E1; try discriminate;
    inversion E; subst; [eapply Hp; eauto|lia].
Qed.

Lemma lift_consumes : forall A (t : bytes -> option (A * bytes)),
  (forall s a r, t s = Some (a, r) -> (length r < length s)%nat) -> consumes (lift t).
Proof.
  intros A t H s a r E. unfold lift in E. destruct (t s) as [[a1 r1]|] eqn:E1; try discriminate.
  inversion E; subst. eauto.
Qed.

Lemma kw_consumes : forall k, consumes (kw k).
Proof.
  intros k s a r E. unfold kw in E. destruct (ci k s) eqn:E1; try discriminate. inversion E; subst.
  eapply ci_length; eauto.
Qed.

Lemma sym_consumes : forall c, consumes (sym c).
Proof.
  intros c s a r E. unfold sym, lit in E. destruct s as [|x s']; try discriminate.
  destruct (x =? c); try discriminate. inversion E; subst. cbn. lia.
Qed.

Lemma skip_shrinks : shrinks skip.
Proof. intros s a r E. unfold skip in E. inversion E; subst. apply ws_length. Qed.

(** a rule that begins with [_] *)
Lemma skip_consumes : forall A (f : unit -> P A), (forall u, consumes (f u)) -> consumes (bind skip f).
Proof. intros A f H. apply bind_consumes_r; [apply skip_shrinks|exact H]. Qed.

Lemma notp_shrinks : forall A (t : bytes -> option A), shrinks (notp t).
Proof. intros A t s a r E. unfold notp in E. destruct (t s); try discriminate. inversion E; subst. lia. Qed.

Lemma eof_shrinks : shrinks eof.
Proof. intros s a r E. unfold eof in E. destruct s; try discriminate. inversion E; subst. lia. Qed.

Lemma many_shrinks : forall A (p : P A), shrinks p -> forall f, shrinks (many f p).
Proof.
  intros A p Hp. induction f as [|f IH]; intros s l r E; cbn in E; try discriminate.
  destruct (p s) as [[a r1]| | |] eqn:E1; try discriminate.
  - destruct (many f p r1) as [[l' r']| | |] eqn:E2; try discriminate. inversion E; subst.
    apply Hp in E1. apply IH in E2. lia.
  - inversion E; subst. lia.
Qed.

Lemma sepstep_consumes : forall A (p : P A) sep,
  consumes p -> (forall s r, sep s = Some r -> (length r <= length s)%nat) -> consumes (sepstep p sep).
Proof.
  intros A p sep Hp Hs s a r E. unfold sepstep in E. destruct (sep s) eqn:E1; try discriminate.
  apply Hs in E1. apply Hp in E. lia.
Qed.

Lemma many_self_shrinks : forall A (p : P A), shrinks p -> shrinks (many_self p).
Proof. intros A p Hp s. apply many_shrinks, Hp. Qed.

Lemma sep_list_first : forall A (p : P A) sep,
  consumes p -> (forall s r, sep s = Some r -> (length r <= length s)%nat) ->
  consumes (let* a := p in let* l := many_self (sepstep p sep) in ret (a :: l)).
Proof.
  intros A p sep Hp Hs. apply bind_consumes_l; [exact Hp|intro a]. apply bind_shrinks; [|intro; apply ret_shrinks].
  apply many_self_shrinks, consumes_shrinks, sepstep_consumes; assumption.
Qed.

Lemma sep_list_shrinks : forall A (p : P A) sep,
  consumes p -> (forall s r, sep s = Some r -> (length r <= length s)%nat) -> shrinks (sep_list p sep).
Proof.
  intros A p sep Hp Hs s l r E. rewrite sep_list_peg in E. revert E.
  apply alt_shrinks; [apply consumes_shrinks, sep_list_first; assumption|apply ret_shrinks].
Qed.

Lemma sep_list1_consumes : forall A (p : P A) sep,
  consumes p -> (forall s r, sep s = Some r -> (length r <= length s)%nat) -> consumes (sep_list1 p sep).
Proof.
  intros A p sep Hp Hs s l r E. rewrite sep_list1_peg in E. exact (sep_list_first _ p sep Hp Hs _ _ _ E).
Qed.

Inductive failure := Fuel | Crash.

Definition fails {A} (b : failure) (r : res A) : Prop :=
  match b, r with
  | Fuel, OOF => True
  | Crash, Panic _ => True
  | _, _ => False
  end.

Definition avoids {A} (b : failure) (p : P A) : Prop := forall s, ~ fails b (p s).

Lemma avoids_noof : forall A (p : P A), avoids Fuel p <-> noof p.
Proof.
  intros A p. split; intros H s.
  - intro E. apply (H s). rewrite E. exact I.
  - specialize (H s). destruct (p s); cbn; tauto.
Qed.

Lemma not_fails_ok : forall A b (x : A), ~ fails b (Ok x).
Proof. intros A [] x; exact id. Qed.
Lemma not_fails_err : forall A b, ~ fails b (@Err A).
Proof. intros A []; exact id. Qed.
(** [auto with pc] takes a goal about a rule, unfolded, apart along the rule's own structure: [pc] holds the lemmas
    of the combinators and terminals for each judgement and, as the files go on, the facts about whole rules.  Hints
    declared inside a section (the rules that depend on the mode [fx]) end with it; TotalityProofs.v declares again
    those it needs.  Not in [pc]: [bind_consumes_l] and [bind_consumes_r], since which operand of a [bind] consumes
    cannot be guessed (a [consumes] proof applies one of them by hand first); and a fact about the body of a
    repetition that a rule writes inline, which the proof of the rule puts in the context ([pose proof ..._step_c])
    for the [fuelled] premise of [many_self_avoids]. *)
#[global] Hint Resolve not_fails_ok not_fails_err : pc.

Lemma ret_avoids : forall A b (a : A), avoids b (ret a).
Proof. intros A b a s. apply not_fails_ok. Qed.

(** [fails b] of a [Panic] or [OOF] does not depend on the result type: [exact Hp] passes it on *)
Lemma bind_avoids : forall A B b (p : P A) (f : A -> P B), avoids b p -> (forall a, avoids b (f a)) -> avoids b (bind p f).
Proof. intros A B b p f Hp Hf s. unfold bind. specialize (Hp s). destruct (p s) as [[a r]| |k|]; [apply Hf|exact Hp ..]. Qed.

Lemma alt_avoids : forall A b (p q : P A), avoids b p -> avoids b q -> avoids b (alt p q).
Proof. intros A b p q Hp Hq s. unfold alt. specialize (Hp s). destruct (p s) as [[a r]| |k|]; [exact Hp|apply Hq|exact Hp ..]. Qed.

Lemma opt_avoids : forall A b (p : P A), avoids b p -> avoids b (opt p).
Proof. intros A b p Hp s. unfold opt. specialize (Hp s). destruct (p s) as [[a r]| |k|]; [apply not_fails_ok ..|exact Hp|exact Hp]. Qed.

Lemma lift_avoids : forall A b (t : bytes -> option (A * bytes)), avoids b (lift t).
Proof. intros A b t s. unfold lift. destruct (t s); auto with pc. Qed.
Lemma kw_avoids : forall b k, avoids b (kw k).
Proof. intros b k s. unfold kw. destruct (ci k s); auto with pc. Qed.
Lemma sym_avoids : forall b c, avoids b (sym c).
Proof. intros b c s. unfold sym. destruct (lit c s); auto with pc. Qed.
Lemma skip_avoids : forall b, avoids b skip.
Proof. intros b s. apply not_fails_ok. Qed.
Lemma notp_avoids : forall A b (t : bytes -> option A), avoids b (notp t).
Proof. intros A b t s. unfold notp. destruct (t s); auto with pc. Qed.
Lemma eof_avoids : forall b, avoids b eof.
Proof. intros b s. unfold eof. destruct s; auto with pc. Qed.

(** for [OOF] a repeated parser must consume input; for [Panic] nothing is asked *)
Definition fuelled {A} (b : failure) (p : P A) : Prop := match b with Fuel => consumes p | Crash => True end.

Lemma consumes_fuelled : forall A b (p : P A), consumes p -> fuelled b p.
Proof. intros A [] p H; [exact H|exact I]. Qed.

Lemma many_avoids : forall A b (p : P A), avoids b p -> fuelled b p ->
  forall f s, (b = Fuel -> (length s < f)%nat) -> ~ fails b (many f p s).
Proof.
  intros A b p Hp Hc. induction f as [|f IH]; intros s Hl; cbn [many].
  - destruct b; [specialize (Hl eq_refl); lia|exact id].
  - specialize (Hp s). destruct (p s) as [[a r1]| |k|] eqn:E1; [|apply not_fails_ok|exact Hp ..].
    assert (Hl' : b = Fuel -> (length r1 < f)%nat).
    { intro Eb. subst b. apply Hc in E1. specialize (Hl eq_refl). lia. }
    specialize (IH r1 Hl'). destruct (many f p r1) as [[l r']| |k'|]; [apply not_fails_ok|exact IH ..].
Qed.

Lemma many_self_avoids : forall A b (p : P A), avoids b p -> fuelled b p -> avoids b (many_self p).
Proof. intros A b p Hp Hc s. apply many_avoids; auto. Qed.

Lemma sepstep_avoids : forall A b (p : P A) sep, avoids b p -> avoids b (sepstep p sep).
Proof. intros A b p sep Hp s. unfold sepstep. destruct (sep s); [apply Hp|apply not_fails_err]. Qed.

Lemma sepstep_fuelled : forall A b (p : P A) sep,
  consumes p -> (forall s r, sep s = Some r -> (length r <= length s)%nat) -> fuelled b (sepstep p sep).
Proof. intros. apply consumes_fuelled, sepstep_consumes; auto. Qed.

Lemma sep_list1_avoids : forall A b (p : P A) sep, avoids b p -> fuelled b (sepstep p sep) -> avoids b (sep_list1 p sep).
Proof.
  intros A b p sep Hp Hc s. rewrite sep_list1_peg. revert s.
  apply bind_avoids; [exact Hp|intro a]. apply bind_avoids; [|intro; apply ret_avoids].
  apply many_self_avoids; [apply sepstep_avoids, Hp|exact Hc].
Qed.

Lemma sep_list_avoids : forall A b (p : P A) sep, avoids b p -> fuelled b (sepstep p sep) -> avoids b (sep_list p sep).
Proof.
  intros A b p sep Hp Hc s. rewrite sep_list_peg. apply alt_avoids; [|apply ret_avoids].
  intro s'. rewrite <- sep_list1_peg. apply sep_list1_avoids; assumption.
Qed.

Definition below {A} (b : failure) (r0 r1 : res A) : Prop := fails b r0 \/ r0 = r1.
Definition pbelow {A} (b : failure) (p0 p1 : P A) : Prop := forall s, below b (p0 s) (p1 s).

Lemma below_refl : forall A b (r : res A), below b r r.
Proof. right. reflexivity. Qed.
Lemma pbelow_refl : forall A b (p : P A), pbelow b p p.
Proof. intros A b p s. apply below_refl. Qed.
Lemma pbelow_ext : forall A b (p0 p1 q0 q1 : P A), (forall s, p0 s = q0 s) -> (forall s, p1 s = q1 s) -> pbelow b q0 q1 -> pbelow b p0 p1.
Proof. intros A b p0 p1 q0 q1 E0 E1 H s. rewrite E0, E1. apply H. Qed.
Lemma below_eq : forall A b (r0 r1 : res A), below b r0 r1 -> ~ fails b r0 -> r1 = r0.
Proof. intros A b r0 r1 [H| ->] Hn; [destruct (Hn H)|reflexivity]. Qed.

(** [below_on H], for [H : below b (p0 s) (p1 s)] and a goal [below b (... p0 s ...) (... p1 s ...)] whose sides
    match on these results and hand a failure on: a failure of [p0 s] is one of the left side; otherwise both
    sides match on the same result *)
Ltac below_on H :=
  let F := fresh in let E := fresh in
  destruct H as [F|E];
  [left; match type of F with fails _ ?r => destruct r as [?| |?|] end;
   [destruct (not_fails_ok _ _ _ F)|destruct (not_fails_err _ _ F)|exact F ..]
  |rewrite <- E; clear E].

Lemma bind_below : forall A B b (p0 p1 : P A) (f0 f1 : A -> P B),
  pbelow b p0 p1 -> (forall a, pbelow b (f0 a) (f1 a)) -> pbelow b (bind p0 f0) (bind p1 f1).
Proof.
  intros A B b p0 p1 f0 f1 Hp Hf s. unfold bind. below_on (Hp s).
  destruct (p0 s) as [[a r]| |k|]; try apply below_refl. apply Hf.
Qed.

Lemma alt_below : forall A b (p0 p1 q0 q1 : P A), pbelow b p0 p1 -> pbelow b q0 q1 -> pbelow b (alt p0 q0) (alt p1 q1).
Proof.
  intros A b p0 p1 q0 q1 Hp Hq s. unfold alt. below_on (Hp s).
  destruct (p0 s) as [[a r]| |k|]; try apply below_refl. apply Hq.
Qed.

Lemma opt_below : forall A b (p0 p1 : P A), pbelow b p0 p1 -> pbelow b (opt p0) (opt p1).
Proof. intros A b p0 p1 Hp s. unfold opt. below_on (Hp s). apply below_refl. Qed.

Lemma many_below : forall A b (p0 p1 : P A), pbelow b p0 p1 -> forall f, pbelow b (many f p0) (many f p1).
Proof.
  intros A b p0 p1 Hp. induction f as [|f IH]; intro s; cbn [many]; [apply below_refl|].
  below_on (Hp s). destruct (p0 s) as [[a r]| |k|]; try apply below_refl.
  below_on (IH r). apply below_refl.
Qed.

Lemma many_self_below : forall A b (p0 p1 : P A), pbelow b p0 p1 -> pbelow b (many_self p0) (many_self p1).
Proof. intros A b p0 p1 Hp s. apply many_below, Hp. Qed.

Lemma sepstep_below : forall A b (p0 p1 : P A) sep, pbelow b p0 p1 -> pbelow b (sepstep p0 sep) (sepstep p1 sep).
Proof. intros A b p0 p1 sep Hp s. unfold sepstep. destruct (sep s); [apply Hp|apply below_refl]. Qed.

#[global] Hint Resolve bind_below alt_below opt_below many_self_below sepstep_below : pc.
(** reflexivity only where the two rules are the same text: a failing conversion of two large rules is slow *)
#[global] Hint Extern 0 (pbelow _ _ _) => match goal with |- pbelow _ ?p ?q => constr_eq p q; apply pbelow_refl end : pc.

Lemma sep_list_below : forall A b (p0 p1 : P A) sep, pbelow b p0 p1 -> pbelow b (sep_list p0 sep) (sep_list p1 sep).
Proof. intros A b p0 p1 sep Hp. eapply pbelow_ext; [intro; apply sep_list_peg ..|]. auto 10 with pc. Qed.

Lemma sep_list1_below : forall A b (p0 p1 : P A) sep, pbelow b p0 p1 -> pbelow b (sep_list1 p0 sep) (sep_list1 p1 sep).
Proof. intros A b p0 p1 sep Hp. eapply pbelow_ext; [intro; apply sep_list1_peg ..|]. auto 10 with pc. Qed.

#[global] Hint Resolve sep_list_below sep_list1_below : pc.

Lemma lift_map_consumes : forall A B (t : bytes -> option (A * bytes)) (g : A -> B),
  (forall s a r, t s = Some (a, r) -> (length r < length s)%nat) -> consumes (lift_map t g).
Proof.
  intros A B t g H s b r E. unfold lift_map in E. destruct (t s) as [[a r1]|] eqn:E1; try discriminate.
  inversion E; subst. eauto.
Qed.

Lemma lift_map_avoids : forall A B b (t : bytes -> option (A * bytes)) (g : A -> B), avoids b (lift_map t g).
Proof. intros A B b t g s. unfold lift_map. destruct (t s) as [[a r]|]; auto with pc. Qed.

Lemma ret_noof : forall A (a : A), noof (ret a).
Proof. intros. apply avoids_noof, ret_avoids. Qed.
Lemma opt_noof : forall A (p : P A), noof p -> noof (opt p).
Proof. intros A p H. apply avoids_noof, opt_avoids, avoids_noof, H. Qed.
Lemma sym_noof : forall c, noof (sym c).
Proof. intros. apply avoids_noof, sym_avoids. Qed.
Lemma skip_noof : noof skip.
Proof. apply avoids_noof, skip_avoids. Qed.
Lemma notp_noof : forall A (t : bytes -> option A), noof (notp t).
Proof. intros. apply avoids_noof, notp_avoids. Qed.
Lemma eof_noof : noof eof.
Proof. apply avoids_noof, eof_avoids. Qed.
Lemma sep_list1_noof : forall A (p : P A) sep,
  consumes p -> (forall s r, sep s = Some r -> (length r <= length s)%nat) -> noof p -> noof (sep_list1 p sep).
Proof. intros A p sep Hc Hs Hn. apply avoids_noof, sep_list1_avoids; [apply avoids_noof, Hn|exact (sepstep_consumes _ _ _ Hc Hs)]. Qed.

Lemma ident_with_len : forall cont s a r, ident_with cont s = Some (a, r) -> (length r < length s)%nat.
Proof.
  intros cont s a r E. unfold ident_with in E. destruct s as [|c s']; try discriminate.
  destruct (is_ident_start c); try discriminate. destruct (span cont s') as [x y] eqn:S.
  inversion E; subst. apply span_length in S. cbn. lia.
Qed.

Lemma field_len : forall s a r, field s = Some (a, r) -> (length r < length s)%nat.
Proof.
  intros s a r E. unfold field in E. destruct (ident s) as [[i r0]|] eqn:E0; try discriminate.
  apply ident_with_len in E0. destruct r0 as [|c r1]; [inversion E; subst; auto|].
  destruct (c =? 46).
  - destruct (ident r1) as [[j r2]|] eqn:E1; inversion E; subst; auto.
    apply ident_with_len in E1. cbn in *. lia.
  - inversion E; subst; auto.
Qed.

Lemma string_lit_len : forall s a r, string_lit s = Some (a, r) -> (length r < length s)%nat.
Proof.
  intros s a r E. unfold string_lit in E. destruct s as [|c s']; try discriminate.
  destruct (c =? 34); try discriminate. destruct (span _ s') as [x y] eqn:S.
  destruct y as [|q y']; try discriminate. destruct (q =? 34); try discriminate.
  inversion E; subst. apply span_length in S. cbn in *. lia.
Qed.

Lemma integer_len : forall s a r, integer s = Some (a, r) -> (length r < length s)%nat.
Proof.
  intros s a r E. unfold integer in E.
  destruct (match s with c :: r0 => if c =? 45 then (true, r0) else (false, s) | [] => (false, s) end) as [neg r0] eqn:E0.
  assert (H0 : (length r0 <= length s)%nat).
  { destruct s as [|c s']; [inversion E0; subst; auto|]. destruct (c =? 45); inversion E0; subst; cbn; lia. }
  destruct (span is_digit r0) as [d r'] eqn:S. apply span_length in S.
  destruct d; try discriminate. inversion E; subst. cbn in S. lia.
Qed.

Lemma number_text_len : forall s a r, number_text s = Some (a, r) -> (length r < length s)%nat.
Proof.
  intros s a r E. unfold number_text in E. destruct (integer s) as [[[neg d] r0]|] eqn:E0; try discriminate.
  apply integer_len in E0. destruct r0 as [|c r1]; [inversion E; subst; auto|].
  destruct (c =? 46).
  - destruct (span is_digit r1) as [fd r2] eqn:S. apply span_length in S.
    destruct fd; inversion E; subst; auto. cbn in *. lia.
  - inversion E; subst; auto.
Qed.

Lemma cmp_op1_rest : forall c r a r', cmp_op1 c r = Some (a, r') -> r' = r.
Proof. intros c r a r' E. unfold cmp_op1 in E. destruct (c =? 61), (c =? 62), (c =? 60); congruence. Qed.

Lemma cmp_op_len : forall s a r, cmp_op s = Some (a, r) -> (length r < length s)%nat.
Proof.
  intros s a r E. unfold cmp_op in E. destruct s as [|c [|d r']]; try discriminate.
  - apply cmp_op1_rest in E. subst. cbn. lia.
  - destruct ((c =? 33) && (d =? 61)), ((c =? 62) && (d =? 61)), ((c =? 60) && (d =? 61));
      try (inversion E; subst; cbn; lia).
    apply cmp_op1_rest in E. subst. cbn. lia.
Qed.

Lemma comma_sep_len : forall s r, comma_sep s = Some r -> (length r <= length s)%nat.
Proof.
  intros s r E. unfold comma_sep, lit in E. destruct (ws s) as [|x s'] eqn:W; try discriminate.
  destruct (x =? 44); try discriminate. inversion E; subst.
  pose proof (ws_length s). pose proof (ws_length s'). rewrite W in *. cbn in *. lia.
Qed.

#[global] Hint Resolve consumes_shrinks ret_shrinks bind_shrinks alt_shrinks alt_consumes opt_shrinks kw_consumes
  sym_consumes skip_shrinks notp_shrinks eof_shrinks many_shrinks sep_list_shrinks sep_list1_consumes
  comma_sep_len ret_avoids bind_avoids alt_avoids opt_avoids lift_avoids kw_avoids sym_avoids skip_avoids notp_avoids
  eof_avoids sep_list_avoids sep_list1_avoids many_self_avoids many_self_shrinks sepstep_avoids sepstep_fuelled
  consumes_fuelled sepstep_consumes skip_consumes : pc.

(** in a goal of [auto with pc], name what a rule of the models writes inline *)
#[global] Hint Extern 1 =>
  match goal with |- context [fun s => many (S (length s)) ?p s] => change (fun s => many (S (length s)) p s) with (many_self p) end : pc.
#[global] Hint Extern 1 =>
  match goal with |- context [fun s1 => match ?sep s1 with Some s2 => ?p s2 | None => Err end] =>
    change (fun s1 => match sep s1 with Some s2 => p s2 | None => Err end) with (sepstep p sep) end : pc.

Lemma fieldp_consumes : consumes fieldp.
Proof. apply lift_consumes, field_len. Qed.
Lemma identp_consumes : consumes identp.
Proof. apply lift_consumes. exact (ident_with_len is_ident_char). Qed.
Lemma strp_consumes : consumes strp.
Proof. apply lift_consumes, string_lit_len. Qed.
Lemma intp_consumes : consumes intp.
Proof. apply lift_consumes, integer_len. Qed.
Lemma cmp_opp_consumes : consumes (lift cmp_op).
Proof. apply lift_consumes, cmp_op_len. Qed.
Lemma fieldp_avoids : forall b, avoids b fieldp. Proof. intro. apply lift_avoids. Qed.
Lemma identp_avoids : forall b, avoids b identp. Proof. intro. apply lift_avoids. Qed.
Lemma strp_avoids : forall b, avoids b strp. Proof. intro. apply lift_avoids. Qed.
Lemma intp_avoids : forall b, avoids b intp. Proof. intro. apply lift_avoids. Qed.
Lemma fieldp_noof : noof fieldp. Proof. apply avoids_noof, fieldp_avoids. Qed.
Lemma identp_noof : noof identp. Proof. apply avoids_noof, identp_avoids. Qed.
Lemma strp_noof : noof strp. Proof. apply avoids_noof, strp_avoids. Qed.
Lemma intp_noof : noof intp. Proof. apply avoids_noof, intp_avoids. Qed.
#[global] Hint Resolve fieldp_consumes identp_consumes strp_consumes intp_consumes cmp_opp_consumes
  fieldp_avoids identp_avoids strp_avoids intp_avoids : pc.

(** the numeric conversions fail the rule in the repaired grammar and panic in the other *)
Definition mode_ok (b : failure) (fx : bool) : Prop := match b with Fuel => True | Crash => fx = true end.

Lemma numfail_avoids : forall A b fx site, mode_ok b fx -> ~ fails b (@numfail A fx site).
Proof. intros A [] [] site Hm; try exact id. discriminate Hm. Qed.

Section WithMode.
Variable fx : bool.

Lemma number_consumes : consumes (number fx).
Proof.
  intros s a r E. unfold number in E. destruct (number_text s) as [[[[neg d] [fd|]] r0]|] eqn:E0; try discriminate.
  - apply number_text_len in E0. destruct (float_overflows d fd); [destruct fx; discriminate|]. inversion E; subst. auto.
  - apply number_text_len in E0. destruct (conv_i64 fx neg d); try discriminate. inversion E; subst. auto.
Qed.

Lemma number_avoids : forall b, mode_ok b fx -> avoids b (number fx).
Proof.
  intros b Hm s. unfold number. destruct (number_text s) as [[[[neg d] [fd|]] r0]|]; [| |apply not_fails_err].
  - destruct (float_overflows d fd); [apply numfail_avoids, Hm|apply not_fails_ok].
  - pose proof (numfail_avoids Z b fx SiteInt Hm) as H. unfold conv_i64.
    destruct (_ && _)%bool; [apply not_fails_ok|]. destruct (numfail fx SiteInt) as [z| |k|]; [apply not_fails_ok|exact H ..].
Qed.

Lemma value_consumes : consumes (value fx).
Proof.
  apply (alt_consumes _ (lift_map string_lit VStr)); [apply lift_map_consumes, string_lit_len|].
  apply (alt_consumes _ _ (lift_map ident VStr)); [apply number_consumes|apply lift_map_consumes, ident_with_len].
Qed.

Lemma value_avoids : forall b, mode_ok b fx -> avoids b (value fx).
Proof.
  intros b Hm. apply (alt_avoids _ _ (lift_map string_lit VStr)); [apply lift_map_avoids|].
  apply (alt_avoids _ _ _ (lift_map ident VStr)); [apply number_avoids, Hm|apply lift_map_avoids].
Qed.

Lemma value_noof : noof (value fx).
Proof. apply avoids_noof, value_avoids. exact I. Qed.

Hint Resolve value_consumes value_avoids : pc.

Lemma comparison_consumes : consumes (comparison fx).
Proof. unfold comparison. apply bind_consumes_l; auto 20 with pc. Qed.
Lemma in_expr_consumes : consumes (in_expr fx).
Proof. unfold in_expr. apply bind_consumes_l; auto 30 with pc. Qed.
Lemma atom_consumes : consumes atom.
Proof. unfold atom. apply bind_consumes_l; auto with pc. Qed.
Lemma leaf_consumes : consumes (leaf fx).
Proof. unfold leaf. auto using alt_consumes, comparison_consumes, in_expr_consumes, atom_consumes. Qed.

Lemma leaf_avoids : forall b, mode_ok b fx -> avoids b (leaf fx).
Proof. intros b Hm. unfold leaf, comparison, in_expr, atom. auto 60 with pc. Qed.

End WithMode.

Lemma number_below : pbelow Crash (number false) (number true).
Proof.
  intro s. unfold number. destruct (number_text s) as [[[[neg d] [fd|]] r0]|]; try apply below_refl.
  - destruct (float_overflows d fd); [left; exact I|apply below_refl].
  - unfold conv_i64. destruct (_ && _)%bool; [apply below_refl|left; exact I].
Qed.

#[global] Hint Resolve number_below : pc.

Lemma leaf_below : pbelow Crash (leaf false) (leaf true).
Proof. unfold leaf, comparison, in_expr, value. auto 20 with pc. Qed.

Lemma lit_len : forall c s r, lit c s = Some r -> (length r < length s)%nat.
Proof. intros c s r E. apply lit_head in E as ->. cbn. lia. Qed.

Lemma chain_consumes : forall K mk sub self, consumes sub -> consumes self -> consumes (chain K mk sub self).
Proof.
  intros K mk sub self Hs Hf s a r E. rewrite chain_peg in E. revert E. apply bind_consumes_l; auto 20 with pc.
Qed.

Lemma chain_avoids : forall b K mk sub self s, consumes sub -> ~ fails b (sub s) ->
  (forall s', (length s' < length s)%nat -> ~ fails b (self s')) -> ~ fails b (chain K mk sub self s).
Proof.
  intros b K mk sub self s Hc Hs Hf. unfold chain. destruct (sub s) as [[x r0]| |k|] eqn:F; try exact Hs.
  destruct (ci K (ws r0)) as [r1|] eqn:C; [|apply not_fails_ok].
  apply Hc in F. apply ci_length in C. pose proof (ws_length r0). pose proof (ws_length r1).
  specialize (Hf (ws r1) ltac:(lia)). destruct (self (ws r1)) as [[y r2]| |k|]; try exact Hf; apply not_fails_ok.
Qed.

Lemma chain_below : forall b K mk sub0 sub1 self0 self1,
  pbelow b sub0 sub1 -> pbelow b self0 self1 -> pbelow b (chain K mk sub0 self0) (chain K mk sub1 self1).
Proof. intros b K mk sub0 sub1 self0 self1 Hs Hf. eapply pbelow_ext; [intro; apply chain_peg ..|]. auto 10 with pc. Qed.

Lemma paren_or_leaf_consumes : forall lf or, consumes lf -> consumes or -> consumes (paren_or_leaf lf or).
Proof.
  intros lf or Hl Ho s a r E. rewrite paren_or_leaf_peg in E. revert E.
  apply alt_consumes; [apply bind_consumes_l|]; auto 20 with pc.
Qed.

Lemma paren_or_leaf_avoids : forall b lf or s, avoids b lf ->
  (forall s', (length s' < length s)%nat -> ~ fails b (or s')) -> ~ fails b (paren_or_leaf lf or s).
Proof.
  intros b lf or s Hl Ho. unfold paren_or_leaf. destruct (lit 40 s) as [r1|] eqn:L; [|apply Hl].
  apply lit_len in L. pose proof (ws_length r1). specialize (Ho (ws r1) ltac:(lia)).
  destruct (or (ws r1)) as [[e r2]| |k|]; [|apply Hl|exact Ho ..].
  destruct (lit 41 (ws r2)); [apply not_fails_ok|apply Hl].
Qed.

Lemma paren_or_leaf_below : forall b lf0 lf1 or0 or1,
  pbelow b lf0 lf1 -> pbelow b or0 or1 -> pbelow b (paren_or_leaf lf0 or0) (paren_or_leaf lf1 or1).
Proof. intros b lf0 lf1 or0 or1 Hl Ho. eapply pbelow_ext; [intro; apply paren_or_leaf_peg ..|]. auto 10 with pc. Qed.

Lemma factor_rule_consumes : forall lf or fac, consumes lf -> consumes or -> consumes fac -> consumes (factor_rule lf or fac).
Proof.
  intros lf or fac Hl Ho Hf s a r E. rewrite factor_rule_peg in E. revert E.
  apply alt_consumes; [apply bind_consumes_l; auto 20 with pc|apply paren_or_leaf_consumes; auto].
Qed.

Lemma factor_rule_avoids : forall b lf or fac s, avoids b lf ->
  (forall s', (length s' < length s)%nat -> ~ fails b (or s') /\ ~ fails b (fac s')) -> ~ fails b (factor_rule lf or fac s).
Proof.
  intros b lf or fac s Hl H.
  assert (Hp : ~ fails b (paren_or_leaf lf or s)) by (apply paren_or_leaf_avoids; [exact Hl|intros; apply H; auto]).
  unfold factor_rule. destruct (ci K_NOT s) as [r1|] eqn:C; [|exact Hp].
  apply ci_length in C. pose proof (ws_length r1). destruct (H (ws r1) ltac:(lia)) as [_ Hf].
  destruct (fac (ws r1)) as [[x r2]| |k|]; [apply not_fails_ok|exact Hp|exact Hf ..].
Qed.

Lemma factor_rule_below : forall b lf0 lf1 or0 or1 fac0 fac1,
  pbelow b lf0 lf1 -> pbelow b or0 or1 -> pbelow b fac0 fac1 ->
  pbelow b (factor_rule lf0 or0 fac0) (factor_rule lf1 or1 fac1).
Proof.
  intros b lf0 lf1 or0 or1 fac0 fac1 Hl Ho Hf. eapply pbelow_ext; [intro; apply factor_rule_peg ..|].
  pose proof (paren_or_leaf_below b _ _ _ _ Hl Ho). auto 10 with pc.
Qed.

(** the grammar is monotone in its leaves and, at [Fuel], in its fuel: [d] is the extra fuel on the right *)
Lemma expr_below : forall b lf0 lf1, pbelow b lf0 lf1 -> forall d, (b = Crash -> d = O) -> forall f,
  pbelow b (or_expr_g lf0 f) (or_expr_g lf1 (f + d)%nat) /\ pbelow b (and_expr_g lf0 f) (and_expr_g lf1 (f + d)%nat) /\
  pbelow b (factor_g lf0 f) (factor_g lf1 (f + d)%nat).
Proof.
  intros b lf0 lf1 Hl d Hd. induction f as [|f (IHo & IHa & IHf)].
  - repeat split; intro s; (destruct b; [left; exact I|rewrite (Hd eq_refl); apply below_refl]).
  - cbn [Nat.add]. rewrite !or_expr_g_S, !and_expr_g_S, !factor_g_S. repeat split.
    + exact (chain_below b K_OR EOr _ _ _ _ IHa IHo).
    + exact (chain_below b K_AND EAnd _ _ _ _ IHf IHa).
    + exact (factor_rule_below b _ _ _ _ _ _ Hl IHo IHf).
Qed.

Section ExprFuel.
Variable lf : P expr.
Hypothesis Hlc : consumes lf.

Lemma expr_consumes : forall f,
  consumes (or_expr_g lf f) /\ consumes (and_expr_g lf f) /\ consumes (factor_g lf f).
Proof.
  induction f as [|f (IHo & IHa & IHf)]; [repeat split; intros s a r E; discriminate|].
  repeat split.
  - exact (chain_consumes K_OR EOr _ _ IHa IHo).
  - exact (chain_consumes K_AND EAnd _ _ IHf IHa).
  - exact (factor_rule_consumes lf _ _ Hlc IHo IHf).
Qed.

(** three rule levels per consumed byte *)
Lemma expr_avoids : forall b, avoids b lf -> forall f s,
  ((3 * length s + 3 <= f)%nat -> ~ fails b (or_expr_g lf f s)) /\
  ((3 * length s + 2 <= f)%nat -> ~ fails b (and_expr_g lf f s)) /\
  ((3 * length s + 1 <= f)%nat -> ~ fails b (factor_g lf f s)).
Proof.
  intros b Hl. induction f as [|f IH]; intro s; [repeat split; intro; lia|].
  destruct (expr_consumes f) as (_ & Hca & Hcf).
  rewrite or_expr_g_S, and_expr_g_S, factor_g_S. repeat split; intro Hf.
  - apply chain_avoids; [exact Hca|apply IH; lia|intros s' Hs'; apply IH; lia].
  - apply chain_avoids; [exact Hcf|apply IH; lia|intros s' Hs'; apply IH; lia].
  - apply factor_rule_avoids; [exact Hl|intros s' Hs'; split; apply IH; lia].
Qed.

Lemma or_expr_mono : forall f f', (f <= f')%nat -> pbelow Fuel (or_expr_g lf f) (or_expr_g lf f').
Proof.
  intros f f' Hle. replace f' with (f + (f' - f))%nat by lia.
  apply (expr_below Fuel lf lf (pbelow_refl _ _ _)). discriminate.
Qed.

Lemma or_expr_enough : avoids Fuel lf -> forall f s, ~ fails Fuel (or_expr_g lf f s) -> or_expr_g lf (expr_fuel s) s = or_expr_g lf f s.
Proof.
  intros Hn f s Hr. pose proof (proj1 (expr_avoids Fuel Hn (expr_fuel s) s) (le_n _)) as H0.
  rewrite <- (below_eq _ _ _ _ (or_expr_mono f (Nat.max f (expr_fuel s)) (Nat.le_max_l _ _) s) Hr).
  symmetry. exact (below_eq _ _ _ _ (or_expr_mono _ _ (Nat.le_max_r _ _) s) H0).
Qed.

End ExprFuel.

Section ExprMode.
Variable fx : bool.

Lemma parse_expr_at_consumes : consumes (parse_expr_at fx).
Proof. intros s a r E. exact (proj1 (expr_consumes _ (leaf_consumes fx) _) s a r E). Qed.

Lemma parse_expr_at_avoids : forall b, mode_ok b fx -> avoids b (parse_expr_at fx).
Proof. intros b Hm s. exact (proj1 (expr_avoids _ (leaf_consumes fx) b (leaf_avoids fx b Hm) _ s) (le_n _)). Qed.

Lemma parse_expr_at_noof : noof (parse_expr_at fx).
Proof. apply avoids_noof, parse_expr_at_avoids. exact I. Qed.

End ExprMode.

Lemma parse_expr_at_below : pbelow Crash (parse_expr_at false) (parse_expr_at true).
Proof.
  intro s. unfold parse_expr_at, or_expr. rewrite <- (Nat.add_0_r (expr_fuel s)) at 2.
  apply (expr_below Crash _ _ leaf_below O (fun _ => eq_refl)).
Qed.
#[global] Hint Resolve parse_expr_at_below : pc.
