(** Proofs about Model/Json.v, Schema.v, SchemaReg.v, Validate.v (C06).

    The declarative specification [Conforms] is defined here, independently of the
    executable [store_check]: it speaks about membership of key/value pairs, inductive
    "has type" judgements and explicit numeric ranges, never about the validation
    functions.  The executables it mentions say what "a parseable time" means: C16's
    time-string parser after [utrim] for strings, [f64_floor] for floats. *)
From Coq Require Import ZArith List Bool Lia.
From Coq Require Import ZifyBool.
From Snel Require Import Base.Bytes Gen.Params Model.Time Model.Json Model.Schema Model.SchemaReg Model.Validate.
From Snel Require Import Proofs.BytesFacts Proofs.ListFacts Proofs.AssocFacts Proofs.TimeProofs.
Import ListNotations.

Lemma mem_bytes_In : forall k l, mem_bytes k l = true <-> In k l.
Proof. apply (mem_In (fun a b => bytes_eqb b a) mem_bytes (flip_eqb_eq _ bytes_eqb_eq)); reflexivity. Qed.

Lemma uniq_bytes_NoDup : forall l, uniq_bytes l = true <-> NoDup l.
Proof.
  induction l as [|x l IH]; cbn [uniq_bytes]; [split; [constructor|reflexivity]|].
  rewrite andb_true_iff, negb_true_iff, IH, <- not_true_iff_false, mem_bytes_In.
  split; [intros [H1 H2]; now constructor|intros H; inversion H; auto].
Qed.

Section Assoc.
  Context {A : Type}.
  Implicit Types (m : list (bytes * A)) (k : bytes) (v : A).

  (** The value type stays outside the [fix], so that the three model lookups are this function at their value
      types, by conversion. *)
  Fixpoint aget m k : option A :=
    match m with
    | [] => None
    | (k', v) :: r => if bytes_eqb k' k then Some v else aget r k
    end.

  (* [aget] takes the map first and tests [bytes_eqb k' k] *)
  Lemma aget_In : forall m k v, aget m k = Some v -> In (k, v) m.
  Proof. intros m k v. apply (assoc_In _ (fun k m => aget m k) (flip_eqb_eq _ bytes_eqb_eq)); reflexivity. Qed.

  Lemma aget_none_iff : forall m k, aget m k = None <-> ~ In k (map fst m).
  Proof. intros m k. apply (assoc_none_iff _ (fun k m => aget m k) (flip_eqb_eq _ bytes_eqb_eq)); reflexivity. Qed.

  Lemma aget_None : forall m k, aget m k = None -> forall v, ~ In (k, v) m.
  Proof. intros m k H v Hin. apply aget_none_iff in H. apply H. change k with (fst (k, v)). now apply in_map. Qed.

  Lemma In_aget_some : forall m k v, In (k, v) m -> exists v', aget m k = Some v'.
  Proof.
    intros m k v Hin. destruct (aget m k) eqn:E; [eauto|].
    exfalso. exact (aget_None m k E v Hin).
  Qed.

  Lemma In_aget_unique : forall m k v, keys_unique m = true -> In (k, v) m -> aget m k = Some v.
  Proof. intros m k v Hu. apply uniq_bytes_NoDup in Hu. apply (In_assoc _ (fun k m => aget m k) (flip_eqb_eq _ bytes_eqb_eq)); [reflexivity..|exact Hu]. Qed.

  Lemma aget_app : forall m1 m2 k,
    aget (m1 ++ m2) k = match aget m1 k with Some v => Some v | None => aget m2 k end.
  Proof. intros m1 m2 k. apply (assoc_app (fun a b => bytes_eqb b a) (fun k m => aget m k)); reflexivity. Qed.

  Lemma keys_unique_snoc : forall m k x,
    keys_unique m = true -> aget m k = None -> keys_unique (m ++ [(k, x)]) = true.
  Proof.
    intros m k x U N. unfold keys_unique in *. rewrite map_app. apply uniq_bytes_NoDup.
    apply nodup_snoc; [apply uniq_bytes_NoDup, U|apply aget_none_iff, N].
  Qed.

  Lemma In_unique_eq : forall m k v v', keys_unique m = true -> In (k, v) m -> In (k, v') m -> v = v'.
  Proof.
    intros m k v v' Hu H1 H2.
    pose proof (In_aget_unique m k v Hu H1) as E1.
    pose proof (In_aget_unique m k v' Hu H2) as E2. congruence.
  Qed.
End Assoc.

Lemma obj_get_aget : forall m k, obj_get m k = aget m k.
Proof. reflexivity. Qed.
Lemma schema_get_aget : forall m k, schema_get m k = aget m k.
Proof. reflexivity. Qed.
Lemma reg_get_aget : forall m k, reg_get m k = aget m k.
Proof. reflexivity. Qed.

(** The UTF-8 encodings of the code points with the Unicode property White_Space. *)
Definition ws_chars : list bytes :=
  [ [9]; [10]; [11]; [12]; [13]; [32];
    [194; 133]; [194; 160]; [225; 154; 128];
    [226; 128; 128]; [226; 128; 129]; [226; 128; 130]; [226; 128; 131]; [226; 128; 132];
    [226; 128; 133]; [226; 128; 134]; [226; 128; 135]; [226; 128; 136]; [226; 128; 137];
    [226; 128; 138]; [226; 128; 168]; [226; 128; 169]; [226; 128; 175]; [226; 129; 159];
    [227; 128; 128] ]%N.

Definition WsChar (w : bytes) : Prop := In w ws_chars.

Inductive Blank : bytes -> Prop :=
| Blank_nil : Blank []
| Blank_app : forall w s, WsChar w -> Blank s -> Blank (w ++ s).

Lemma ws_prefix_app : forall w s, WsChar w -> ws_prefix (w ++ s) = length w /\ w <> [].
Proof.
  intros w s H. unfold WsChar, ws_chars in H. cbn [In] in H.
  repeat (destruct H as [H|H]; [subst w; split; [reflexivity|discriminate]|]). destruct H.
Qed.

Lemma WsChar_existsb : forall w, existsb (bytes_eqb w) ws_chars = true -> WsChar w.
Proof. intro w. apply (existsb_eqb_In bytes_eqb bytes_eqb_eq). Qed.

(** in each branch the test that chose the length is, read as a fact about [c], [d], [e], one of the disjuncts of
    the membership test *)
Lemma ws_prefix_inv : forall s, ws_prefix s <> O ->
  exists w, WsChar w /\ s = w ++ skipn (ws_prefix s) s.
Proof.
  intros s H. exists (firstn (ws_prefix s) s). split; [|symmetry; apply firstn_skipn].
  apply WsChar_existsb. unfold ws_chars.
  destruct s as [|c r]; [contradiction|]. unfold ws_prefix in *.
  destruct (is_ascii_ws c) eqn:Ea.
  { unfold is_ascii_ws in Ea. cbn [firstn existsb bytes_eqb]. lia. }
  destruct r as [|d r2]; [contradiction|].
  destruct (c =? 194)%N eqn:N1.
  { destruct ((d =? 133) || (d =? 160))%N eqn:Ed; [|contradiction]. cbn [firstn existsb bytes_eqb]. lia. }
  destruct r2 as [|e r3]; [contradiction|].
  destruct ((c =? 225) && (d =? 154) && (e =? 128))%N eqn:E1.
  { assert (c = 225 /\ d = 154 /\ e = 128)%N as (-> & -> & ->) by lia. reflexivity. }
  destruct ((c =? 226) && (d =? 128) && (((128 <=? e) && (e <=? 138)) || (e =? 168) || (e =? 169) || (e =? 175)))%N eqn:E2.
  { assert (c = 226 /\ d = 128)%N as (-> & ->) by lia. cbn [firstn existsb bytes_eqb N.eqb Pos.eqb andb orb]. lia. }
  destruct ((c =? 226) && (d =? 129) && (e =? 159))%N eqn:E3.
  { assert (c = 226 /\ d = 129 /\ e = 159)%N as (-> & -> & ->) by lia. reflexivity. }
  destruct ((c =? 227) && (d =? 128) && (e =? 128))%N eqn:E4.
  { assert (c = 227 /\ d = 128 /\ e = 128)%N as (-> & -> & ->) by lia. reflexivity. }
  contradiction H. reflexivity.
Qed.

Lemma Blank_inv : forall s, Blank s -> s = [] \/ exists w s', WsChar w /\ Blank s' /\ s = w ++ s'.
Proof. intros s B. destruct B as [|w s' Hw Hb]; [left; reflexivity|right; eauto]. Qed.

Lemma all_ws_fuel_spec : forall f s, (length s <= f)%nat -> (all_ws_fuel f s = true <-> Blank s).
Proof.
  induction f as [|f IH]; intros s Hl.
  - destruct s; [|cbn in Hl; lia]. cbn. split; [constructor|reflexivity].
  - destruct s as [|c r]; [cbn; split; [constructor|reflexivity]|].
    cbn [all_ws_fuel]. remember (c :: r) as s.
    destruct (ws_prefix s) as [|n] eqn:Ep.
    + split; [discriminate|]. intro B. exfalso.
      destruct (Blank_inv _ B) as [E|(w & s' & Hw & Hb & E)]; [congruence|].
      destruct (ws_prefix_app w s' Hw) as [El Hne]. rewrite E, El in Ep. destruct w; [contradiction|discriminate].
    + destruct (ws_prefix_inv s) as [w [Hw Es]]; [lia|]. rewrite Ep in Es.
      assert (Hl' : (length (skipn (S n) s) <= f)%nat).
      { rewrite skipn_length. lia. }
      destruct (IH _ Hl') as [I1 I2]. split.
      * intro B. rewrite Es. constructor; [assumption|apply I1; exact B].
      * intro B. apply I2. destruct (Blank_inv _ B) as [E|(w' & s' & Hw' & Hb & E)]; [congruence|].
        assert (Hlw : length w' = S n).
        { rewrite E, (proj1 (ws_prefix_app w' s' Hw')) in Ep. exact Ep. }
        assert (Es' : skipn (S n) s = s').
        { rewrite E, <- Hlw. rewrite skipn_app, skipn_all, Nat.sub_diag. reflexivity. }
        rewrite Es'. exact Hb.
Qed.

Theorem is_blank_spec : forall s, is_blank s = true <-> Blank s.
Proof. intro s. unfold is_blank. apply all_ws_fuel_spec. lia. Qed.

Open Scope Z_scope.

Lemma normalize_some_iff : forall n, normalize_integer_epoch n <> None <-> Z.abs n < 10 ^ 19.
Proof. intro n. rewrite normalize_none_iff. lia. Qed.

(** [FT] says which float bit patterns count as a time; the property's reading is
    [FloatInRange]: those whose floor is a representable second count. *)
Section Spec.
  Variable FT : N -> Prop.

  Inductive TimeValue : json -> Prop :=
  | TV_str : forall s t, parse_str_to_epoch_seconds (utrim s) = Some t -> TimeValue (JStr s)
  | TV_pos : forall n, Z.of_N n < 10 ^ 19 -> TimeValue (JNum (PosInt n))
  | TV_neg : forall z, Z.abs z < 10 ^ 19 -> TimeValue (JNum (NegInt z))
  | TV_float : forall b, FT b -> TimeValue (JNum (Float b)).

  Inductive HasPrim : prim -> json -> Prop :=
  | HP_string : forall s, HasPrim TString (JStr s)
  | HP_u64 : forall n, HasPrim TU64 (JNum (PosInt n))
  | HP_i64_pos : forall n, Z.of_N n <= i64_hi -> HasPrim TI64 (JNum (PosInt n))
  | HP_i64_neg : forall z, HasPrim TI64 (JNum (NegInt z))
  | HP_f64 : forall x, HasPrim TF64 (JNum x)
  | HP_bool : forall b, HasPrim TBool (JBool b)
  | HP_timestamp : forall v, TimeValue v -> HasPrim TTimestamp v
  | HP_date : forall v, TimeValue v -> HasPrim TDate v.

  Inductive HasType : ftype -> json -> Prop :=
  | HT_prim : forall p v, HasPrim p v -> HasType (FPrim p) v
  | HT_opt_null : forall p, HasType (FOpt p) JNull
  | HT_opt_some : forall p v, HasPrim p v -> HasType (FOpt p) v
  | HT_enum : forall vs s, In s vs -> HasType (FEnum vs) (JStr s).

  Definition Optional (ft : ftype) : Prop := exists p, ft = FOpt p.

  Definition Conforms (reg : registry) (cmd : store_cmd) : Prop :=
    ~ Blank (sc_type cmd) /\ ~ Blank (sc_ctx cmd) /\
    exists sc obj,
      In (sc_type cmd, sc) reg /\ sc_payload cmd = JObj obj /\
      (forall k v, In (k, v) obj -> exists ft, In (k, ft) sc /\ HasType ft v) /\
      (forall k ft, In (k, ft) sc -> (exists v, In (k, v) obj) \/ Optional ft).
End Spec.

Definition FloatInRange : N -> Prop := fun b => i64_lo <= f64_floor b <= i64_hi.

(** [normalize_json_value] rejects a float time whose floor is not an i64 (sneldb 8f02d15) *)
Lemma range_checked_flag : time_float_range_checked = true.
Proof. reflexivity. Qed.

Lemma in_i64_spec : forall z, in_i64 z = true <-> i64_lo <= z <= i64_hi.
Proof. intro z. unfold in_i64. lia. Qed.

Definition wf_reg (reg : registry) : Prop :=
  keys_unique reg = true /\ forall et sc, In (et, sc) reg -> keys_unique sc = true.
Definition wf_payload (v : json) : Prop :=
  match v with JObj obj => keys_unique obj = true | _ => True end.

(** the arms of [type_allows_value] as regenerated; [prim_allows_nontime] and [prim_allows_time] compute with
    these values *)
Lemma tav_codes :
  tav_string = 0%N /\ tav_u64 = 1%N /\ tav_i64 = 2%N /\ tav_f64 = 3%N /\ tav_bool = 4%N /\
  tav_timestamp = 5%N /\ tav_date = 5%N.
Proof. repeat split; reflexivity. Qed.

Lemma time_of_value_some : forall v,
  (is_string v || is_number v = true /\ time_of_value v <> None) <-> TimeValue FloatInRange v.
Proof.
  intro v. split.
  - intros [Hs Ht]. destruct v as [| |n|s| |]; cbn in Hs; try discriminate.
    + destruct n as [n|z|b]; cbn [time_of_value] in Ht.
      * apply TV_pos. apply normalize_some_iff in Ht. lia.
      * apply TV_neg. apply normalize_some_iff in Ht. exact Ht.
      * apply TV_float. rewrite range_checked_flag in Ht. cbn [andb] in Ht.
        apply in_i64_spec. destruct (in_i64 (f64_floor b)); [reflexivity|]. exfalso. apply Ht. reflexivity.
    + cbn [time_of_value] in Ht. destruct (parse_str_to_epoch_seconds (utrim s)) as [t|] eqn:E; [|congruence].
      apply TV_str with t. exact E.
  - intro H. inversion H as [s t E| n Hn| z Hz| b Hb]; cbn [is_string is_number orb time_of_value]; split; try reflexivity.
    + congruence.
    + apply normalize_some_iff. lia.
    + apply normalize_some_iff. assumption.
    + apply in_i64_spec in Hb. rewrite range_checked_flag, Hb. discriminate.
Qed.

Lemma prim_allows_nontime : forall FT p v, time_prim p = false ->
  (prim_allows p v = true <-> HasPrim FT p v).
Proof.
  intros FT p v Hp. unfold prim_allows, tav_code.
  destruct p; try discriminate Hp; cbn [pred_of_code tav_string tav_u64 tav_i64 tav_f64 tav_bool]; split; intro H.
  - destruct v; try discriminate. constructor.
  - inversion H; reflexivity.
  - destruct v as [| |n| | |]; try discriminate. destruct n; try discriminate. constructor.
  - inversion H; reflexivity.
  - destruct v as [| |n| | |]; try discriminate. destruct n as [n|z|b]; cbn [as_i64 num_as_i64] in H; try discriminate.
    + destruct (Z.leb_spec (Z.of_N n) i64_hi); [|discriminate]. constructor. assumption.
    + constructor.
  - inversion H; cbn [as_i64 num_as_i64].
    + destruct (Z.leb_spec (Z.of_N n) i64_hi); [reflexivity|lia].
    + reflexivity.
  - destruct v as [| |n| | |]; try discriminate. constructor.
  - inversion H; reflexivity.
  - destruct v; try discriminate. constructor.
  - inversion H; reflexivity.
Qed.

Lemma prim_allows_time : forall p v, time_prim p = true ->
  prim_allows p v = (is_string v || is_number v).
Proof. intros p v Hp. destruct p; try discriminate Hp; reflexivity. Qed.

Lemma HasPrim_time : forall FT p v, time_prim p = true -> (HasPrim FT p v <-> TimeValue FT v).
Proof.
  intros FT p v Hp. destruct p; try discriminate Hp; split; intro H; try (inversion H; assumption); constructor; assumption.
Qed.

Definition value_accepted (ft : ftype) (v : json) : Prop :=
  type_allows_value ft v = true /\ (needs_time ft v = true -> time_of_value v <> None).

Lemma prim_accepted : forall p v,
  (prim_allows p v = true /\ (time_prim p = true -> time_of_value v <> None)) <-> HasPrim FloatInRange p v.
Proof.
  intros p v. destruct (time_prim p) eqn:Hp.
  - rewrite prim_allows_time by exact Hp. rewrite (HasPrim_time FloatInRange p v Hp).
    rewrite <- time_of_value_some. tauto.
  - rewrite (prim_allows_nontime FloatInRange p v Hp).
    split; [tauto|]. intro H. split; [exact H|discriminate].
Qed.

Lemma value_accepted_spec : forall ft v, value_accepted ft v <-> HasType FloatInRange ft v.
Proof.
  intros ft v. unfold value_accepted. destruct ft as [p|p|vs]; cbn [type_allows_value needs_time].
  - rewrite prim_accepted. split; [intro H; constructor; exact H|intro H; inversion H; assumption].
  - destruct v as [| |n|s| |]; cbn [is_null orb negb].
    1: { split; [intros _; constructor|]. intros _. split; [reflexivity|]. rewrite andb_false_r. discriminate. }
    all: rewrite andb_true_r; rewrite prim_accepted;
      (split; [intro H; apply HT_opt_some; exact H|intro H; inversion H; assumption]).
  - split.
    + intros [H _]. destruct v; cbn in H; try discriminate. constructor. apply mem_bytes_In. exact H.
    + intro H. inversion H. split; [|discriminate]. cbn. apply mem_bytes_In. assumption.
Qed.

Lemma normalize_obj_some : forall sc obj,
  normalize_obj sc obj <> None <-> (forall k v, In (k, v) obj -> normalize_value sc k v <> None).
Proof.
  intros sc obj. induction obj as [|[k v] obj IH]; cbn [normalize_obj].
  - split; [intros _ k v []|discriminate].
  - destruct (normalize_value sc k v) eqn:Ev.
    + destruct (normalize_obj sc obj).
      * split; [|discriminate]. intros _ k' v' [E|Hin]; [inversion E; congruence|].
        apply IH; [discriminate|exact Hin].
      * split; [congruence|]. intros H. apply IH. intros k' v' Hin. apply H. right. exact Hin.
    + split; [congruence|]. intros H. exfalso. apply (H k v); [left; reflexivity|exact Ev].
Qed.

Lemma normalize_value_some : forall sc k v ft, schema_get sc k = Some ft ->
  (normalize_value sc k v <> None <-> (needs_time ft v = true -> time_of_value v <> None)).
Proof.
  intros sc k v ft E. unfold normalize_value. rewrite E.
  destruct (needs_time ft v).
  - destruct (time_of_value v); cbn; split; intro H; try discriminate; try congruence.
    exfalso. apply H; reflexivity.
  - split; [discriminate|]. intros _. discriminate.
Qed.

Lemma is_optional_spec : forall ft, is_optional ft = true <-> Optional ft.
Proof.
  intro ft. unfold Optional. destruct ft; cbn; split; intro H; try discriminate; eauto.
  - destruct H as [q H]. discriminate.
  - destruct H as [q H]. discriminate.
Qed.

Lemma payload_ok_spec : forall sc obj,
  keys_unique sc = true -> keys_unique obj = true ->
  ((check_fields obj sc = true /\ no_extra_keys obj sc = true /\ normalize_obj sc obj <> None)
   <->
   ((forall k v, In (k, v) obj -> exists ft, In (k, ft) sc /\ HasType FloatInRange ft v) /\
    (forall k ft, In (k, ft) sc -> (exists v, In (k, v) obj) \/ Optional ft))).
Proof.
  intros sc obj Hsu Hou. unfold check_fields, no_extra_keys. rewrite !forallb_forall, normalize_obj_some.
  split.
  - intros (Hcf & Hne & Hno). split.
    + intros k v Hin.
      specialize (Hne (k, v) Hin). cbn [fst] in Hne. rewrite schema_get_aget in Hne.
      destruct (aget sc k) as [ft|] eqn:Eg; [|discriminate].
      pose proof (aget_In _ _ _ Eg) as Hs.
      exists ft. split; [exact Hs|]. apply value_accepted_spec. split.
      * specialize (Hcf (k, ft) Hs). unfold field_ok in Hcf. cbn [fst snd] in Hcf.
        rewrite obj_get_aget, (In_aget_unique obj k v Hou Hin) in Hcf. exact Hcf.
      * apply (normalize_value_some sc k v ft); [exact Eg|]. apply Hno. exact Hin.
    + intros k ft Hs. specialize (Hcf (k, ft) Hs). unfold field_ok in Hcf. cbn [fst snd] in Hcf.
      rewrite obj_get_aget in Hcf. destruct (aget obj k) as [v|] eqn:Eg.
      * left. exists v. apply aget_In. exact Eg.
      * right. apply is_optional_spec. exact Hcf.
  - intros (H1 & H2). split; [|split].
    + intros [f ft] Hs. unfold field_ok. cbn [fst snd]. rewrite obj_get_aget.
      destruct (aget obj f) as [v|] eqn:Eg.
      * pose proof (aget_In _ _ _ Eg) as Hin. destruct (H1 f v Hin) as (ft' & Hs' & Ht).
        rewrite (In_unique_eq sc f ft ft' Hsu Hs Hs'). apply value_accepted_spec in Ht. apply Ht.
      * destruct (H2 f ft Hs) as [[v Hin]|Ho].
        -- exfalso. exact (aget_None obj f Eg v Hin).
        -- apply is_optional_spec. exact Ho.
    + intros [k v] Hin. cbn [fst]. destruct (H1 k v Hin) as (ft & Hs & _).
      rewrite schema_get_aget. destruct (In_aget_some sc k ft Hs) as [ft' E]. rewrite E. reflexivity.
    + intros k v Hin. destruct (H1 k v Hin) as (ft & Hs & Ht).
      apply (normalize_value_some sc k v ft).
      * apply In_aget_unique; assumption.
      * apply value_accepted_spec in Ht. apply Ht.
Qed.

Lemma not_blank : forall s, is_blank s = false <-> ~ Blank s.
Proof. intro s. rewrite <- is_blank_spec. symmetry. apply not_true_iff_false. Qed.

(** left to right the parts of [Conforms] are read off the handler's run; right to left they drive it *)
Theorem accept_iff_conforms : forall reg cmd,
  wf_reg reg -> wf_payload (sc_payload cmd) ->
  (store_ok reg cmd = true <-> Conforms FloatInRange reg cmd).
Proof.
  intros reg cmd [Hru Hrs] Hwp. unfold store_ok, store_check, Conforms. rewrite <- !not_blank, reg_get_aget. split.
  - destruct (is_blank (sc_type cmd)); [discriminate|]. destruct (is_blank (sc_ctx cmd)); [discriminate|].
    destruct (aget reg (sc_type cmd)) as [sc|] eqn:Eg; [|discriminate]. apply aget_In in Eg.
    destruct (sc_payload cmd) as [| | | | |obj]; try discriminate. cbn [validate_payload].
    destruct (check_fields obj sc) eqn:E1; [|discriminate]. destruct (no_extra_keys obj sc) eqn:E2; [|discriminate].
    destruct (normalize_obj sc obj) eqn:E3; [|discriminate]. intros _.
    split; [reflexivity|split; [reflexivity|]]. exists sc, obj. split; [exact Eg|split; [reflexivity|]].
    apply (payload_ok_spec sc obj (Hrs _ _ Eg) Hwp). rewrite E1, E2, E3. repeat split. discriminate.
  - intros (-> & -> & sc & obj & Hin & Hp & Hc). rewrite Hp in *.
    apply (payload_ok_spec sc obj (Hrs _ _ Hin) Hwp) in Hc as (E1 & E2 & E3).
    rewrite (In_aget_unique reg _ sc Hru Hin). cbn [validate_payload]. rewrite E1, E2.
    destruct (normalize_obj sc obj); [reflexivity|congruence].
Qed.

Definition scalar (v : json) : Prop :=
  match v with JArr _ | JObj _ => False | _ => True end.

Lemma HasType_scalar : forall FT ft v, HasType FT ft v -> scalar v.
Proof.
  intros FT ft v H. inversion H as [p v' Hp| |p v' Hp|]; try exact I;
    inversion Hp as [| | | | | |v'' Ht|v'' Ht]; try exact I; inversion Ht; exact I.
Qed.

Theorem conforms_flat_exact_keys : forall FT reg cmd, Conforms FT reg cmd ->
  exists sc obj, In (sc_type cmd, sc) reg /\ sc_payload cmd = JObj obj /\
    (forall k v, In (k, v) obj -> scalar v /\ exists ft, In (k, ft) sc) /\
    (forall k ft, In (k, ft) sc -> ~ Optional ft -> exists v, In (k, v) obj).
Proof.
  intros FT reg cmd (_ & _ & sc & obj & Hin & Hp & H1 & H2).
  exists sc, obj. repeat split; try assumption.
  - destruct (H1 k v H) as (ft & _ & Ht). exact (HasType_scalar FT ft v Ht).
  - destruct (H1 k v H) as (ft & Hs & _). eauto.
  - intros k ft Hs Hno. destruct (H2 k ft Hs) as [Hv|Ho]; [exact Hv|contradiction].
Qed.

Theorem reject_no_trace : forall st cmd,
  store_ok (st_reg st) cmd = false -> step_store st cmd = st.
Proof.
  intros st cmd H. unfold step_store, store_ok in *.
  destruct (store_check (st_reg st) cmd); [discriminate|reflexivity].
Qed.

Lemma visible_app : forall r es e et,
  visible {| st_reg := r; st_events := es ++ [e] |} et =
  visible {| st_reg := r; st_events := es |} et ++ (if bytes_eqb (ev_type e) et then [e] else []).
Proof. intros. unfold visible. cbn [st_events]. rewrite filter_app. cbn [filter]. reflexivity. Qed.

Theorem accept_one_event : forall st cmd,
  store_ok (st_reg st) cmd = true ->
  exists p,
    let ev := {| ev_type := sc_type cmd; ev_ctx := sc_ctx cmd; ev_payload := p |} in
    store_check (st_reg st) cmd = Accepted p /\
    st_reg (step_store st cmd) = st_reg st /\
    st_events (step_store st cmd) = st_events st ++ [ev] /\
    visible (step_store st cmd) (sc_type cmd) = visible st (sc_type cmd) ++ [ev] /\
    (forall et, et <> sc_type cmd -> visible (step_store st cmd) et = visible st et).
Proof.
  intros st cmd H. unfold store_ok in H. unfold step_store.
  destruct (store_check (st_reg st) cmd) as [p|e]; [|discriminate].
  exists p. repeat split.
  - destruct st as [r es]. cbn [st_reg st_events]. rewrite visible_app. cbn [ev_type].
    rewrite bytes_eqb_refl. reflexivity.
  - intros et Hne. destruct st as [r es]. cbn [st_reg st_events]. rewrite visible_app. cbn [ev_type].
    assert (F : bytes_eqb (sc_type cmd) et = false) by (apply bytes_eqb_neq; congruence).
    rewrite F, app_nil_r. reflexivity.
Qed.

Theorem define_error_keeps : forall reg et cs e,
  define reg et cs = DefErr e -> define_reg reg et cs = reg.
Proof. intros reg et cs e H. unfold define_reg. rewrite H. reflexivity. Qed.

Theorem define_error_iff : forall reg et cs e,
  define reg et cs = DefErr e <->
  ((exists sc, reg_get reg et = Some sc) /\ e = AlreadyDefined) \/
  (reg_get reg et = None /\ cs = [] /\ e = EmptySchema).
Proof.
  intros reg et cs e. unfold define. destruct (reg_get reg et) as [sc|].
  - split.
    + intro H. inversion H. left. eauto.
    + intros [[_ ->]|[H _]]; [reflexivity|discriminate].
  - destruct cs as [|c cs].
    + split.
      * intro H. inversion H. right. auto.
      * intros [[[sc H] _]|(_ & _ & ->)]; [discriminate|reflexivity].
    + split; [discriminate|]. intros [[[sc H] _]|(_ & H & _)]; discriminate.
Qed.

Lemma define_ok_iff : forall reg et cs r',
  define reg et cs = DefOk r' <->
  reg_get reg et = None /\ cs <> [] /\ r' = reg ++ [(et, schema_of_cmd cs)].
Proof.
  intros reg et cs r'. unfold define. destruct (reg_get reg et); [|destruct cs as [|c cs]].
  1, 2: split; [discriminate|intros (E & N & _); congruence].
  split; [intros [= <-]; repeat split; discriminate|intros (_ & _ & ->); reflexivity].
Qed.

Theorem define_ok_appends : forall reg et cs r',
  define reg et cs = DefOk r' ->
  reg_get reg et = None /\ cs <> [] /\
  reg_get r' et = Some (schema_of_cmd cs) /\
  (forall et', et' <> et -> reg_get r' et' = reg_get reg et').
Proof.
  intros reg et cs r' H. apply define_ok_iff in H as (Eg & Hc & ->). repeat split; [exact Eg|exact Hc|..].
  - rewrite reg_get_aget, aget_app, <- (reg_get_aget reg), Eg. cbn [aget]. rewrite bytes_eqb_refl. reflexivity.
  - intros et' Hne. rewrite (reg_get_aget reg), reg_get_aget, aget_app. cbn [aget].
    assert (F : bytes_eqb et et' = false) by (apply bytes_eqb_neq; congruence). rewrite F.
    destruct (aget reg et'); reflexivity.
Qed.

Lemma define_reg_cases : forall reg et cs,
  define_reg reg et cs = reg \/
  reg_get reg et = None /\ define_reg reg et cs = reg ++ [(et, schema_of_cmd cs)].
Proof.
  intros reg et cs. unfold define_reg. destruct (define reg et cs) as [r'|e] eqn:E; [|left; reflexivity].
  apply define_ok_iff in E as (Eg & _ & ->). right. split; [exact Eg|reflexivity].
Qed.

Theorem define_keeps_existing : forall reg et cs et' sc,
  reg_get reg et' = Some sc -> reg_get (define_reg reg et cs) et' = Some sc.
Proof.
  intros reg et cs et' sc H. destruct (define_reg_cases reg et cs) as [->|[_ ->]]; [exact H|].
  rewrite reg_get_aget, aget_app, <- (reg_get_aget reg), H. reflexivity.
Qed.

Theorem define_history_keeps : forall (ds : list (bytes * cmd_schema)) reg et sc,
  reg_get reg et = Some sc ->
  reg_get (fold_left (fun r d => define_reg r (fst d) (snd d)) ds reg) et = Some sc.
Proof.
  induction ds as [|d ds IH]; intros reg et sc H; cbn [fold_left]; [exact H|].
  apply IH. apply define_keeps_existing. exact H.
Qed.

Theorem define_error_state : forall st et cs e,
  define (st_reg st) et cs = DefErr e -> step_define st et cs = st.
Proof.
  intros st et cs e D. unfold step_define. rewrite (define_error_keeps _ _ _ _ D). destruct st; reflexivity.
Qed.

Theorem define_error_keeps_schema : forall st et cs e,
  define (st_reg st) et cs = DefErr e ->
  step_define st et cs = st /\
  (forall et', reg_get (st_reg (step_define st et cs)) et' = reg_get (st_reg st) et') /\
  (forall cmd, store_check (st_reg (step_define st et cs)) cmd = store_check (st_reg st) cmd).
Proof.
  intros st et cs e D. pose proof (define_error_state st et cs e D) as S.
  split; [exact S|]. split; intros; rewrite S; reflexivity.
Qed.

Theorem define_existing_rejected : forall st et cs sc,
  reg_get (st_reg st) et = Some sc ->
  define (st_reg st) et cs = DefErr AlreadyDefined /\
  step_define st et cs = st /\
  (forall cmd, store_check (st_reg (step_define st et cs)) cmd = store_check (st_reg st) cmd).
Proof.
  intros st et cs sc H.
  assert (D : define (st_reg st) et cs = DefErr AlreadyDefined) by (apply define_error_iff; left; eauto).
  destruct (define_error_keeps_schema st et cs _ D) as (S & _ & C). auto.
Qed.

Lemma keys_unique_schema_of_cmd : forall cs, keys_unique (schema_of_cmd cs) = keys_unique cs.
Proof.
  intro cs. unfold keys_unique, schema_of_cmd. rewrite map_map.
  f_equal. apply map_ext. intros [n s]. reflexivity.
Qed.

Inductive Reachable : registry -> Prop :=
| R_empty : Reachable []
| R_define : forall reg et cs, Reachable reg -> keys_unique cs = true -> Reachable (define_reg reg et cs).

Lemma wf_reg_empty : wf_reg [].
Proof. split; [reflexivity|intros et sc []]. Qed.

Lemma wf_reg_define : forall reg et cs, wf_reg reg -> keys_unique cs = true -> wf_reg (define_reg reg et cs).
Proof.
  intros reg et cs [Hu Hs] Hc. destruct (define_reg_cases reg et cs) as [->|[Eg ->]]; [split; assumption|]. split.
  - apply keys_unique_snoc; assumption.
  - intros et' sc Hin. apply in_app_or in Hin. destruct Hin as [Hin|[Heq|[]]]; [eauto|].
    inversion Heq. rewrite <- keys_unique_schema_of_cmd in Hc. exact Hc.
Qed.

Theorem reachable_wf : forall reg, Reachable reg -> wf_reg reg.
Proof. induction 1; [apply wf_reg_empty|apply wf_reg_define; assumption]. Qed.

(** The command line.  Each of the two flags names the defect, and is off: [store_brace_scan_ignores_strings] is a
    brace count that is blind to string literals (the STORE grammar skips JSON strings when it balances braces,
    sneldb fced25a), [tokenizer_rejects_plus] a tokenizer that refuses the '+' of an exponent (it accepts it, sneldb
    b3737c8).  With both off [brace_seq], [closes_at_end] and [tx_plus_exp] do not enter [text_parses]. *)
Lemma brace_scan_flag : store_brace_scan_ignores_strings = false.
Proof. reflexivity. Qed.
Lemma rejects_plus_flag : tokenizer_rejects_plus = false.
Proof. reflexivity. Qed.

Lemma text_parses_obj : forall t,
  text_parses t = match sc_payload (tx_cmd t) with JObj _ => true | _ => false end.
Proof.
  intro t. unfold text_parses, braces_ok. rewrite rejects_plus_flag, brace_scan_flag. reflexivity.
Qed.

Lemma store_ok_object : forall reg cmd, store_ok reg cmd = true -> exists obj, sc_payload cmd = JObj obj.
Proof.
  intros reg cmd. unfold store_ok, store_check.
  destruct (is_blank (sc_type cmd)), (is_blank (sc_ctx cmd)), (reg_get reg (sc_type cmd)); try discriminate.
  destruct (sc_payload cmd); try discriminate. eauto.
Qed.

(** a payload that is no object, which is all the front refuses, the handler refuses too *)
Lemma text_transparent : forall reg t, store_text_ok reg t = store_ok reg (tx_cmd t).
Proof.
  intros reg t. unfold store_text_ok. rewrite text_parses_obj.
  destruct (store_ok reg (tx_cmd t)) eqn:E; [|apply andb_false_r].
  destruct (store_ok_object _ _ E) as [obj ->]. reflexivity.
Qed.

Theorem text_front_transparent : forall reg t obj,
  sc_payload (tx_cmd t) = JObj obj -> store_text_ok reg t = store_ok reg (tx_cmd t).
Proof. intros reg t obj _. apply text_transparent. Qed.

Theorem text_accept_iff_conforms : forall reg t,
  wf_reg reg -> wf_payload (sc_payload (tx_cmd t)) ->
  (store_text_ok reg t = true <-> Conforms FloatInRange reg (tx_cmd t)).
Proof. intros reg t. rewrite text_transparent. apply accept_iff_conforms. Qed.

Theorem text_reject_no_trace : forall st t,
  store_text_ok (st_reg st) t = false -> step_store_text st t = st.
Proof.
  intros st t H. unfold step_store_text, store_text_ok in *.
  destruct (text_parses t); [|reflexivity]. cbn [andb] in H. apply reject_no_trace. exact H.
Qed.

(** the closed inputs below, as commands:

    DEFINE t { ts: "datetime" };             STORE t FOR c PAYLOAD {"ts": 1e300}      -> rejected
    DEFINE t { s: "string", f: "float" };    STORE t FOR c PAYLOAD {"s":"}","f":1}    -> accepted
                                             STORE t FOR c PAYLOAD {"s":"x","f":1e+16} -> accepted *)
Definition w_ts : bytes := [116; 115]%N.
Definition w_t : bytes := [116]%N.
Definition w_c : bytes := [99]%N.
Definition w_s : bytes := [115]%N.
Definition w_f : bytes := [102]%N.
Definition w_reg_time : registry :=
  define_reg [] w_t [(w_ts, SPrim [100; 97; 116; 101; 116; 105; 109; 101]%N)].
Definition w_cmd_1e300 : store_cmd :=
  {| sc_type := w_t; sc_ctx := w_c; sc_payload := JObj [(w_ts, JNum (Float 9094988921128908188%N))] |}.
Definition w_reg_text : registry :=
  define_reg [] w_t [(w_s, SPrim [115; 116; 114; 105; 110; 103]%N); (w_f, SPrim [102; 108; 111; 97; 116]%N)].
Definition w_text_brace : store_text :=
  {| tx_cmd := {| sc_type := w_t; sc_ctx := w_c;
                  sc_payload := JObj [(w_s, JStr [125]%N); (w_f, JNum (PosInt 1))] |};
     tx_plus_exp := false |}.
Definition w_text_plus : store_text :=
  {| tx_cmd := {| sc_type := w_t; sc_ctx := w_c;
                  sc_payload := JObj [(w_s, JStr [120]%N); (w_f, JNum (Float 4846369599423283200%N))] |};
     tx_plus_exp := true |}.

Lemma w_reg_time_reachable : Reachable w_reg_time.
Proof. apply R_define; [apply R_empty|reflexivity]. Qed.
Lemma w_reg_text_reachable : Reachable w_reg_text.
Proof. apply R_define; [apply R_empty|reflexivity]. Qed.

(** one closed input per guard: [range_checked_flag], [brace_scan_flag], [rejects_plus_flag] *)
Theorem former_witnesses_repaired :
  store_ok w_reg_time w_cmd_1e300 = false /\
  store_text_ok w_reg_text w_text_brace = true /\
  store_text_ok w_reg_text w_text_plus = true.
Proof. repeat apply conj; vm_compute; reflexivity. Qed.

Definition w_cmd_ok : store_cmd :=
  {| sc_type := w_t; sc_ctx := w_c; sc_payload := JObj [(w_s, JStr [120]%N); (w_f, JNum (PosInt 1))] |}.

Example conforms_witness :
  wf_reg w_reg_text /\ wf_payload (sc_payload w_cmd_ok) /\
  store_ok w_reg_text w_cmd_ok = true /\ Conforms FloatInRange w_reg_text w_cmd_ok.
Proof.
  pose proof (reachable_wf _ w_reg_text_reachable) as Hwf.
  split; [exact Hwf|]. split; [reflexivity|]. split; [vm_compute; reflexivity|].
  apply (accept_iff_conforms _ _ Hwf); [reflexivity|vm_compute; reflexivity].
Qed.

Example text_conforms_witness :
  Conforms FloatInRange w_reg_text (tx_cmd w_text_brace) /\ Conforms FloatInRange w_reg_text (tx_cmd w_text_plus).
Proof.
  pose proof (reachable_wf _ w_reg_text_reachable) as Hwf.
  split; apply (text_accept_iff_conforms _ _ Hwf); reflexivity.
Qed.

Example reject_witness : store_ok w_reg_text {| sc_type := w_t; sc_ctx := []; sc_payload := JNull |} = false.
Proof. vm_compute. reflexivity. Qed.

Example define_error_witness :
  exists e, define w_reg_text w_t [(w_s, SPrim [105; 110; 116]%N)] = DefErr e.
Proof. eexists. vm_compute. reflexivity. Qed.

Example define_ok_witness :
  exists r, define [] w_t [(w_s, SPrim [105; 110; 116]%N)] = DefOk r.
Proof. eexists. vm_compute. reflexivity. Qed.

(** [alias_resolution] sweeps the regenerated alias table: every alias as listed, in upper case, as [T | null] and
    as [null | T].  Any letter case is [alias_case_insensitive], which is about [from_primitive_str] alone, not about
    the [T | null] path. *)

Lemma to_lower_idem : forall c, to_lower (to_lower c) = to_lower c.
Proof. intro c. unfold to_lower. repeat match goal with |- context [if ?b then _ else _] => destruct b eqn:? end; lia. Qed.

Lemma to_lower_upper : forall c, to_lower (to_upper c) = to_lower c.
Proof. intro c. unfold to_lower, to_upper. repeat match goal with |- context [if ?b then _ else _] => destruct b eqn:? end; lia. Qed.

Theorem alias_case_insensitive : forall s s',
  map to_lower s = map to_lower s' -> from_primitive_str s = from_primitive_str s'.
Proof. intros s s' H. unfold from_primitive_str. rewrite H. reflexivity. Qed.

Corollary alias_upper : forall s, from_primitive_str (map to_upper s) = from_primitive_str s.
Proof.
  intro s. apply alias_case_insensitive. rewrite map_map. apply map_ext. apply to_lower_upper.
Qed.

Definition bar_null : bytes := [32; 124; 32; 110; 117; 108; 108]%N.   (* " | null" *)
Definition null_bar : bytes := [110; 117; 108; 108; 32; 124; 32]%N.   (* "null | " *)

Definition alias_ok (e : bytes * N) : bool :=
  match prim_of_code (snd e) with
  | None => false
  | Some p =>
      match from_spec_with_nullable (fst e), from_spec_with_nullable (map to_upper (fst e)),
            from_spec_with_nullable (fst e ++ bar_null), from_spec_with_nullable (null_bar ++ fst e) with
      | Some (FPrim p1), Some (FPrim p2), Some (FOpt p3), Some (FOpt p4) =>
          match p, p1, p2, p3, p4 with
          | TString, TString, TString, TString, TString
          | TU64, TU64, TU64, TU64, TU64
          | TI64, TI64, TI64, TI64, TI64
          | TF64, TF64, TF64, TF64, TF64
          | TBool, TBool, TBool, TBool, TBool
          | TTimestamp, TTimestamp, TTimestamp, TTimestamp, TTimestamp
          | TDate, TDate, TDate, TDate, TDate => true
          | _, _, _, _, _ => false
          end
      | _, _, _, _ => false
      end
  end.

Theorem alias_resolution : forallb alias_ok schema_alias_table = true /\ (1 <= length schema_alias_table)%nat.
Proof. split; [vm_compute; reflexivity|vm_compute; lia]. Qed.

Theorem unknown_spec_is_string : forall s,
  from_spec_with_nullable s = None -> field_of_spec (SPrim s) = FPrim TString.
Proof. intros s H. unfold field_of_spec. rewrite H. reflexivity. Qed.

Example unknown_spec_witness :
  from_spec_with_nullable [102; 111; 111; 32; 124; 32; 110; 117; 108; 108]%N = None.   (* "foo | null" *)
Proof. vm_compute. reflexivity. Qed.

Lemma reg_insert_absent : forall r et sc, aget r et = None -> reg_insert r et sc = r ++ [(et, sc)].
Proof.
  induction r as [|[k s] r IH]; intros et sc H; cbn in *; [reflexivity|].
  destruct (bytes_eqb k et); [discriminate|]. rewrite IH by exact H. reflexivity.
Qed.

Lemma uniq_bytes_app_l : forall a b, uniq_bytes (a ++ b) = true -> uniq_bytes a = true.
Proof. intros a b H. apply uniq_bytes_NoDup. apply uniq_bytes_NoDup, nodup_app in H. apply H. Qed.

Lemma replay_from : forall l acc, keys_unique (acc ++ l) = true ->
  fold_left (fun r rc => reg_insert r (fst rc) (snd rc)) l acc = acc ++ l.
Proof.
  induction l as [|[et sc] l IH]; intros acc H; cbn [fold_left fst snd]; [rewrite app_nil_r; reflexivity|].
  assert (Hn : aget acc et = None).
  { apply aget_none_iff. unfold keys_unique in H. rewrite map_app in H. apply uniq_bytes_NoDup in H.
    cbn [map fst] in H. apply NoDup_remove_2 in H. intros I. apply H, in_or_app. now left. }
  rewrite (reg_insert_absent acc et sc Hn).
  rewrite IH; rewrite <- app_assoc; cbn [app]; [reflexivity|exact H].
Qed.

Theorem replay_unique : forall l, keys_unique l = true -> replay l = l.
Proof. intros l H. unfold replay. rewrite (replay_from l [] H). reflexivity. Qed.

Lemma define_p_reg : forall ps et cs, ps_reg (fst (define_p ps et cs)) = define_reg (ps_reg ps) et cs.
Proof. intros ps et cs. unfold define_p, define_reg. destruct (define (ps_reg ps) et cs); reflexivity. Qed.

Definition ps_inv (ps : pstate) : Prop := ps_log ps = ps_reg ps /\ keys_unique (ps_reg ps) = true.

Lemma ps_inv_init : ps_inv ps_init.
Proof. split; reflexivity. Qed.

Lemma ps_inv_restart : forall ps, ps_inv ps -> restart_p ps = ps.
Proof.
  intros [r l] [E U]. cbn [ps_reg ps_log] in *. subst l. unfold restart_p. cbn [ps_reg ps_log]. rewrite (replay_unique r U). reflexivity.
Qed.

Lemma ps_inv_step : forall ps op, ps_inv ps -> ps_inv (step_p ps op).
Proof.
  intros ps op I. destruct op as [et cs|]; cbn [step_p].
  - destruct ps as [r l]. destruct I as [E U]. cbn [ps_reg ps_log] in E, U. subst l.
    unfold define_p. cbn [ps_reg ps_log]. destruct (define r et cs) as [r'|e] eqn:D; [|split; [reflexivity|exact U]].
    apply define_ok_iff in D as (Eg & _ & ->). split; [reflexivity|]. apply keys_unique_snoc; assumption.
  - rewrite (ps_inv_restart ps I). exact I.
Qed.

Lemma ps_inv_fold : forall ops ps, ps_inv ps -> ps_inv (fold_left step_p ops ps).
Proof. induction ops as [|op ops IH]; intros ps H; cbn [fold_left]; [exact H|]. apply IH. apply ps_inv_step. exact H. Qed.

Lemma ps_inv_run : forall ops, ps_inv (run_p ops).
Proof. intro ops. apply ps_inv_fold. apply ps_inv_init. Qed.

Theorem restart_same_registry : forall ops,
  restart_p (run_p ops) = run_p ops /\
  (forall cmd, store_check (ps_reg (restart_p (run_p ops))) cmd = store_check (ps_reg (run_p ops)) cmd).
Proof.
  intro ops. pose proof (ps_inv_restart _ (ps_inv_run ops)) as R. split; [exact R|]. intro cmd. rewrite R. reflexivity.
Qed.

Theorem rejected_define_no_trace_p : forall ps et cs e,
  define (ps_reg ps) et cs = DefErr e ->
  fst (define_p ps et cs) = ps /\ snd (define_p ps et cs) = Some e /\
  restart_p (fst (define_p ps et cs)) = restart_p ps.
Proof.
  intros ps et cs e H. unfold define_p. rewrite H. cbn [fst snd]. repeat split; reflexivity.
Qed.

Theorem accepted_schema_survives : forall ops ops' et sc,
  reg_get (ps_reg (run_p ops)) et = Some sc ->
  reg_get (ps_reg (run_p (ops ++ ops'))) et = Some sc.
Proof.
  intros ops ops' et sc H. unfold run_p. rewrite fold_left_app. fold (run_p ops).
  pose proof (ps_inv_run ops) as I. revert I H. generalize (run_p ops) as ps.
  induction ops' as [|op ops' IH]; intros ps I H; cbn [fold_left]; [exact H|].
  apply IH; [apply ps_inv_step; exact I|].
  destruct op as [et' cs|]; cbn [step_p].
  - rewrite define_p_reg. apply define_keeps_existing, H.
  - rewrite (ps_inv_restart ps I). exact H.
Qed.

Example restart_witness :
  let ops := [OpDefine w_t [(w_s, SPrim [105; 110; 116]%N)]; OpDefine w_t [(w_s, SPrim [115; 116; 114]%N)]; OpRestart] in
  reg_get (ps_reg (run_p ops)) w_t = Some [(w_s, FPrim TI64)] /\ length (ps_log (run_p ops)) = 1%nat.
Proof. vm_compute. split; reflexivity. Qed.
