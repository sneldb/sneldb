(** Proofs about Model/Auth.v (property C13). *)
From Coq Require Import NArith List Bool String Ascii.
From Snel Require Import Base.Bytes Gen.Params Model.Auth Proofs.BytesFacts Proofs.ListFacts Proofs.AssocFacts.
Import ListNotations.
Open Scope N_scope.

(** Byte strings written as Coq strings in the statements ("admin", "bypass", …). *)
Fixpoint bs (s : string) : bytes :=
  match s with
  | EmptyString => []
  | String a r => N_of_ascii a :: bs r
  end.

Lemma bytes_eqb_sym : forall a b, bytes_eqb a b = bytes_eqb b a.
Proof. exact BytesFacts.bytes_eqb_sym. Qed.

Ltac beq :=
  repeat match goal with
  | H : bytes_eqb _ _ = true |- _ => apply bytes_eqb_eq in H
  | H : bytes_eqb _ _ = false |- _ => apply bytes_eqb_neq in H
  end.

Section Assoc.
  Context {A : Type}.
  Implicit Types (m : list (bytes * A)) (k : bytes).

  Lemma alookup_aremove : forall m k k',
    alookup k (aremove k' m) = if bytes_eqb k k' then None else alookup k m.
  Proof.
    induction m as [|[k0 v] m IH]; intros k k'; cbn [aremove alookup]; [destruct (bytes_eqb k k'); reflexivity|].
    destruct (bytes_eqb k' k0) eqn:E; cbn [alookup]; rewrite IH; destruct (bytes_eqb k k') eqn:E'; beq; subst.
    - reflexivity.
    - rewrite (proj2 (bytes_eqb_neq k k0) E'). reflexivity.
    - rewrite (proj2 (bytes_eqb_neq k' k0) E). reflexivity.
    - reflexivity.
  Qed.

  Lemma alookup_ainsert : forall m k k' v,
    alookup k (ainsert k' v m) = if bytes_eqb k k' then Some v else alookup k m.
  Proof.
    intros m k k' v. unfold ainsert. cbn [alookup]. rewrite alookup_aremove.
    destruct (bytes_eqb k k'); reflexivity.
  Qed.

  Lemma alookup_app : forall m1 m2 k,
    alookup k (m1 ++ m2) = match alookup k m1 with Some v => Some v | None => alookup k m2 end.
  Proof. intros. apply (assoc_app bytes_eqb alookup); reflexivity. Qed.

  Lemma aremove_filter : forall m k, aremove k m = filter (fun e => negb (bytes_eqb k (fst e))) m.
  Proof.
    induction m as [|[k0 v] m IH]; intro k; cbn [aremove filter fst]; [reflexivity|].
    destruct (bytes_eqb k k0); cbn [negb]; rewrite IH; reflexivity.
  Qed.

  Lemma nodup_ainsert : forall m k v, NoDup (map fst m) -> NoDup (map fst (ainsert k v m)).
  Proof.
    intros m k v H. unfold ainsert. rewrite aremove_filter. cbn [map fst]. constructor; [|apply nodup_map_filter, H].
    intro C. apply in_map_iff in C as (e & <- & C). apply filter_In in C as [_ C].
    rewrite bytes_eqb_refl in C. discriminate.
  Qed.

  Lemma alookup_none_notin : forall m k, alookup k m = None -> ~ In k (map fst m).
  Proof. intros m k. apply (assoc_none_iff bytes_eqb alookup bytes_eqb_eq); reflexivity. Qed.
  Lemma notin_alookup_none : forall m k, ~ In k (map fst m) -> alookup k m = None.
  Proof. intros m k. apply (assoc_none_iff bytes_eqb alookup bytes_eqb_eq); reflexivity. Qed.
End Assoc.

Lemma smem_true : forall k s, smem k s = true <-> In k s.
Proof. exact (existsb_eqb_In bytes_eqb bytes_eqb_eq). Qed.

Lemma smem_sremove : forall s k k', smem k (sremove k' s) = negb (bytes_eqb k k') && smem k s.
Proof.
  intros s k k'. unfold smem, sremove. induction s as [|x s IH]; cbn [filter existsb]; [symmetry; apply andb_false_r|].
  destruct (bytes_eqb k' x) eqn:E; cbn [negb existsb]; rewrite IH.
  - apply bytes_eqb_eq in E. subst x. destruct (bytes_eqb k k'); reflexivity.
  - destruct (bytes_eqb k k') eqn:E'; [|reflexivity].
    apply bytes_eqb_eq in E'. subst k'. rewrite E. reflexivity.
Qed.

(** what [update_user] does to one of the four role sets *)
Lemma smem_role_set : forall (b : bool) s k k',
  smem k (if b then sinsert k' s else sremove k' s) = if bytes_eqb k k' then b else smem k s.
Proof.
  intros b s k k'. destruct b; [unfold sinsert, smem at 1; cbn [existsb]; fold (smem k (sremove k' s))|];
    rewrite smem_sremove; destruct (bytes_eqb k k'); reflexivity.
Qed.

Definition user_cache_perms (u : user) : option (list (bytes * perm)) :=
  if is_nil (u_perms u) then None else Some (u_perms u).

Definition cache_sync (us : list (bytes * user)) (c : pcache) : Prop :=
  forall id,
    match alookup id us with
    | Some u =>
        smem id (pc_admin c) = role_in auth_roles_admin (u_roles u) /\
        smem id (pc_ro c) = role_in auth_roles_read_only (u_roles u) /\
        smem id (pc_ed c) = role_in auth_roles_editor (u_roles u) /\
        smem id (pc_wo c) = role_in auth_roles_write_only (u_roles u) /\
        alookup id (pc_perms c) = user_cache_perms u
    | None =>
        smem id (pc_admin c) = false /\ smem id (pc_ro c) = false /\ smem id (pc_ed c) = false /\
        smem id (pc_wo c) = false /\ alookup id (pc_perms c) = None
    end.

Definition keyed (us : list (bytes * user)) : Prop :=
  forall id u, alookup id us = Some u -> u_id u = id.

Record wf (s : state) : Prop := mkWf {
  wf_keyed : keyed (st_users s);
  wf_nodup : NoDup (map fst (st_users s));
  wf_sync : cache_sync (st_users s) (st_cache s) }.

Lemma update_user_spec : forall c u id,
  let c' := update_user c u in
  smem id (pc_admin c') = (if bytes_eqb id (u_id u) then role_in auth_roles_admin (u_roles u) else smem id (pc_admin c)) /\
  smem id (pc_ro c') = (if bytes_eqb id (u_id u) then role_in auth_roles_read_only (u_roles u) else smem id (pc_ro c)) /\
  smem id (pc_ed c') = (if bytes_eqb id (u_id u) then role_in auth_roles_editor (u_roles u) else smem id (pc_ed c)) /\
  smem id (pc_wo c') = (if bytes_eqb id (u_id u) then role_in auth_roles_write_only (u_roles u) else smem id (pc_wo c)) /\
  alookup id (pc_perms c') = if bytes_eqb id (u_id u) then user_cache_perms u else alookup id (pc_perms c).
Proof.
  intros c u id. cbn zeta. unfold update_user. cbn [pc_admin pc_ro pc_ed pc_wo pc_perms].
  rewrite !smem_role_set. repeat split. unfold user_cache_perms.
  destruct (is_nil (u_perms u)); [apply alookup_aremove|apply alookup_ainsert].
Qed.

Lemma update_user_sync : forall us c u,
  cache_sync us c -> cache_sync (ainsert (u_id u) u us) (update_user c u).
Proof.
  intros us c u S id. rewrite alookup_ainsert.
  pose proof (update_user_spec c u id) as (H1 & H2 & H3 & H4 & H5). rewrite H1, H2, H3, H4, H5.
  destruct (bytes_eqb id (u_id u)); [repeat split; reflexivity|apply S].
Qed.

Lemma put_user_users : forall s u id,
  alookup id (st_users (put_user s u)) = if bytes_eqb id (u_id u) then Some u else alookup id (st_users s).
Proof. intros. apply alookup_ainsert. Qed.

Lemma put_user_wf : forall s u, wf s -> wf (put_user s u).
Proof.
  intros s u [K D S]. constructor.
  - intros id v H. rewrite put_user_users in H. destruct (bytes_eqb id (u_id u)) eqn:E; [beq; congruence|apply K, H].
  - apply nodup_ainsert. exact D.
  - apply update_user_sync. exact S.
Qed.

Lemma sync_empty : cache_sync [] pcache_empty.
Proof. intro id. cbn. repeat split; reflexivity. Qed.

Lemma wf_empty : wf state_empty.
Proof. constructor; cbn; [discriminate|constructor|exact sync_empty]. Qed.

Lemma wf_same_users : forall s s',
  st_users s' = st_users s -> st_cache s' = st_cache s -> wf s -> wf s'.
Proof. intros s s' E1 E2 [K D S]. constructor; rewrite ?E1, ?E2; assumption. Qed.

Lemma rebuild_sync : forall us, NoDup (map fst us) -> keyed us ->
  cache_sync us (fold_left (fun c e => update_user c (snd e)) us pcache_empty).
Proof.
  induction us as [|[k u] us IH] using rev_ind; intros D K; [exact sync_empty|].
  rewrite fold_left_app. cbn [fold_left snd].
  rewrite map_app in D. cbn [map fst] in D. apply NoDup_remove in D as [D Hk].
  rewrite app_nil_r in D, Hk. apply notin_alookup_none in Hk.
  assert (Hlk : forall id, alookup id (us ++ [(k, u)]) = alookup id (ainsert k u us)).
  { intro id. rewrite alookup_app, alookup_ainsert. cbn [alookup].
    destruct (bytes_eqb id k) eqn:E; [beq; subst id; rewrite Hk; reflexivity|destruct (alookup id us); reflexivity]. }
  assert (Hid : u_id u = k) by (apply K; rewrite Hlk, alookup_ainsert, bytes_eqb_refl; reflexivity).
  intro id. rewrite Hlk, <- Hid. apply update_user_sync, IH; [exact D|].
  intros id' v H. apply K. rewrite alookup_app, H. reflexivity.
Qed.

Lemma restart_wf : forall s, wf s -> wf (restart s).
Proof.
  intros s [K D S]. unfold restart. constructor; cbn [st_users st_cache]; try assumption.
  apply rebuild_sync; assumption.
Qed.

(** Each account operation fails and leaves the state, or is one [put_user]; the success case carries what
    [writes] asks of the record. *)
Lemma create_user_cases s id key fk roles :
  match validate_user_id id with
  | Some e => create_user s id key fk roles = (Some e, s)
  | None =>
      (exists e, create_user s id key fk roles = (Some e, s)) \/
      (exists k, alookup id (st_users s) = None /\
         create_user s id key fk roles = (None, put_user s (mkUser id k true roles [])))
  end.
Proof.
  unfold create_user. destruct (validate_user_id id); [reflexivity|].
  destruct (match key with Some k => _ | None => false end); [left; eauto|].
  destruct (alookup id (st_users s)); [left; eauto|right; eauto].
Qed.

Lemma revoke_key_cases s id :
  (alookup id (st_users s) = None /\ revoke_key s id = (Some ENotFound, s)) \/
  (exists u ss, alookup id (st_users s) = Some u /\
     revoke_key s id = (None, set_sessions (put_user s (mkUser id (u_key u) false (u_roles u) (u_perms u))) ss)).
Proof. unfold revoke_key. destruct (alookup id (st_users s)) as [u|]; eauto. Qed.

Lemma grant_permission_cases s id t p :
  (alookup id (st_users s) = None /\ grant_permission s id t p = (Some ENotFound, s)) \/
  (exists u, alookup id (st_users s) = Some u /\
     grant_permission s id t p =
     (None, put_user s (mkUser id (u_key u) (u_active u) (u_roles u) (ainsert t p (u_perms u))))).
Proof. unfold grant_permission. destruct (alookup id (st_users s)) as [u|]; eauto. Qed.

Lemma revoke_permission_cases s id t :
  (alookup id (st_users s) = None /\ revoke_permission s id t = (Some ENotFound, s)) \/
  (exists u, alookup id (st_users s) = Some u /\
     revoke_permission s id t =
     (None, put_user s (mkUser id (u_key u) (u_active u) (u_roles u) (aremove t (u_perms u))))).
Proof. unfold revoke_permission. destruct (alookup id (st_users s)) as [u|]; eauto. Qed.

Definition entry (s : state) (id t : bytes) : option perm :=
  match alookup id (st_users s) with
  | Some u => alookup t (u_perms u)
  | None => None
  end.

Lemma grant_permission_entry : forall s id t p s' t',
  grant_permission s id t p = (None, s') ->
  entry s' id t' = if bytes_eqb t' t then Some p else entry s id t'.
Proof.
  intros s id t p s' t' H.
  destruct (grant_permission_cases s id t p) as [[_ E]|(u & L & E)]; rewrite E in H; [discriminate|].
  injection H as <-. unfold entry. rewrite put_user_users, L. cbn [u_id u_perms]. rewrite bytes_eqb_refl. apply alookup_ainsert.
Qed.

Lemma get_permission_entry : forall s id t,
  get_permission s id t = match entry s id t with Some p => p | None => perm_none end.
Proof. intros. unfold get_permission, entry. destruct (alookup id (st_users s)); reflexivity. Qed.

Lemma get_permission_after : forall s id t0 p s' t,
  grant_permission s id t0 p = (None, s') ->
  get_permission s' id t = if bytes_eqb t t0 then p else get_permission s id t.
Proof.
  intros s id t0 p s' t G. rewrite !get_permission_entry, (grant_permission_entry _ _ _ _ _ t G).
  destruct (bytes_eqb t t0); reflexivity.
Qed.

(** [grant_loop] and [revoke_loop] are the same loop over [grant_permission]: each step stores
    [f] of what the user holds on the type; GRANT first refuses a type that is not defined. *)
Definition is_perm_loop (refuse : state -> bytes -> bool) (f : perm -> perm)
    (loop : state -> list bytes -> bytes -> outcome * state) : Prop :=
  (forall s id, loop s [] id = (OExec, s)) /\
  (forall s t ts id, loop s (t :: ts) id =
     if refuse s t then (O400, s)
     else match grant_permission s id t (f (get_permission s id t)) with
          | (Some _, _) => (O400, s)
          | (None, s') => loop s' ts id
          end).

Definition grant_set (r w : bool) (p : perm) : perm := mkPerm (p_read p || r) (p_write p || w).
Definition revoke_set (r w : bool) (p : perm) : perm := mkPerm (p_read p && negb r) (p_write p && negb w).

Lemma grant_is_loop : forall r w,
  is_perm_loop (fun s t => negb (smem t (st_schemas s))) (grant_set r w) (fun s => grant_loop s r w).
Proof. split; reflexivity. Qed.

Lemma revoke_is_loop : forall r w, is_perm_loop (fun _ _ => false) (revoke_set r w) (fun s => revoke_loop s r w).
Proof. split; reflexivity. Qed.

Section PermLoop.
  Variable refuse : state -> bytes -> bool.
  Variable f : perm -> perm.
  Variable loop : state -> list bytes -> bytes -> outcome * state.
  Hypothesis L : is_perm_loop refuse f loop.

  Lemma loop_preserves : forall P : state -> Prop,
    (forall s id t p, P s -> P (snd (grant_permission s id t p))) ->
    forall ts s id, P s -> P (snd (loop s ts id)).
  Proof.
    intros P Pg. induction ts as [|t ts IH]; intros s id H; [rewrite (proj1 L); exact H|].
    rewrite (proj2 L). destruct (refuse s t); [exact H|].
    pose proof (Pg s id t (f (get_permission s id t)) H) as H1.
    destruct (grant_permission s id t _) as [[e|] s']; [exact H|]. apply IH. exact H1.
  Qed.

  Definition then_loop (id : bytes) (acc : outcome * state) (t : bytes) : outcome * state :=
    match acc with
    | (OExec, s) => loop s [t] id
    | other => other
    end.

  Lemma then_loop_stuck : forall id ts o s, o <> OExec -> fold_left (then_loop id) ts (o, s) = (o, s).
  Proof.
    induction ts as [|t ts IH]; intros o s N; cbn [fold_left]; [reflexivity|].
    destruct o; try contradiction; apply IH; discriminate.
  Qed.

  Lemma loop_eq_fold : forall ts s id, loop s ts id = fold_left (then_loop id) ts (OExec, s).
  Proof.
    induction ts as [|t ts IH]; intros s id; [apply (proj1 L)|].
    cbn [fold_left then_loop]. rewrite !(proj2 L). destruct (refuse s t).
    - symmetry. apply then_loop_stuck. discriminate.
    - destruct (grant_permission s id t _) as [[e|] s'].
      + symmetry. apply then_loop_stuck. discriminate.
      + rewrite (proj1 L). apply IH.
  Qed.

  (** idempotence of [f] is what lets a type be listed more than once *)
  Lemma loop_entry_eq : (forall p, f (f p) = f p) -> forall ts s id s' t,
    loop s ts id = (OExec, s') ->
    entry s' id t = if smem t ts then Some (f (get_permission s id t)) else entry s id t.
  Proof.
    intros Idem. induction ts as [|t0 ts IH]; intros s id s' t H.
    - rewrite (proj1 L) in H. inversion H; subst. reflexivity.
    - rewrite (proj2 L) in H. destruct (refuse s t0); [discriminate|].
      destruct (grant_permission s id t0 _) as [[e|] s1] eqn:G; [discriminate|].
      rewrite (IH s1 id s' t H), (get_permission_after _ _ _ _ _ t G), (grant_permission_entry _ _ _ _ _ t G).
      unfold smem. cbn [existsb]. fold (smem t ts).
      destruct (bytes_eqb t t0) eqn:E, (smem t ts); beq; subst; rewrite ?Idem; reflexivity.
  Qed.

  Lemma loop_entry : (forall p, f (f p) = f p) -> forall ts s id s',
    loop s ts id = (OExec, s') ->
    (forall t, In t ts -> entry s' id t = Some (f (get_permission s id t))) /\
    (forall t, ~ In t ts -> entry s' id t = entry s id t).
  Proof.
    intros Idem ts s id s' H. split; intros t Ht; rewrite (loop_entry_eq Idem ts s id s' t H).
    - apply smem_true in Ht. rewrite Ht. reflexivity.
    - destruct (smem t ts) eqn:M; [apply smem_true in M; contradiction|reflexivity].
  Qed.
End PermLoop.

Definition then_grant (r w : bool) (id : bytes) (acc : outcome * state) (t : bytes) : outcome * state :=
  match acc with
  | (OExec, s) => grant_loop s r w [t] id
  | other => other
  end.
Definition then_revoke (r w : bool) (id : bytes) (acc : outcome * state) (t : bytes) : outcome * state :=
  match acc with
  | (OExec, s) => revoke_loop s r w [t] id
  | other => other
  end.

(** [then_grant r w id] is [then_loop] of [grant_loop s r w] written out, so [loop_eq_fold] applies as it is. *)
Theorem grant_many_eq_fold : forall ts s r w id,
  grant_loop s r w ts id = fold_left (then_grant r w id) ts (OExec, s).
Proof. intros ts s r w id. exact (loop_eq_fold _ _ _ (grant_is_loop r w) ts s id). Qed.

Theorem revoke_many_eq_fold : forall ts s r w id,
  revoke_loop s r w ts id = fold_left (then_revoke r w id) ts (OExec, s).
Proof. intros ts s r w id. exact (loop_eq_fold _ _ _ (revoke_is_loop r w) ts s id). Qed.

Theorem grant_many_entry : forall ts s r w id s',
  grant_loop s r w ts id = (OExec, s') ->
  (forall t, In t ts ->
     entry s' id t = Some (mkPerm (p_read (get_permission s id t) || r) (p_write (get_permission s id t) || w))) /\
  (forall t, ~ In t ts -> entry s' id t = entry s id t).
Proof.
  intros ts s r w id s'. apply (loop_entry _ _ _ (grant_is_loop r w)).
  intros [pr pw]. unfold grant_set. cbn [p_read p_write]. rewrite <- !orb_assoc, !orb_diag. reflexivity.
Qed.

Theorem revoke_many_entry : forall ts s r w id s',
  revoke_loop s r w ts id = (OExec, s') ->
  (forall t, In t ts ->
     entry s' id t = Some (mkPerm (p_read (get_permission s id t) && negb r) (p_write (get_permission s id t) && negb w))) /\
  (forall t, ~ In t ts -> entry s' id t = entry s id t).
Proof.
  intros ts s r w id s'. apply (loop_entry _ _ _ (revoke_is_loop r w)).
  intros [pr pw]. unfold revoke_set. cbn [p_read p_write]. rewrite <- !andb_assoc, !andb_diag. reflexivity.
Qed.

(** Histories, over-approximated on purpose: every manager operation with any arguments, whether or not a
    [dispatch] leads to it, every command from any caller, restart.  Of the gates only [gate_tcp] is a step: the
    other two return no state. *)
Inductive step : state -> state -> Prop :=
| st_create s id key fk roles : step s (snd (create_user s id key fk roles))
| st_revoke_key s id : step s (snd (revoke_key s id))
| st_grant s id t p : step s (snd (grant_permission s id t p))
| st_revoke_perm s id t : step s (snd (revoke_permission s id t))
| st_session s tok uid now e : step s (new_session s tok uid now e)
| st_revoke_token s tok : step s (snd (revoke_token s tok))
| st_revoke_sessions s uid : step s (snd (revoke_user_sessions s uid))
| st_dispatch s who c k : step s (snd (dispatch s who c k))
| st_gate hmac cfg s conn line now tok : step s (snd (gate_tcp hmac cfg s conn line now tok))
| st_restart s : step s (restart s).

Inductive reachable_from (s0 : state) : state -> Prop :=
| rf_refl : reachable_from s0 s0
| rf_step s s' : reachable_from s0 s -> step s s' -> reachable_from s0 s'.

Definition reachable : state -> Prop := reachable_from state_empty.

Lemma gate_tcp_users : forall hmac cfg s conn line now tok,
  let s' := snd (gate_tcp hmac cfg s conn line now tok) in
  st_users s' = st_users s /\ st_cache s' = st_cache s.
Proof.
  intros. subst s'. unfold gate_tcp.
  repeat match goal with
  | |- context [if ?b then _ else _] => destruct b
  | |- context [match ?x with Some _ => _ | None => _ end] => destruct x
  | |- context [let '(_, _) := ?x in _] => destruct x
  | p : (_ * _)%type |- _ => destruct p
  end; cbn [snd]; split; reflexivity.
Qed.

Lemma dispatch_accounts : forall s who c k,
  let s' := snd (dispatch s who c k) in
  (st_users s' = st_users s /\ st_cache s' = st_cache s) \/
  match c with
  | CCreateUser id key roles => s' = snd (create_user s id key k (match roles with Some r => r | None => [] end))
  | CRevokeKey id => s' = snd (revoke_key s id)
  | CGrant r w ts id => s' = snd (grant_loop s r w ts id)
  | CRevokePerm r w ts id => s' = snd (revoke_loop s r w ts id)
  | _ => False
  end.
Proof.
  intros s who c k. cbn zeta. destruct c; cbn [dispatch];
    repeat match goal with
    | |- context [snd (if ?b then _ else _)] => destruct b
    | |- context [snd (match ?x with Some _ => _ | None => _ end)] => destruct x
    end; try (left; split; reflexivity).
  - destruct (create_user s id key k _) as [[e|] s']; [left; split; reflexivity|right; reflexivity].
  - destruct (revoke_key s id) as [[e|] s']; [left; split; reflexivity|right; reflexivity].
  - right. reflexivity.
  - right. reflexivity.
Qed.

(** The records a step stores with [put_user]. *)
Inductive writes (s : state) (u : user) : Prop :=
| w_new : alookup (u_id u) (st_users s) = None -> validate_user_id (u_id u) = None -> u_active u = true -> writes s u
| w_upd u0 : alookup (u_id u) (st_users s) = Some u0 -> u_active u = u_active u0 \/ u_active u = false -> writes s u.

(** A property of the user table and the permission cache that survives storing such a record and
    survives a restart holds along every history. *)
Section Preserved.
  Variable P : state -> Prop.
  Hypothesis Pframe : forall s s', st_users s' = st_users s -> st_cache s' = st_cache s -> P s -> P s'.
  Hypothesis Pput : forall s u, P s -> writes s u -> P (put_user s u).
  Hypothesis Prestart : forall s, P s -> P (restart s).

  Lemma set_sessions_preserves : forall s ss, P s -> P (set_sessions s ss).
  Proof. intros s ss. apply Pframe; reflexivity. Qed.

  Lemma create_user_preserves : forall s id key fk roles, P s -> P (snd (create_user s id key fk roles)).
  Proof.
    intros s id key fk roles H. pose proof (create_user_cases s id key fk roles) as C.
    destruct (validate_user_id id) eqn:V; [rewrite C; exact H|].
    destruct C as [[e ->]|(k & L & ->)]; [exact H|]. apply Pput; [exact H|]. apply w_new; [exact L|exact V|reflexivity].
  Qed.

  Lemma revoke_key_preserves : forall s id, P s -> P (snd (revoke_key s id)).
  Proof.
    intros s id H. destruct (revoke_key_cases s id) as [[_ ->]|(u & ss & L & ->)]; [exact H|].
    apply set_sessions_preserves, Pput; [exact H|]. apply (w_upd _ _ u); [exact L|right; reflexivity].
  Qed.

  Lemma grant_permission_preserves : forall s id t p, P s -> P (snd (grant_permission s id t p)).
  Proof.
    intros s id t p H. destruct (grant_permission_cases s id t p) as [[_ ->]|(u & L & ->)]; [exact H|].
    apply Pput; [exact H|]. apply (w_upd _ _ u); [exact L|left; reflexivity].
  Qed.

  Lemma revoke_permission_preserves : forall s id t, P s -> P (snd (revoke_permission s id t)).
  Proof.
    intros s id t H. destruct (revoke_permission_cases s id t) as [[_ ->]|(u & L & ->)]; [exact H|].
    apply Pput; [exact H|]. apply (w_upd _ _ u); [exact L|left; reflexivity].
  Qed.

  Lemma dispatch_preserves : forall s who c k, P s -> P (snd (dispatch s who c k)).
  Proof.
    intros s who c k H. destruct (dispatch_accounts s who c k) as [[E1 E2]|E]; [eapply Pframe; eassumption|].
    destruct c; try contradiction; rewrite E.
    - apply create_user_preserves, H.
    - apply revoke_key_preserves, H.
    - apply (loop_preserves _ _ _ (grant_is_loop r w) P grant_permission_preserves), H.
    - apply (loop_preserves _ _ _ (revoke_is_loop r w) P grant_permission_preserves), H.
  Qed.

  Lemma step_preserves : forall s s', step s s' -> P s -> P s'.
  Proof.
    intros s s' St H. destruct St; try (eapply Pframe; [| |exact H]; reflexivity).
    - apply create_user_preserves, H.
    - apply revoke_key_preserves, H.
    - apply grant_permission_preserves, H.
    - apply revoke_permission_preserves, H.
    - apply dispatch_preserves, H.
    - destruct (gate_tcp_users hmac cfg s conn line now tok) as [E1 E2]. eapply Pframe; eassumption.
    - apply Prestart, H.
  Qed.

  Lemma reachable_from_preserves : forall s0 s, reachable_from s0 s -> P s0 -> P s.
  Proof. induction 1; intro Q; [exact Q|]. eapply step_preserves; eauto. Qed.
End Preserved.

Lemma dispatch_wf : forall s who c k o s', dispatch s who c k = (o, s') -> wf s -> wf s'.
Proof.
  intros s who c k o s' H W.
  pose proof (dispatch_preserves wf wf_same_users (fun s1 u W1 _ => put_user_wf s1 u W1) s who c k W) as W'.
  rewrite H in W'. exact W'.
Qed.

Lemma reachable_wf : forall s, reachable s -> wf s.
Proof.
  intros s H. apply (reachable_from_preserves wf wf_same_users) with (s0 := state_empty); auto using restart_wf, wf_empty.
  intros s1 u W _. apply put_user_wf, W.
Qed.

(** The declarative statement names the roles as the documentation does; that the Rust match
    arms (regenerated into [Params]) are exactly these names is a side condition checked here. *)
Lemma roles_as_documented :
  auth_roles_admin = [bs "admin"] /\
  auth_roles_read_only = [bs "read-only"; bs "viewer"] /\
  auth_roles_editor = [bs "editor"] /\
  auth_roles_write_only = [bs "write-only"].
Proof. repeat split; reflexivity. Qed.

Definition has_role (u : user) (name : string) : Prop := In (bs name) (u_roles u).

Lemma role_in_spec : forall names roles,
  role_in names roles = true <-> exists r, In r roles /\ In r names.
Proof.
  intros. unfold role_in. rewrite existsb_exists. split; intros [r [H1 H2]]; exists r; split; try assumption;
    apply smem_true; assumption.
Qed.

Lemma role_in_single : forall n roles, role_in [n] roles = true <-> In n roles.
Proof.
  intros n roles. rewrite role_in_spec. split.
  - intros [r [H1 [<-|[]]]]. exact H1.
  - intro H. exists n. split; [exact H|left; reflexivity].
Qed.

Lemma role_admin : forall u, role_in auth_roles_admin (u_roles u) = true <-> has_role u "admin".
Proof. intro u. destruct roles_as_documented as (-> & _). apply role_in_single. Qed.
Lemma role_ro : forall u, role_in auth_roles_read_only (u_roles u) = true <-> has_role u "read-only" \/ has_role u "viewer".
Proof.
  intro u. rewrite role_in_spec. destruct roles_as_documented as (_ & -> & _). unfold has_role. split.
  - intros [r [H1 [H2|[H2|[]]]]]; subst; auto.
  - intros [H|H]; eexists; (split; [exact H|]); cbn; auto.
Qed.
Lemma role_ed : forall u, role_in auth_roles_editor (u_roles u) = true <-> has_role u "editor".
Proof. intro u. destruct roles_as_documented as (_ & _ & -> & _). apply role_in_single. Qed.
Lemma role_wo : forall u, role_in auth_roles_write_only (u_roles u) = true <-> has_role u "write-only".
Proof. intro u. destruct roles_as_documented as (_ & _ & _ & ->). apply role_in_single. Qed.

(** Declarative access rules, written from the docs ("Access Control Priority" / "How Permission Override Works"). *)
Definition may_read (us : list (bytes * user)) (uid t : bytes) : Prop :=
  exists u, alookup uid us = Some u /\
    (has_role u "admin"
     \/ (exists p, alookup t (u_perms u) = Some p /\ p_read p = true)
     \/ ((has_role u "read-only" \/ has_role u "viewer" \/ has_role u "editor")
         /\ alookup t (u_perms u) <> Some (mkPerm false false))).

Definition may_write (us : list (bytes * user)) (uid t : bytes) : Prop :=
  exists u, alookup uid us = Some u /\
    (has_role u "admin"
     \/ (exists p, alookup t (u_perms u) = Some p /\ p_write p = true)
     \/ (alookup t (u_perms u) = None /\ (has_role u "editor" \/ has_role u "write-only"))).

Definition admin_user (us : list (bytes * user)) (uid : bytes) : Prop :=
  exists u, alookup uid us = Some u /\ has_role u "admin".

Definition writer_user (us : list (bytes * user)) (uid : bytes) : Prop :=
  exists u, alookup uid us = Some u /\
    (has_role u "admin" \/ has_role u "editor" \/ has_role u "write-only").

Lemma wf_cache : forall s uid, wf s ->
  let has names := match alookup uid (st_users s) with Some u => role_in names (u_roles u) | None => false end in
  smem uid (pc_admin (st_cache s)) = has auth_roles_admin /\
  smem uid (pc_ro (st_cache s)) = has auth_roles_read_only /\
  smem uid (pc_ed (st_cache s)) = has auth_roles_editor /\
  smem uid (pc_wo (st_cache s)) = has auth_roles_write_only /\
  forall t, cache_perm (st_cache s) uid t = entry s uid t.
Proof.
  intros s uid W. pose proof (wf_sync s W uid) as S. unfold cache_perm, entry.
  destruct (alookup uid (st_users s)) as [u|]; destruct S as (-> & -> & -> & -> & ->); repeat split.
  intro t. unfold user_cache_perms. destruct (u_perms u); reflexivity.
Qed.

(** how the four specifications below meet their declarative side "exists u, lookup = Some u /\ P u": by cases
    of the lookup *)
Lemma by_record : forall (r : option user) (b : bool) (P : user -> Prop),
  match r with Some u => (b = true <-> P u) | None => b = false end ->
  (b = true <-> exists u, r = Some u /\ P u).
Proof.
  intros [u|] b P H; rewrite H.
  - split; [eauto|intros (v & [= <-] & Q); exact Q].
  - split; [discriminate|intros (v & E & _); discriminate].
Qed.

(** What the cache answers for an account is a function of that account's record alone. *)
Definition record_reads (u : user) (t : bytes) : bool :=
  let reader := role_in auth_roles_read_only (u_roles u) || role_in auth_roles_editor (u_roles u) in
  role_in auth_roles_admin (u_roles u) ||
  match alookup t (u_perms u) with
  | Some p => p_read p || p_write p && reader
  | None => reader
  end.

Definition record_writes (u : user) (t : bytes) : bool :=
  role_in auth_roles_admin (u_roles u) ||
  match alookup t (u_perms u) with
  | Some p => p_write p
  | None => role_in auth_roles_editor (u_roles u) || role_in auth_roles_write_only (u_roles u)
  end.

Lemma can_read_record : forall s uid t, wf s ->
  can_read (st_cache s) uid t = match alookup uid (st_users s) with Some u => record_reads u t | None => false end.
Proof.
  intros s uid t W. destruct (wf_cache s uid W) as (Sa & Sr & Se & _ & Sp). unfold can_read. rewrite Sa, Sr, Se, Sp.
  unfold entry. destruct (alookup uid (st_users s)) as [u|]; [|reflexivity]. unfold record_reads.
  destruct (role_in auth_roles_admin (u_roles u)), (alookup t (u_perms u)) as [[[] []]|]; reflexivity.
Qed.

Lemma can_write_record : forall s uid t, wf s ->
  can_write (st_cache s) uid t = match alookup uid (st_users s) with Some u => record_writes u t | None => false end.
Proof.
  intros s uid t W. destruct (wf_cache s uid W) as (Sa & _ & Se & Sw & Sp). unfold can_write. rewrite Sa, Se, Sw, Sp.
  unfold entry. destruct (alookup uid (st_users s)) as [u|]; [|reflexivity]. unfold record_writes. reflexivity.
Qed.

Lemma reader_roles : forall u,
  role_in auth_roles_read_only (u_roles u) || role_in auth_roles_editor (u_roles u) = true <->
  has_role u "read-only" \/ has_role u "viewer" \/ has_role u "editor".
Proof. intro u. rewrite orb_true_iff, role_ro, role_ed. tauto. Qed.

(** "the type has a permission set with [f]" in boolean form *)
Lemma held_iff : forall (e : option perm) (f : perm -> bool),
  (exists p, e = Some p /\ f p = true) <-> match e with Some p => f p | None => false end = true.
Proof. intros [p|] f; split; [intros (q & [= <-] & H); exact H|eauto|intros (q & [=] & _)|discriminate]. Qed.

(** Both sides are conditions on the admin role, the reading (writing) roles and the entry of the
    type; with the declarative side put in boolean form they are compared case by case. *)
Theorem can_read_spec : forall s uid t, wf s ->
  (can_read (st_cache s) uid t = true <-> may_read (st_users s) uid t).
Proof.
  intros s uid t W. rewrite (can_read_record s uid t W). unfold may_read. apply by_record.
  destruct (alookup uid (st_users s)) as [u|]; [|reflexivity].
  rewrite held_iff, <- role_admin, <- reader_roles. unfold record_reads.
  destruct (alookup t (u_perms u)) as [[[] []]|], (role_in auth_roles_admin (u_roles u)),
    (role_in auth_roles_read_only (u_roles u) || role_in auth_roles_editor (u_roles u));
    cbn [orb andb]; intuition congruence.
Qed.

Theorem can_write_spec : forall s uid t, wf s ->
  (can_write (st_cache s) uid t = true <-> may_write (st_users s) uid t).
Proof.
  intros s uid t W. rewrite (can_write_record s uid t W). unfold may_write. apply by_record.
  destruct (alookup uid (st_users s)) as [u|]; [|reflexivity].
  rewrite held_iff, <- role_admin, <- role_ed, <- role_wo, <- orb_true_iff. unfold record_writes.
  destruct (alookup t (u_perms u)) as [[? []]|], (role_in auth_roles_admin (u_roles u)),
    (role_in auth_roles_editor (u_roles u) || role_in auth_roles_write_only (u_roles u));
    cbn [orb p_write]; intuition congruence.
Qed.

Lemma is_admin_spec : forall s uid, wf s ->
  (is_admin (st_cache s) uid = true <-> admin_user (st_users s) uid).
Proof.
  intros s uid W. destruct (wf_cache s uid W) as (Sa & _). unfold is_admin, admin_user. rewrite Sa.
  apply by_record. destruct (alookup uid (st_users s)) as [u|]; [apply role_admin|reflexivity].
Qed.

Lemma writer_role_spec : forall s uid, wf s ->
  (writer_role (st_cache s) uid = true <-> writer_user (st_users s) uid).
Proof.
  intros s uid W. destruct (wf_cache s uid W) as (Sa & _ & Se & Sw & _). unfold writer_role, writer_user.
  rewrite Sa, Se, Sw. apply by_record. destruct (alookup uid (st_users s)) as [u|]; [|reflexivity].
  rewrite !orb_true_iff, role_admin, role_ed, role_wo. tauto.
Qed.

(** the wording of the property: access implies a permission for the type or a role *)
Corollary may_read_weak : forall us uid t, may_read us uid t ->
  exists u, alookup uid us = Some u /\
    ((exists p, alookup t (u_perms u) = Some p /\ p_read p = true)
     \/ has_role u "admin" \/ has_role u "read-only" \/ has_role u "viewer" \/ has_role u "editor").
Proof. intros us uid t [u [E H]]. exists u. split; [exact E|]. tauto. Qed.

Corollary may_write_weak : forall us uid t, may_write us uid t ->
  exists u, alookup uid us = Some u /\
    ((exists p, alookup t (u_perms u) = Some p /\ p_write p = true)
     \/ has_role u "admin" \/ has_role u "editor" \/ has_role u "write-only").
Proof. intros us uid t [u [E H]]. exists u. split; [exact E|]. tauto. Qed.

Definition active_of (s : state) (id : bytes) : option bool :=
  match alookup id (st_users s) with Some u => Some (u_active u) | None => None end.

Lemma active_of_iff : forall s id b,
  active_of s id = Some b <-> exists u, alookup id (st_users s) = Some u /\ u_active u = b.
Proof.
  intros s id b. unfold active_of. destruct (alookup id (st_users s)) as [u|]; split.
  - intros [= <-]. eauto.
  - intros (u' & [= <-] & <-). reflexivity.
  - discriminate.
  - intros (u' & [=] & _).
Qed.

Lemma active_of_none : forall s id, active_of s id = None <-> alookup id (st_users s) = None.
Proof. intros s id. unfold active_of. destruct (alookup id (st_users s)); split; (discriminate || reflexivity). Qed.

Lemma active_of_frame : forall s s' id, st_users s' = st_users s -> active_of s' id = active_of s id.
Proof. intros s s' id E. unfold active_of. rewrite E. reflexivity. Qed.

Lemma set_sessions_active_of : forall s ss id, active_of (set_sessions s ss) id = active_of s id.
Proof. intros. apply active_of_frame. reflexivity. Qed.

Lemma put_user_active_of : forall s u id,
  active_of (put_user s u) id = if bytes_eqb id (u_id u) then Some (u_active u) else active_of s id.
Proof. intros s u id. unfold active_of. rewrite put_user_users. destruct (bytes_eqb id (u_id u)); reflexivity. Qed.

Lemma put_user_same_active : forall s u u' id,
  alookup (u_id u') (st_users s) = Some u -> u_active u' = u_active u ->
  active_of (put_user s u') id = active_of s id.
Proof.
  intros s u u' id L A. rewrite put_user_active_of. destruct (bytes_eqb id (u_id u')) eqn:E; [|reflexivity].
  beq. subst id. symmetry. apply active_of_iff. eauto.
Qed.

Theorem grant_permission_keeps_active : forall s id0 t p id,
  active_of (snd (grant_permission s id0 t p)) id = active_of s id.
Proof.
  intros s id0 t p id. destruct (grant_permission_cases s id0 t p) as [[_ ->]|(u & L & ->)]; [reflexivity|].
  apply (put_user_same_active s u); [exact L|reflexivity].
Qed.

Theorem revoke_permission_keeps_active : forall s id0 t id,
  active_of (snd (revoke_permission s id0 t)) id = active_of s id.
Proof.
  intros s id0 t id. destruct (revoke_permission_cases s id0 t) as [[_ ->]|(u & L & ->)]; [reflexivity|].
  apply (put_user_same_active s u); [exact L|reflexivity].
Qed.

Lemma loop_keeps_active : forall refuse f loop, is_perm_loop refuse f loop ->
  forall ts s id0 id, active_of (snd (loop s ts id0)) id = active_of s id.
Proof.
  intros refuse f loop L ts s id0 id.
  apply (loop_preserves _ _ _ L (fun s' => active_of s' id = active_of s id)); [|reflexivity].
  intros s1 id1 t p E. rewrite grant_permission_keeps_active. exact E.
Qed.

Lemma create_user_active_of : forall s id0 key fk roles id,
  active_of (snd (create_user s id0 key fk roles)) id = active_of s id \/
  (id = id0 /\ active_of s id = None /\ active_of (snd (create_user s id0 key fk roles)) id = Some true).
Proof.
  intros s id0 key fk roles id. pose proof (create_user_cases s id0 key fk roles) as C.
  destruct (validate_user_id id0); [rewrite C; left; reflexivity|].
  destruct C as [[e ->]|(k & L & ->)]; [left; reflexivity|]. cbn [snd].
  rewrite put_user_active_of. cbn [u_id u_active].
  destruct (bytes_eqb id id0) eqn:E; [|left; reflexivity]. beq. subst. right.
  repeat split. apply active_of_none, L.
Qed.

Lemma revoke_key_active : forall s id0 id,
  active_of (snd (revoke_key s id0)) id =
  if bytes_eqb id id0 then option_map (fun _ => false) (active_of s id) else active_of s id.
Proof.
  intros s id0 id. destruct (revoke_key_cases s id0) as [[L ->]|(u & ss & L & ->)]; cbn [snd].
  - destruct (bytes_eqb id id0) eqn:E; [|reflexivity]. beq. subst id0. apply active_of_none in L. rewrite L. reflexivity.
  - rewrite set_sessions_active_of, put_user_active_of. cbn [u_id u_active].
    destruct (bytes_eqb id id0) eqn:E; [|reflexivity]. beq. subst id0.
    destruct (active_of s id) eqn:A; [reflexivity|]. apply active_of_none in A. congruence.
Qed.

Lemma revoke_key_inactive : forall s id s', revoke_key s id = (None, s') -> active_of s' id = Some false.
Proof.
  intros s id s' H. destruct (revoke_key_cases s id) as [[_ E]|(u & ss & _ & E)]; rewrite E in H; [discriminate|].
  injection H as <-. rewrite set_sessions_active_of, put_user_active_of. cbn [u_id]. rewrite bytes_eqb_refl. reflexivity.
Qed.

Theorem dispatch_active_frame : forall s who c k id,
  let s' := snd (dispatch s who c k) in
  active_of s' id = active_of s id \/
  (exists key roles, c = CCreateUser id key roles /\ active_of s id = None /\ active_of s' id = Some true) \/
  (c = CRevokeKey id /\ active_of s' id = Some false).
Proof.
  intros s who c k id. cbn zeta.
  destruct (dispatch_accounts s who c k) as [[E _]|E]; [left; apply active_of_frame, E|].
  destruct c; try contradiction; rewrite E.
  - destruct (create_user_active_of s id0 key k (match roles with Some r => r | None => [] end) id) as [H|(-> & H)];
      [left; exact H|right; left; eauto].
  - rewrite revoke_key_active. destruct (bytes_eqb id id0) eqn:B; [|left; reflexivity]. beq. subst id0.
    destruct (active_of s id); [right; right; split; reflexivity|left; reflexivity].
  - left. apply (loop_keeps_active _ _ _ (grant_is_loop r w)).
  - left. apply (loop_keeps_active _ _ _ (revoke_is_loop r w)).
Qed.

Theorem perm_commands_keep_active : forall s who r w ts uid k id,
  active_of (snd (dispatch s who (CGrant r w ts uid) k)) id = active_of s id /\
  active_of (snd (dispatch s who (CRevokePerm r w ts uid) k)) id = active_of s id.
Proof.
  intros. split.
  - destruct (dispatch_active_frame s who (CGrant r w ts uid) k id) as [H|[(key & roles & E & _)|(E & _)]];
      [exact H|discriminate|discriminate].
  - destruct (dispatch_active_frame s who (CRevokePerm r w ts uid) k id) as [H|[(key & roles & E & _)|(E & _)]];
      [exact H|discriminate|discriminate].
Qed.

(** a step stores an existing record only with its flag kept or cleared ([writes]) *)
Theorem never_reactivated : forall s0 s id, reachable_from s0 s ->
  active_of s0 id = Some false -> active_of s id = Some false.
Proof.
  intros s0 s id R. apply (reachable_from_preserves (fun s => active_of s id = Some false)); [| | |exact R].
  - intros s1 s2 E _ A. rewrite (active_of_frame _ _ _ E). exact A.
  - intros s1 u A W. rewrite put_user_active_of. destruct (bytes_eqb id (u_id u)) eqn:E; [|exact A].
    beq. subst id. apply active_of_iff in A as (u1 & L1 & F1).
    destruct W as [L _ _|u0 L [F|F]]; rewrite L in L1; congruence.
  - intros s1 A. exact A.
Qed.

Lemma split_byte_spec : forall c s a b, split_byte c s = Some (a, b) -> s = a ++ c :: b /\ ~ In c a.
Proof.
  intros c. induction s as [|x r IH]; intros a b H; cbn [split_byte] in H; [discriminate|].
  destruct (x =? c) eqn:E.
  - inversion H; subst. apply N.eqb_eq in E. subst. split; [reflexivity|intros []].
  - destruct (split_byte c r) as [[a' b']|]; [|discriminate]. inversion H; subst.
    destruct (IH a' b eq_refl) as [-> N]. split; [reflexivity|].
    intros [C|C]; [apply N.eqb_neq in E; congruence|contradiction].
Qed.

Lemma is_prefix_spec : forall p s, is_prefix p s = true -> s = p ++ skipn (List.length p) s.
Proof.
  induction p as [|x p IH]; intros [|y s] H; cbn [is_prefix] in H; try discriminate; try reflexivity.
  apply andb_true_iff in H as [H1 H2]. apply N.eqb_eq in H1. subst y.
  cbn [List.length skipn app]. f_equal. apply IH. exact H2.
Qed.

Lemma rsplit_sub_spec : forall pat s a b, rsplit_sub pat s = Some (a, b) -> s = a ++ pat ++ b.
Proof.
  intros pat. induction s as [|x r IH]; intros a b H; cbn [rsplit_sub] in H; [discriminate|].
  destruct (rsplit_sub pat r) as [[a' b']|].
  - inversion H; subst. cbn [app]. f_equal. apply IH. reflexivity.
  - destruct (is_prefix pat (x :: r)) eqn:P; [|discriminate]. inversion H; subst.
    cbn [app]. apply is_prefix_spec. exact P.
Qed.

Lemma parse_auth_spec : forall s uid sig c, parse_auth s = Some (uid, sig, c) ->
  s = uid ++ colon :: sig ++ colon :: c /\ uid <> [] /\ ~ In colon uid /\ ~ In colon sig.
Proof.
  intros s uid sig c H. unfold parse_auth in H.
  destruct (split_byte colon s) as [[u rest]|] eqn:S1; [|discriminate].
  destruct (split_byte colon rest) as [[g cm]|] eqn:S2; [|discriminate].
  destruct (is_nil u || (auth_max_user_id_len <? blen u)) eqn:E1; [discriminate|].
  destruct (auth_max_sig_len <? blen g); [discriminate|]. inversion H; subst.
  apply split_byte_spec in S1 as [-> N1]. apply split_byte_spec in S2 as [-> N2].
  repeat split; try assumption. intro C. subst. cbn in E1. discriminate.
Qed.

Lemma validate_token_sound : forall s tok now uid, validate_token s tok now = Some uid ->
  exists exp u, alookup tok (st_sessions s) = Some (uid, exp) /\ now <= exp /\
                alookup uid (st_users s) = Some u /\ u_active u = true.
Proof.
  intros s tok now uid H. unfold validate_token in H.
  destruct (alookup tok (st_sessions s)) as [[u0 exp]|] eqn:L; [|discriminate].
  destruct (exp <? now) eqn:E; [discriminate|].
  destruct (alookup u0 (st_users s)) as [u|] eqn:LU; [|discriminate].
  destruct (u_active u) eqn:A; [|discriminate]. inversion H; subst.
  exists exp, u. repeat split; try assumption. apply N.ltb_ge in E. exact E.
Qed.

Section GateProofs.
  Variable hmac : bytes -> bytes -> bytes.

  (** no reserved id verifies, whatever the store holds (139a8cf) *)
  Lemma verify_signature_sound : forall s msg uid sig,
    verify_signature hmac s msg uid sig = true ->
    is_reserved_id uid = false /\
    exists u, alookup uid (st_users s) = Some u /\ u_active u = true /\ sig = hmac (u_key u) msg.
  Proof.
    intros s msg uid sig H. unfold verify_signature in H.
    destruct (auth_max_sig_len <? blen sig); [discriminate|].
    destruct (auth_max_user_id_len <? blen uid); [discriminate|].
    change auth_verify_rejects_reserved with true in H. cbn [andb] in H.
    destruct (is_reserved_id uid); [discriminate|]. split; [reflexivity|].
    destruct (alookup uid (st_users s)) as [u|]; [|discriminate].
    apply andb_true_iff in H as [H1 H2]. beq. exists u. auto.
  Qed.

  Lemma verify_signature_not_reserved : forall s msg uid sig,
    verify_signature hmac s msg uid sig = true -> is_reserved_id uid = false.
  Proof. intros s msg uid sig H. apply (verify_signature_sound _ _ _ _ H). Qed.

  Lemma verify_signature_complete : forall s msg uid u,
    alookup uid (st_users s) = Some u -> u_active u = true -> is_reserved_id uid = false ->
    blen (hmac (u_key u) msg) <= auth_max_sig_len -> blen uid <= auth_max_user_id_len ->
    verify_signature hmac s msg uid (hmac (u_key u) msg) = true.
  Proof.
    intros s msg uid u L A R B1 B2. unfold verify_signature.
    apply N.ltb_ge in B1. apply N.ltb_ge in B2. rewrite B1, B2, R, andb_false_r, L, A, bytes_eqb_refl. reflexivity.
  Qed.

  (** What a line must carry for the gate to hand a command on as user [uid]. *)
  Inductive credential (s : state) (conn : option bytes) (now : N) (line text uid : bytes) : Prop :=
  | cred_inline u sig :
      alookup uid (st_users s) = Some u -> u_active u = true ->
      trim line = uid ++ colon :: sig ++ colon :: text ->
      sig = hmac (u_key u) text ->
      credential s conn now line text uid
  | cred_connection u sig rest :
      conn = Some uid ->
      alookup uid (st_users s) = Some u -> u_active u = true ->
      trim line = sig ++ colon :: rest -> text = trim rest ->
      sig = hmac (u_key u) text ->
      credential s conn now line text uid
  | cred_token u before after exp :
      trim line = before ++ token_marker ++ after -> text = trim before ->
      alookup (trim after) (st_sessions s) = Some (uid, exp) -> now <= exp ->
      alookup uid (st_users s) = Some u -> u_active u = true ->
      credential s conn now line text uid.

  Definition auth_on (cfg : gate_cfg) : Prop := g_bypass cfg = false /\ g_has_mgr cfg = true.

  Lemma credential_active : forall s conn now line text uid,
    credential s conn now line text uid -> active_of s uid = Some true.
  Proof.
    intros s conn now line text uid H. apply active_of_iff.
    destruct H as [u ? L A|u ? ? ? L A|u ? ? ? ? ? ? ? L A]; eauto.
  Qed.

  (** the premises of [cred_inline] *)
  Definition inline_signed (s : state) (line text uid : bytes) : Prop :=
    exists u sig, alookup uid (st_users s) = Some u /\ u_active u = true /\
      trim line = uid ++ colon :: sig ++ colon :: text /\ sig = hmac (u_key u) text.

  Lemma inline_credential : forall s conn now line text uid,
    inline_signed s line text uid -> credential s conn now line text uid.
  Proof. intros s conn now line text uid (u & sig & L & A & T & E). exact (cred_inline _ _ _ _ _ _ u sig L A T E). Qed.

  Lemma inline_sound : forall s line uid sig c,
    parse_auth (trim line) = Some (uid, sig, c) -> verify_signature hmac s c uid sig = true ->
    inline_signed s line c uid.
  Proof.
    intros s line uid sig c PA VS. apply verify_signature_sound in VS as (_ & u & L & A & E).
    apply parse_auth_spec in PA as (PA & _). exists u, sig. auto.
  Qed.

  Lemma gate_tcp_sound : forall cfg s conn line now tok, auth_on cfg ->
    match gate_tcp hmac cfg s conn line now tok with
    | (GDispatch text uid, conn', s') => credential s conn now line text uid /\ conn' = conn /\ s' = s
    | (GAuthOk uid, conn', s') =>
        exists u sig,
          alookup uid (st_users s) = Some u /\ u_active u = true /\
          eq_ignore_case (firstn 5 (trim line)) auth_word = true /\
          trim (skipn 5 (trim line)) = uid ++ colon :: sig /\ sig = hmac (u_key u) uid /\
          conn' = Some uid /\ s' = new_session s tok uid now (g_expiry cfg)
    | (GReject, _, _) => True
    end.
  Proof.
    intros cfg s conn line now tok [B M]. unfold gate_tcp. rewrite B, M. cbn [negb andb].
    destruct ((5 <=? blen (trim line)) && eq_ignore_case (firstn 5 (trim line)) auth_word) eqn:A.
    { apply andb_true_iff in A as [_ A].
      destruct (split_byte colon (trim (skipn 5 (trim line)))) as [[u g]|] eqn:S1; [|exact I].
      destruct (verify_signature hmac s u u g) eqn:VS; [|exact I].
      apply verify_signature_sound in VS as (_ & u0 & L & Ac & E).
      apply split_byte_spec in S1 as [S1 _]. exists u0, g. repeat split; assumption. }
    destruct (rsplit_sub token_marker (trim line)) as [[before after]|] eqn:R;
      [destruct (negb (is_nil (trim after)) && (blen (trim after) <=? auth_token_max_len));
       [destruct (validate_token s (trim after) now) as [u0|] eqn:V|]|].
    { (* a session token *)
      apply validate_token_sound in V as (exp & u & V1 & V2 & V3 & V4).
      apply rsplit_sub_spec in R. repeat split. eapply cred_token; eauto. }
    (* otherwise a signature: under the connection's user, or inline *)
    all: destruct conn as [cu|];
      [ destruct (split_byte colon (trim line)) as [[g rest]|] eqn:S1; [|exact I];
        destruct (verify_signature hmac s (trim rest) cu g) eqn:VS; [|exact I];
        apply verify_signature_sound in VS as (_ & u & L & A' & E);
        apply split_byte_spec in S1 as [S1 _]; repeat split; eapply cred_connection; eauto
      | destruct (parse_auth (trim line)) as [[[u g] c]|] eqn:PA; [|exact I];
        destruct (verify_signature hmac s c u g) eqn:VS; [|exact I];
        repeat split; eapply inline_credential, inline_sound; eassumption ].
  Qed.

  Theorem gate_sound : forall cfg s conn line now tok text uid conn' s',
    auth_on cfg ->
    gate_tcp hmac cfg s conn line now tok = (GDispatch text uid, conn', s') ->
    credential s conn now line text uid /\ conn' = conn /\ s' = s.
  Proof.
    intros cfg s conn line now tok text uid conn' s' On H.
    pose proof (gate_tcp_sound cfg s conn line now tok On) as Q. rewrite H in Q. exact Q.
  Qed.

  Theorem auth_sound : forall cfg s conn line now tok uid conn' s',
    auth_on cfg ->
    gate_tcp hmac cfg s conn line now tok = (GAuthOk uid, conn', s') ->
    exists u sig,
      alookup uid (st_users s) = Some u /\ u_active u = true /\
      eq_ignore_case (firstn 5 (trim line)) auth_word = true /\
      trim (skipn 5 (trim line)) = uid ++ colon :: sig /\ sig = hmac (u_key u) uid /\
      conn' = Some uid /\ s' = new_session s tok uid now (g_expiry cfg).
  Proof.
    intros cfg s conn line now tok uid conn' s' On H.
    pose proof (gate_tcp_sound cfg s conn line now tok On) as Q. rewrite H in Q. exact Q.
  Qed.

  (** inline credentials only; the [credential] of [gate_unix_sound] and [gate_http_sound] is a weakening *)
  Theorem gate_unix_inline : forall cfg s line text uid,
    auth_on cfg -> gate_unix hmac cfg s line = GDispatch text uid -> inline_signed s line text uid.
  Proof.
    intros cfg s line text uid [B M] H. unfold gate_unix in H. rewrite B, M in H. cbn [negb] in H.
    destruct (parse_auth (trim line)) as [[[u g] c]|] eqn:PA; [|discriminate].
    destruct (verify_signature hmac s c u g) eqn:VS; [|discriminate].
    inversion H; subst. eapply inline_sound; eassumption.
  Qed.

  Theorem gate_unix_sound : forall cfg s line text uid,
    auth_on cfg -> gate_unix hmac cfg s line = GDispatch text uid ->
    credential s None 0 line text uid.
  Proof. intros cfg s line text uid On H. eapply inline_credential, gate_unix_inline; eassumption. Qed.

  Lemma gate_http_no_header : forall cfg s body, gate_http hmac cfg s None body = gate_unix hmac cfg s body.
  Proof. reflexivity. Qed.

  Theorem gate_http_inline : forall cfg s hdr body text uid,
    auth_on cfg -> gate_http hmac cfg s hdr body = GDispatch text uid ->
    (exists u sig, hdr = Some (uid, sig) /\ text = trim body /\
        alookup uid (st_users s) = Some u /\ u_active u = true /\ sig = hmac (u_key u) (trim body))
    \/ (hdr = None /\ inline_signed s body text uid).
  Proof.
    intros cfg s hdr body text uid On H. destruct hdr as [[hu hs]|].
    - destruct On as [B M]. unfold gate_http in H. rewrite B, M in H. cbn [negb] in H.
      destruct (verify_signature hmac s (trim body) hu hs) eqn:VS; [|discriminate].
      inversion H; subst. apply verify_signature_sound in VS as (_ & u0 & L & A & E).
      left. exists u0, hs. repeat split; assumption.
    - right. split; [reflexivity|]. rewrite gate_http_no_header in H. exact (gate_unix_inline cfg s body text uid On H).
  Qed.

  Theorem gate_http_sound : forall cfg s hdr body text uid,
    auth_on cfg -> gate_http hmac cfg s hdr body = GDispatch text uid ->
    (exists u sig, hdr = Some (uid, sig) /\ text = trim body /\
        alookup uid (st_users s) = Some u /\ u_active u = true /\ sig = hmac (u_key u) (trim body))
    \/ (hdr = None /\ credential s None 0 body text uid).
  Proof.
    intros cfg s hdr body text uid On H.
    destruct (gate_http_inline cfg s hdr body text uid On H) as [L|[E I]]; [left; exact L|].
    right. split; [exact E|apply inline_credential, I].
  Qed.

  Lemma gate_tcp_active : forall cfg s conn line now tok, auth_on cfg ->
    match fst (fst (gate_tcp hmac cfg s conn line now tok)) with
    | GDispatch _ u | GAuthOk u => active_of s u = Some true
    | GReject => True
    end.
  Proof.
    intros cfg s conn line now tok On. pose proof (gate_tcp_sound cfg s conn line now tok On) as Q.
    destruct (gate_tcp hmac cfg s conn line now tok) as [[[|u|text u] c'] s']; cbn [fst]; [exact I| |].
    - destruct Q as (u0 & sig & L & A & _). apply active_of_iff. eauto.
    - eapply credential_active, Q.
  Qed.

  Lemma gate_unix_active : forall cfg s line text uid,
    auth_on cfg -> gate_unix hmac cfg s line = GDispatch text uid -> active_of s uid = Some true.
  Proof. intros cfg s line text uid On G. eapply credential_active, gate_unix_sound; eassumption. Qed.

  Lemma gate_http_active : forall cfg s hdr body text uid,
    auth_on cfg -> gate_http hmac cfg s hdr body = GDispatch text uid -> active_of s uid = Some true.
  Proof.
    intros cfg s hdr body text uid On G.
    destruct (gate_http_sound cfg s hdr body text uid On G) as [(u & sig & _ & _ & L & A & _)|(_ & C)].
    - apply active_of_iff. eauto.
    - eapply credential_active, C.
  Qed.
End GateProofs.

Theorem revoke_key_next : forall hmac s id s1 s2 cfg conn line now tok,
  revoke_key s id = (None, s1) -> reachable_from s1 s2 -> auth_on cfg ->
  match fst (fst (gate_tcp hmac cfg s2 conn line now tok)) with
  | GDispatch _ u => u <> id
  | GAuthOk u => u <> id
  | GReject => True
  end.
Proof.
  intros hmac s id s1 s2 cfg conn line now tok R F On.
  pose proof (never_reactivated s1 s2 id F (revoke_key_inactive s id s1 R)) as A.
  pose proof (gate_tcp_active hmac cfg s2 conn line now tok On) as Q.
  destruct (fst (fst (gate_tcp hmac cfg s2 conn line now tok))); [exact I| |]; intros ->; congruence.
Qed.

(** * No account ever carries a reserved id ([validate_user_id] rejects them, 139a8cf) *)

Definition no_reserved (s : state) : Prop :=
  forall id, is_reserved_id id = true -> alookup id (st_users s) = None.

Lemma validate_user_id_not_reserved : forall id, validate_user_id id = None -> is_reserved_id id = false.
Proof.
  intros id H. unfold validate_user_id in H.
  destruct (is_nil id); [discriminate|]. destruct (auth_max_user_id_len <? blen id); [discriminate|].
  destruct (negb (forallb id_char_ok id)); [discriminate|].
  change auth_validate_rejects_reserved with true in H. cbn [andb] in H.
  destruct (is_reserved_id id); [discriminate|reflexivity].
Qed.

Lemma active_not_reserved : forall s id b, no_reserved s -> active_of s id = Some b -> is_reserved_id id = false.
Proof.
  intros s id b N A. destruct (is_reserved_id id) eqn:E; [|reflexivity].
  apply active_of_iff in A as (u & L & _). rewrite (N id E) in L. discriminate.
Qed.

Theorem reachable_no_reserved : forall s, reachable s -> no_reserved s.
Proof.
  intros s H. refine (reachable_from_preserves no_reserved _ _ _ _ _ H _).
  - intros s1 s2 E _ N id R. rewrite E. apply N, R.
  - intros s1 u N W id R. rewrite put_user_users. destruct (bytes_eqb id (u_id u)) eqn:E; [|apply N, R].
    beq. subst id. destruct W as [_ V _|u0 L _].
    + apply validate_user_id_not_reserved in V. congruence.
    + rewrite (N _ R) in L. discriminate.
  - intros s1 N. exact N.
  - intros id _. reflexivity.
Qed.

Theorem gate_never_reserved : forall hmac cfg s conn line now tok,
  reachable s -> auth_on cfg ->
  match fst (fst (gate_tcp hmac cfg s conn line now tok)) with
  | GDispatch _ u => is_reserved_id u = false
  | GAuthOk u => is_reserved_id u = false
  | GReject => True
  end.
Proof.
  intros hmac cfg s conn line now tok R On. pose proof (gate_tcp_active hmac cfg s conn line now tok On) as Q.
  destruct (fst (fst (gate_tcp hmac cfg s conn line now tok))); [exact I| |];
    eapply active_not_reserved; eauto using reachable_no_reserved.
Qed.

Theorem gate_unix_never_reserved : forall hmac cfg s line text uid,
  reachable s -> auth_on cfg -> gate_unix hmac cfg s line = GDispatch text uid -> is_reserved_id uid = false.
Proof.
  intros hmac cfg s line text uid R On G.
  eapply active_not_reserved; eauto using reachable_no_reserved, gate_unix_active.
Qed.

Theorem gate_http_never_reserved : forall hmac cfg s hdr body text uid,
  reachable s -> auth_on cfg -> gate_http hmac cfg s hdr body = GDispatch text uid -> is_reserved_id uid = false.
Proof.
  intros hmac cfg s hdr body text uid R On G.
  eapply active_not_reserved; eauto using reachable_no_reserved, gate_http_active.
Qed.

Definition roles_of (s : state) (id : bytes) : list bytes :=
  match alookup id (st_users s) with Some u => u_roles u | None => [] end.

(** stated on an arm of [dispatch]; [skip]: the handler has the bypass shortcut *)
Lemma hcheck_exec : forall skip who ok s (K : outcome * state) s',
  match hcheck skip who ok with Some o => (o, s) | None => K end = (OExec, s') ->
  K = (OExec, s') /\ exists u, who = Some u /\ ((skip = true /\ u = auth_bypass_id) \/ ok u = true).
Proof.
  intros skip who ok s K s' H. unfold hcheck in H. destruct who as [u|]; [|discriminate].
  destruct ((skip && bytes_eqb u auth_bypass_id) || ok u) eqn:E; [|discriminate].
  split; [exact H|]. exists u. split; [reflexivity|].
  apply orb_true_iff in E as [E|E]; [|right; exact E]. apply andb_true_iff in E as [E1 E]. beq. left. auto.
Qed.

(** REVOKE takes effect for the next check: once [REVOKE … ON ts FROM id] has been executed,
    write access to a revoked type is left to admins only, read access to admins and reading
    roles only, and after revoking both nothing but the admin role gives access. *)
Theorem revoke_perm_next : forall s who r w ts id k s' t,
  wf s -> dispatch s who (CRevokePerm r w ts id) k = (OExec, s') -> In t ts ->
  (w = true -> can_write (st_cache s') id t = true -> admin_user (st_users s') id) /\
  (r = true -> can_read (st_cache s') id t = true ->
     exists u, alookup id (st_users s') = Some u /\
       (has_role u "admin" \/ has_role u "read-only" \/ has_role u "viewer" \/ has_role u "editor")) /\
  (r = true -> w = true -> can_read (st_cache s') id t = true -> admin_user (st_users s') id).
Proof.
  intros s who r w ts id k s' t W H Hin.
  pose proof (dispatch_wf _ _ _ _ _ _ H W) as W'.
  cbn [dispatch] in H. apply hcheck_exec in H as [H _].
  destruct (revoke_many_entry ts s r w id s' H) as [E _]. specialize (E t Hin). unfold entry in E.
  rewrite (can_write_record s' id t W'), (can_read_record s' id t W'). unfold admin_user.
  destruct (alookup id (st_users s')) as [u|]; [|discriminate].
  unfold record_reads, record_writes. rewrite E. cbn [p_read p_write].
  assert (Ad : role_in auth_roles_admin (u_roles u) = true -> exists u0, Some u = Some u0 /\ has_role u0 "admin").
  { intro A. exists u. split; [reflexivity|apply role_admin, A]. }
  repeat split.
  - intros ->. cbn [negb]. rewrite andb_false_r, orb_false_r. exact Ad.
  - intros -> C. exists u. split; [reflexivity|]. rewrite <- role_admin, <- reader_roles, <- orb_true_iff.
    cbn [negb] in C. rewrite andb_false_r in C. destruct (role_in auth_roles_admin (u_roles u)); [reflexivity|].
    apply andb_true_iff in C as [_ C]. exact C.
  - intros -> ->. cbn [negb]. rewrite !andb_false_r, orb_false_r. exact Ad.
Qed.

(** what the declarative policy demands of user [uid] for command [c].  FLUSH: the property text and
    docs/src/commands/flush.md name no rule; a writing role is asked since it forces segment writes. *)
Definition needs (s : state) (uid : bytes) (c : cmd) : Prop :=
  match c with
  | CStore t => may_write (st_users s) uid t
  | CQuery q => forall t, In t (q_types q) -> may_read (st_users s) uid t
  | CReplay t present => forall t', In t' (replay_types t present) -> may_read (st_users s) uid t'
  | CCompare qs => forall t, In t (flat_map q_types qs) -> may_read (st_users s) uid t
  | CRemember _ q => forall t, In t (q_types q) -> may_read (st_users s) uid t
  | CShow name => forall t, In t (mat_types s name) -> may_read (st_users s) uid t
  | CFlush => writer_user (st_users s) uid
  | CPing | CBatch => True
  | CDefine _ | CCreateUser _ _ _ | CRevokeKey _ | CListUsers
  | CGrant _ _ _ _ | CRevokePerm _ _ _ _ | CShowPerms _ => admin_user (st_users s) uid
  end.

Definition policy (s : state) (who : option bytes) (c : cmd) : Prop :=
  match c with
  | CPing | CBatch => True
  | _ => exists uid, who = Some uid /\ needs s uid c
  end.

(** C13 as stated: whatever is executed was authorised.  The caller's identity is whatever a gate
    can hand to the dispatcher: never the reserved id for which the handlers skip their checks
    ([gate_never_reserved], 139a8cf). *)
Definition authorized_only : Prop :=
  forall s who c k s', reachable s -> who <> Some auth_bypass_id ->
    dispatch s who c k = (OExec, s') -> policy s who c.

(** the known classes of violating inputs (decidable, by command kind only) *)
Definition UncheckedShow (c : cmd) : bool := match c with CShow _ => true | _ => false end.
Definition FlushNoRole (c : cmd) : bool := match c with CFlush => true | _ => false end.
Definition KnownClass (c : cmd) : bool := UncheckedShow c || FlushNoRole c.

(** Environment fact carried by the abstract command: the event types stored in a context
    ([present] of a whole-context REPLAY) are defined event types - STORE refuses anything else.
    Only [needs] reads [present]; [dispatch] checks every defined type. *)
Definition cmd_wf (s : state) (c : cmd) : Prop :=
  match c with
  | CReplay None present => forall t, In t present -> smem t (st_schemas s) = true
  | _ => True
  end.

Lemma bypass_id_is_reserved : is_reserved_id auth_bypass_id = true.
Proof. unfold is_reserved_id. rewrite bytes_eqb_refl. reflexivity. Qed.

Lemma reserved_id_is_bypass : auth_bypass_id = bs "bypass".
Proof. reflexivity. Qed.

(** [hcheck_exec] for a caller other than the bypass identity; [Q] is what passing means in terms of the user records *)
Lemma checked : forall (Q : bytes -> Prop) skip who ok s (K : outcome * state) s',
  who <> Some auth_bypass_id -> (forall u, ok u = true -> Q u) ->
  match hcheck skip who ok with Some o => (o, s) | None => K end = (OExec, s') ->
  K = (OExec, s') /\ exists uid, who = Some uid /\ Q uid.
Proof.
  intros Q skip who ok s K s' NBy HQ H. apply hcheck_exec in H as (HK & u & -> & [[_ ->]|E]); [contradiction|eauto].
Qed.

Theorem outside_known_reachable : forall s who c k s',
  reachable s -> who <> Some auth_bypass_id -> KnownClass c = false -> cmd_wf s c ->
  dispatch s who c k = (OExec, s') -> policy s who c.
Proof.
  intros s who c k s' R NBy K CW H. pose proof (reachable_wf s R) as W. unfold KnownClass in K.
  apply orb_false_iff in K as [K2 K3].
  assert (Rd : forall ts u, forallb (can_read (st_cache s) u) ts = true -> forall t, In t ts -> may_read (st_users s) u t).
  { intros ts u E t Hin. rewrite forallb_forall in E. apply can_read_spec; auto. }
  (* the handler's admin check *)
  assert (Adm : forall skip K0, match hcheck skip who (is_admin (st_cache s)) with Some o => (o, s) | None => K0 end = (OExec, s') ->
                exists uid, who = Some uid /\ admin_user (st_users s) uid).
  { intros skip K0 H0. exact (proj2 (checked _ _ _ _ _ _ _ NBy (fun u => proj1 (is_admin_spec s u W)) H0)). }
  destruct c; cbn [dispatch] in H; cbn [policy needs].
  - (* STORE *)
    change auth_ident_store with true in H.
    exact (proj2 (checked _ _ _ _ _ _ _ NBy (fun u => proj1 (can_write_spec s u t W)) H)).
  - (* QUERY, sequence queries included (79dcefb) *)
    destruct q as [t seq]. cbn [fst snd q_types] in *. destruct (is_blank t); [discriminate|].
    change auth_ident_query with true in H. change auth_query_checks_sequence with true in H. cbv iota in H.
    apply (checked _ _ _ _ _ _ _ NBy (fun u => proj1 (can_read_spec s u t W))) in H as (H & u & -> & Q1).
    apply (checked _ _ _ _ _ _ _ NBy (Rd seq)) in H as (_ & u' & [= <-] & Q2).
    exists u. split; [reflexivity|]. intros t' [<-|Hin]; auto.
  - (* REPLAY (d146031): every defined type is checked, and what the context holds is defined *)
    change auth_ident_replay with true in H. apply (checked _ _ _ _ _ _ _ NBy (Rd _)) in H as (_ & u & -> & Q).
    exists u. split; [reflexivity|]. intros t' Hin. apply Q. destruct t as [t0|]; [exact Hin|apply smem_true, CW, Hin].
  - (* comparison (20fee3f) *)
    change auth_ident_compare with true in H. exact (proj2 (checked _ _ _ _ _ _ _ NBy (Rd _) H)).
  - (* REMEMBER (8e7945c) *)
    change auth_ident_remember with true in H. exact (proj2 (checked _ _ _ _ _ _ _ NBy (Rd _) H)).
  - (* SHOW *) discriminate K2.
  - (* FLUSH *) discriminate K3.
  - (* PING *) exact I.
  - (* DEFINE *) change auth_ident_define with true in H. exact (Adm _ _ H).
  - (* CREATE USER *) exact (Adm _ _ H).
  - (* REVOKE KEY *) exact (Adm _ _ H).
  - (* LIST USERS *) exact (Adm _ _ H).
  - (* GRANT *) exact (Adm _ _ H).
  - (* REVOKE *) exact (Adm _ _ H).
  - (* SHOW PERMISSIONS *) exact (Adm _ _ H).
  - (* a batch panics the dispatcher *) exact I.
Qed.

Lemma no_identity_commands : forall s who who' c k,
  KnownClass c = true -> dispatch s who c k = dispatch s who' c k.
Proof.
  intros s who who' c k H. destruct c; try discriminate H; cbn [dispatch];
    unfold read_check;
    change auth_ident_show with false; change auth_ident_flush with false; reflexivity.
Qed.

Theorem reserved_id_rejected : forall s id key fk roles,
  is_reserved_id id = true ->
  create_user s id key fk roles = (Some EInvalidId, s).
Proof.
  intros s id key fk roles R. pose proof (create_user_cases s id key fk roles) as C.
  assert (V : validate_user_id id = Some EInvalidId).
  { (* every test of [validate_user_id] but the length limit answers [EInvalidId], the reserved test among them;
       the two reserved ids are within the limit *)
    assert (L : (auth_max_user_id_len <? blen id) = false)
      by (unfold is_reserved_id in R; apply orb_true_iff in R as [R|R]; beq; subst id; reflexivity).
    unfold validate_user_id. change auth_validate_rejects_reserved with true. rewrite R, L.
    destruct (is_nil id), (negb (forallb id_char_ok id)); reflexivity. }
  rewrite V in C. exact C.
Qed.

Definition w_root : option bytes := Some (bs "root").
Definition w_state : state :=
  let s1 := snd (create_user state_empty (bs "root") (Some (bs "rootkey")) [] [bs "admin"]) in
  let s2 := snd (dispatch s1 w_root (CDefine (bs "ta")) []) in
  let s3 := snd (dispatch s2 w_root (CDefine (bs "tb")) []) in
  let s5 := snd (dispatch s3 w_root (CCreateUser (bs "rd") (Some (bs "k1")) None) []) in
  let s6 := snd (dispatch s5 w_root (CGrant true false [bs "ta"] (bs "rd")) []) in
  snd (dispatch s6 w_root (CRemember (bs "mb") (bs "tb", [])) []).

Lemma w_state_reachable : reachable w_state.
Proof.
  unfold w_state, reachable.
  repeat (eapply rf_step; [|apply st_dispatch]). eapply rf_step; [apply rf_refl|apply st_create].
Qed.

Lemma w_state_wf : wf w_state.
Proof. apply reachable_wf. apply w_state_reachable. Qed.

Lemma not_admin : forall uid, is_admin (st_cache w_state) uid = false -> ~ admin_user (st_users w_state) uid.
Proof. intros uid H A. apply (is_admin_spec _ _ w_state_wf) in A. congruence. Qed.
Lemma not_reader : forall uid t, can_read (st_cache w_state) uid t = false -> ~ may_read (st_users w_state) uid t.
Proof. intros uid t H A. apply (can_read_spec _ _ _ w_state_wf) in A. congruence. Qed.
Lemma not_writer : forall uid, writer_role (st_cache w_state) uid = false -> ~ writer_user (st_users w_state) uid.
Proof. intros uid H A. apply (writer_role_spec _ _ w_state_wf) in A. congruence. Qed.

(** SHOW: user "rd" (READ on "ta" only) is shown a materialisation of "tb" rows *)
Lemma refute_show :
  exists s', dispatch w_state (Some (bs "rd")) (CShow (bs "mb")) [] = (OExec, s')
  /\ UncheckedShow (CShow (bs "mb")) = true
  /\ ~ policy w_state (Some (bs "rd")) (CShow (bs "mb")).
Proof.
  eexists. split; [vm_compute; reflexivity|]. split; [reflexivity|].
  intros (uid & E & A). inversion E; subst uid. cbn [needs] in A.
  specialize (A (bs "tb")).
  assert (In (bs "tb") (mat_types w_state (bs "mb"))) as HI by (vm_compute; left; reflexivity).
  apply A in HI. revert HI. apply not_reader. vm_compute. reflexivity.
Qed.

Lemma refute_flush :
  exists s', dispatch w_state (Some (bs "rd")) CFlush [] = (OExec, s')
  /\ FlushNoRole CFlush = true /\ ~ policy w_state (Some (bs "rd")) CFlush.
Proof.
  eexists. split; [vm_compute; reflexivity|]. split; [reflexivity|].
  intros (uid & E & A). inversion E; subst uid. revert A. apply not_writer. vm_compute. reflexivity.
Qed.

Definition rd_is_not_bypass : Some (bs "rd") <> Some auth_bypass_id.
Proof. discriminate. Qed.

Theorem authorized_only_refuted :
  ~ authorized_only /\
  (exists s who c k s', reachable s /\ who <> Some auth_bypass_id /\ dispatch s who c k = (OExec, s') /\ UncheckedShow c = true /\ ~ policy s who c) /\
  (exists s who c k s', reachable s /\ who <> Some auth_bypass_id /\ dispatch s who c k = (OExec, s') /\ FlushNoRole c = true /\ ~ policy s who c).
Proof.
  split; [|split].
  - (* by the SHOW witness: its rule is the documented one, the rule for FLUSH is [needs]' own *)
    intro A. destruct refute_show as (s' & D & _ & N). apply N.
    eapply A; [apply w_state_reachable|apply rd_is_not_bypass|exact D].
  - destruct refute_show as (s' & D & K & N). do 5 eexists. split; [apply w_state_reachable|]. split; [apply rd_is_not_bypass|]. eauto.
  - destruct refute_flush as (s' & D & K & N). do 5 eexists. split; [apply w_state_reachable|]. split; [apply rd_is_not_bypass|]. eauto.
Qed.

(** "rd" holds READ on "ta" only ("ta" and "tb" are defined); whole-context REPLAY needs every defined type *)
Example repaired_witnesses :
  fst (dispatch w_state (Some (bs "rd")) (CReplay None [bs "ta"; bs "tb"]) []) = O403 /\
  fst (dispatch w_state (Some (bs "rd")) (CReplay None [bs "ta"]) []) = O403 /\
  fst (dispatch w_state (Some (bs "rd")) (CReplay (Some (bs "tb")) [bs "ta"; bs "tb"]) []) = O403 /\
  fst (dispatch w_state (Some (bs "rd")) (CReplay (Some (bs "ta")) [bs "ta"; bs "tb"]) []) = OExec /\
  fst (dispatch w_state None (CReplay (Some (bs "ta")) [bs "ta"]) []) = O401 /\
  fst (dispatch w_state w_root (CReplay None [bs "ta"; bs "tb"]) []) = OExec /\
  fst (dispatch w_state (Some (bs "rd")) (CRemember (bs "m2") (bs "tb", [])) []) = O403 /\
  fst (dispatch w_state (Some (bs "rd")) (CRemember (bs "m2") (bs "ta", [])) []) = OExec /\
  fst (dispatch w_state (Some (bs "rd")) (CCompare [(bs "ta", []); (bs "tb", [])]) []) = O403 /\
  fst (dispatch w_state (Some (bs "rd")) (CCompare [(bs "ta", []); (bs "ta", [])]) []) = OExec /\
  fst (dispatch w_state (Some (bs "rd")) (CQuery (bs "ta", [bs "tb"])) []) = O403 /\
  fst (dispatch w_state (Some (bs "rd")) (CQuery (bs "ta", [bs "ta"])) []) = OExec.
Proof. repeat apply conj; vm_compute; reflexivity. Qed.

Example outside_known_inhabited :
  KnownClass (CQuery (bs "ta", [])) = false /\
  KnownClass (CReplay None [bs "ta"]) = false /\ cmd_wf w_state (CReplay None [bs "ta"; bs "tb"]) /\
  fst (dispatch w_state (Some (bs "rd")) (CQuery (bs "ta", [])) []) = OExec /\
  fst (dispatch w_state (Some (bs "rd")) (CQuery (bs "tb", [])) []) = O403 /\
  fst (dispatch w_state (Some (bs "rd")) (CStore (bs "ta")) []) = O403 /\
  fst (dispatch w_state None (CStore (bs "ta")) []) = O401 /\
  dispatch w_state w_root (CCreateUser (bs "bypass") (Some (bs "kb")) (Some [bs "admin"])) [] = (O400, w_state) /\
  dispatch w_state w_root (CCreateUser (bs "no-auth") (Some (bs "kb")) None) [] = (O400, w_state).
Proof.
  repeat apply conj; try (vm_compute; reflexivity).
  intros t [<-|[<-|[]]]; vm_compute; reflexivity.
Qed.

Theorem read_commands_reachable : forall s u c k s',
  reachable s -> u <> auth_bypass_id -> cmd_wf s c ->
  match c with CReplay _ _ | CRemember _ _ | CCompare _ | CQuery _ => True | _ => False end ->
  dispatch s (Some u) c k = (OExec, s') -> needs s u c.
Proof.
  intros s u c k s' R N CW Kd H.
  assert (P : policy s (Some u) c).
  { apply (outside_known_reachable s (Some u) c k s' R); [congruence| |exact CW|exact H].
    destruct c; try contradiction; reflexivity. }
  destruct c; try contradiction; destruct P as (u' & [= <-] & P); exact P.
Qed.

Section EndToEnd.
  Variable hmac : bytes -> bytes -> bytes.
  Variable parse : bytes -> option cmd.

  Lemma after_gate_exec : forall r s key c uid s',
    after_gate parse r s key = (SOut c uid OExec, s') ->
    exists text, r = GDispatch text uid /\ parse text = Some c /\ dispatch s (Some uid) c key = (OExec, s').
  Proof.
    intros r s key c uid s' H. unfold after_gate in H. destruct r as [|au|text du]; try discriminate H.
    destruct (parse text) as [c0|] eqn:P; [|discriminate H].
    destruct (dispatch s (Some du) c0 key) as [o s2] eqn:D. inversion H; subst. eauto.
  Qed.

  Lemma served_policy : forall s uid c key s',
    reachable s -> is_reserved_id uid = false -> dispatch s (Some uid) c key = (OExec, s') ->
    KnownClass c = false -> cmd_wf s c -> policy s (Some uid) c.
  Proof.
    intros s uid c key s' R NR D K CW. eapply outside_known_reachable; eauto.
    intros [= ->]. rewrite bypass_id_is_reserved in NR. discriminate.
  Qed.

  Theorem served_outside_known : forall cfg s conn line now tok key c uid conn' s',
    reachable s -> auth_on cfg ->
    serve_tcp hmac parse cfg s conn line now tok key = (SOut c uid OExec, conn', s') ->
    exists text, credential hmac s conn now line text uid /\ parse text = Some c /\
                 is_reserved_id uid = false /\
                 (KnownClass c = false -> cmd_wf s c -> policy s (Some uid) c).
  Proof.
    intros cfg s conn line now tok key c uid conn' s' R On H. unfold serve_tcp in H.
    pose proof (gate_never_reserved hmac cfg s conn line now tok R On) as NR.
    destruct (gate_tcp hmac cfg s conn line now tok) as [[r c1] s1] eqn:G. cbn [fst] in NR.
    destruct (after_gate parse r s1 key) as [o s2] eqn:AG. inversion H; subst. clear H.
    apply after_gate_exec in AG as (text & -> & P & D).
    apply gate_sound in G as (C & _ & ->); [|exact On].
    exists text. split; [exact C|]. split; [exact P|]. split; [exact NR|]. exact (served_policy _ _ _ _ _ R NR D).
  Qed.

  Theorem served_unix_outside_known : forall cfg s line key c uid s',
    reachable s -> auth_on cfg ->
    serve_unix hmac parse cfg s line key = (SOut c uid OExec, s') ->
    is_reserved_id uid = false /\ (KnownClass c = false -> cmd_wf s c -> policy s (Some uid) c).
  Proof.
    intros cfg s line key c uid s' R On H. apply after_gate_exec in H as (text & G & _ & D).
    pose proof (gate_unix_never_reserved _ _ _ _ _ _ R On G) as NR. split; [exact NR|].
    exact (served_policy _ _ _ _ _ R NR D).
  Qed.

  Theorem served_http_outside_known : forall cfg s hdr body key c uid s',
    reachable s -> auth_on cfg ->
    serve_http hmac parse cfg s hdr body key = (SOut c uid OExec, s') ->
    is_reserved_id uid = false /\ (KnownClass c = false -> cmd_wf s c -> policy s (Some uid) c).
  Proof.
    intros cfg s hdr body key c uid s' R On H. apply after_gate_exec in H as (text & G & _ & D).
    pose proof (gate_http_never_reserved _ _ _ _ _ _ _ R On G) as NR. split; [exact NR|].
    exact (served_policy _ _ _ _ _ R NR D).
  Qed.
End EndToEnd.

(** satisfiability of the gate theorems' hypotheses, with a toy keyed function for [hmac] *)
Definition toy_hmac (k m : bytes) : bytes := k ++ [35] ++ m.
Definition cfg_on : gate_cfg := mkCfg false true 300.

Example gate_dispatches :
  let line := bs "rd:k1#PING:PING" in
  fst (fst (gate_tcp toy_hmac cfg_on w_state None line 10 (bs "tok"))) = GDispatch (bs "PING") (bs "rd") /\
  fst (fst (gate_tcp toy_hmac cfg_on w_state None (bs "rd:k1#PINg:PING") 10 (bs "tok"))) = GReject /\
  fst (fst (gate_tcp toy_hmac cfg_on w_state None (bs "AUTH rd:k1#rd") 10 (bs "tok"))) = GAuthOk (bs "rd") /\
  (let s1 := snd (gate_tcp toy_hmac cfg_on w_state None (bs "AUTH rd:k1#rd") 10 (bs "tok")) in
   fst (fst (gate_tcp toy_hmac cfg_on s1 None (bs "PING TOKEN tok") 310 [])) = GDispatch (bs "PING") (bs "rd") /\
   fst (fst (gate_tcp toy_hmac cfg_on s1 None (bs "PING TOKEN tok") 311 [])) = GReject /\
   fst (fst (gate_tcp toy_hmac cfg_on s1 (Some (bs "rd")) (bs "k1#PING: PING ") 10 [])) = GDispatch (bs "PING") (bs "rd")).
Proof. cbv zeta. repeat (split; [vm_compute; reflexivity|]). vm_compute. reflexivity. Qed.

Example revoke_key_inhabited :
  exists s1, revoke_key w_state (bs "rd") = (None, s1) /\
    fst (fst (gate_tcp toy_hmac cfg_on s1 None (bs "rd:k1#PING:PING") 10 [])) = GReject.
Proof. eexists. split; vm_compute; reflexivity. Qed.

Example revoke_perm_inhabited :
  exists s', dispatch w_state w_root (CRevokePerm true false [bs "ta"] (bs "rd")) [] = (OExec, s') /\
    can_read (st_cache w_state) (bs "rd") (bs "ta") = true /\ can_read (st_cache s') (bs "rd") (bs "ta") = false.
Proof.
  exists (snd (dispatch w_state w_root (CRevokePerm true false [bs "ta"] (bs "rd")) [])).
  split; [|split]; vm_compute; reflexivity.
Qed.

(** so the handler's admin check answers the same before every step of the GRANT loop *)
Lemma grant_permission_is_admin : forall s id t p s' x, wf s ->
  grant_permission s id t p = (None, s') -> is_admin (st_cache s') x = is_admin (st_cache s) x.
Proof.
  intros s id t p s' x W G.
  destruct (grant_permission_cases s id t p) as [[_ Eg]|(u & L & Eg)]; rewrite Eg in G; [discriminate|].
  injection G as <-. unfold is_admin, put_user, set_users_cache. cbn [st_cache].
  set (u' := mkUser id (u_key u) (u_active u) (u_roles u) (ainsert t p (u_perms u))).
  destruct (update_user_spec (st_cache s) u' x) as (A & _). rewrite A. cbn [u_id u_roles u'].
  destruct (bytes_eqb x id) eqn:E; [|reflexivity]. beq. subst x.
  destruct (wf_cache s id W) as (Sa & _). rewrite Sa, L. reflexivity.
Qed.

Theorem dispatch_grant_many_wf : forall s who r w t ts id k, wf s ->
  dispatch s who (CGrant r w (t :: ts) id) k =
  match dispatch s who (CGrant r w [t] id) k with
  | (OExec, s') => dispatch s' who (CGrant r w ts id) k
  | other => other
  end.
Proof.
  intros s who r w t ts id k W. cbn [dispatch].
  unfold hcheck. destruct who as [u|]; [|reflexivity].
  destruct ((auth_skip_perms && bytes_eqb u auth_bypass_id) || is_admin (st_cache s) u) eqn:HC; [|reflexivity].
  cbn [grant_loop]. destruct (negb (smem t (st_schemas s))); [reflexivity|].
  destruct (grant_permission s id t _) as [[e|] s1] eqn:G; [reflexivity|].
  rewrite (grant_permission_is_admin _ _ _ _ _ u W G), HC. reflexivity.
Qed.

(** [can_read_spec], [can_write_spec], [revoke_perm_next] and [dispatch_grant_many_wf] with [reachable s] for [wf s],
    as Props/C13.v states them *)
Definition can_read_reachable s uid t (R : reachable s)
  : can_read (st_cache s) uid t = true <-> may_read (st_users s) uid t := can_read_spec s uid t (reachable_wf s R).
Definition can_write_reachable s uid t (R : reachable s)
  : can_write (st_cache s) uid t = true <-> may_write (st_users s) uid t := can_write_spec s uid t (reachable_wf s R).
Definition revoke_perm_reachable s who r w ts id k s' t (R : reachable s) :=
  revoke_perm_next s who r w ts id k s' t (reachable_wf s R).
Definition dispatch_grant_many s who r w t ts id k (R : reachable s) :=
  dispatch_grant_many_wf s who r w t ts id k (reachable_wf s R).

Example grant_many_inhabited :
  (* "rd" holds READ on ta; GRANT WRITE ON tb, ta leaves tb with WRITE only and ta with both *)
  exists s', dispatch w_state w_root (CGrant false true [bs "tb"; bs "ta"] (bs "rd")) [] = (OExec, s') /\
    entry s' (bs "rd") (bs "tb") = Some (mkPerm false true) /\
    entry s' (bs "rd") (bs "ta") = Some (mkPerm true true).
Proof.
  exists (snd (dispatch w_state w_root (CGrant false true [bs "tb"; bs "ta"] (bs "rd")) [])).
  split; [|split]; vm_compute; reflexivity.
Qed.
