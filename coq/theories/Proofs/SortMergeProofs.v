(** The list machinery of Model/Order.v over a total preorder given by a three-valued comparator.  [arr s l]: [s] is a
    sorted arrangement of [l]; two arrangements of one list agree position by position up to the order's equivalence
    [ceq] ([arr_unique]), and the heap-driven k-way merge of arrangements of the parts arranges their concatenation
    ([arr_kmerge]).  The first [k] rows of a merge depend on the first [k] rows of every stream only
    ([kmerge_fuel_prefix]).  Also here: [lesser], the binary minimum of which MIN and MAX over strings are instances
    (Proofs/AggProofs.v). *)
From Coq Require Import NArith List Lia Permutation Sorting.Sorted.
From Coq Require Import ZifyN.
From Snel Require Import Model.Order Proofs.ListFacts.
Import ListNotations.

Section TakeDrop.
  Context {A : Type}.

  Lemma takeN_firstn : forall (l : list A) n, takeN n l = firstn (N.to_nat n) l.
  Proof.
    induction l as [|x r IH]; intros n; cbn [takeN].
    - now rewrite firstn_nil.
    - destruct (N.eqb_spec n 0) as [->|Hn]; [reflexivity|].
      replace (N.to_nat n) with (S (N.to_nat (N.pred n))) by lia.
      cbn [firstn]. now rewrite IH.
  Qed.

  Lemma dropN_skipn : forall (l : list A) n, dropN n l = skipn (N.to_nat n) l.
  Proof.
    induction l as [|x r IH]; intros n; cbn [dropN].
    - now rewrite skipn_nil.
    - destruct (N.eqb_spec n 0) as [->|Hn]; [reflexivity|].
      replace (N.to_nat n) with (S (N.to_nat (N.pred n))) by lia.
      cbn [skipn]. now rewrite IH.
  Qed.

  Lemma dropN_0 : forall l : list A, dropN 0 l = l.
  Proof. now destruct l. Qed.

  Lemma takeN_0 : forall l : list A, takeN 0 l = [].
  Proof. now destruct l. Qed.

  Lemma dropN_cons_pos : forall n x (l : list A), (0 < n)%N -> dropN n (x :: l) = dropN (N.pred n) l.
  Proof. intros n x l H. cbn [dropN]. destruct (N.eqb_spec n 0); [lia|reflexivity]. Qed.

  Lemma takeN_cons_pos : forall n x (l : list A), (0 < n)%N -> takeN n (x :: l) = x :: takeN (N.pred n) l.
  Proof. intros n x l H. cbn [takeN]. destruct (N.eqb_spec n 0); [lia|reflexivity]. Qed.

  Lemma In_takeN : forall n (l : list A) x, In x (takeN n l) -> In x l.
  Proof.
    intros n l x H. rewrite takeN_firstn in H. exact (firstn_In _ _ _ H).
  Qed.

  Lemma In_dropN : forall n (l : list A) x, In x (dropN n l) -> In x l.
  Proof.
    intros n l x H. rewrite dropN_skipn in H. rewrite <- (firstn_skipn (N.to_nat n) l). apply in_or_app. right. exact H.
  Qed.

  Lemma slice_firstn_skipn : forall (l : list A) m n,
    slice m n l = skipn (N.to_nat m) (firstn (N.to_nat (m + n)) l).
  Proof.
    intros l m n. unfold slice. rewrite takeN_firstn, dropN_skipn.
    replace (N.to_nat (m + n)) with (N.to_nat m + N.to_nat n)%nat by lia.
    now rewrite firstn_skipn_comm.
  Qed.

  Lemma takeN_length : forall (l : list A) n,
    N.of_nat (length (takeN n l)) = N.min n (N.of_nat (length l)).
  Proof. intros l n. rewrite takeN_firstn, firstn_length. lia. Qed.

  Lemma dropN_length : forall (l : list A) n,
    N.of_nat (length (dropN n l)) = (N.of_nat (length l) - n)%N.
  Proof. intros l n. rewrite dropN_skipn, skipn_length. lia. Qed.

  Lemma slice_length : forall (l : list A) m n,
    N.of_nat (length (slice m n l)) = N.min n (N.of_nat (length l) - m)%N.
  Proof. intros. unfold slice. now rewrite takeN_length, dropN_length. Qed.
End TakeDrop.

Section Preorder.
  Context {A : Type}.
  Variable cmp : A -> A -> comparison.

  Definition cle (a b : A) : Prop := cmp a b <> Gt.
  Definition ceq (a b : A) : Prop := cmp a b = Eq.

  Record total_preorder : Prop := {
    tp_sym : forall a b, cmp b a = CompOpp (cmp a b);
    tp_trans : forall a b c, cle a b -> cle b c -> cle a c
  }.

  Hypothesis TP : total_preorder.

  Lemma cmp_refl : forall a, cmp a a = Eq.
  Proof. intros a. pose proof (tp_sym TP a a) as H. destruct (cmp a a); cbn in H; congruence. Qed.

  Lemma cle_refl : forall a, cle a a.
  Proof. intros a. unfold cle. now rewrite cmp_refl. Qed.

  Lemma cle_total : forall a b, cle a b \/ cle b a.
  Proof.
    intros a b. unfold cle. rewrite (tp_sym TP a b). destruct (cmp a b); cbn; intuition congruence.
  Qed.

  Lemma cle_antisym : forall a b, cle a b -> cle b a -> ceq a b.
  Proof.
    intros a b. unfold cle, ceq. rewrite (tp_sym TP a b). destruct (cmp a b); cbn; intuition congruence.
  Qed.

  Lemma ceq_cle : forall a b, ceq a b -> cle a b /\ cle b a.
  Proof.
    intros a b. unfold cle, ceq. rewrite (tp_sym TP a b). intros ->. cbn. split; congruence.
  Qed.

  Lemma ceq_refl : forall a, ceq a a.
  Proof. exact cmp_refl. Qed.

  Lemma ceq_sym : forall a b, ceq a b -> ceq b a.
  Proof. intros a b H. apply ceq_cle in H. apply cle_antisym; tauto. Qed.

  Lemma ceq_trans : forall a b c, ceq a b -> ceq b c -> ceq a c.
  Proof.
    intros a b c H1 H2. apply ceq_cle in H1. apply ceq_cle in H2.
    apply cle_antisym; eapply (tp_trans TP); intuition eauto.
  Qed.

  Lemma not_cle_lt : forall a b, ~ cle a b -> cle b a.
  Proof. intros a b H. destruct (cle_total a b); tauto. Qed.

  Lemma Forall2_ceq_refl : forall l, Forall2 ceq l l.
  Proof. induction l; constructor; auto using ceq_refl. Qed.

  Lemma Forall2_ceq_trans : forall l1 l2 l3,
    Forall2 ceq l1 l2 -> Forall2 ceq l2 l3 -> Forall2 ceq l1 l3.
  Proof.
    intros l1 l2 l3 H. revert l3. induction H; intros l3 H3; inversion H3; subst; constructor.
    - eapply ceq_trans; eauto.
    - auto.
  Qed.

  Definition sorted (l : list A) : Prop := StronglySorted cle l.

  Lemma sorted_tl : forall x l, sorted (x :: l) -> sorted l.
  Proof. intros x l H. now inversion H. Qed.

  Lemma sorted_remove_middle : forall l1 x l2, sorted (l1 ++ x :: l2) -> sorted (l1 ++ l2).
  Proof.
    induction l1 as [|y l1 IH]; intros x l2 H; cbn in *.
    - now inversion H.
    - inversion H as [|? ? Hs Hf]; subst. constructor; [eapply IH; exact Hs|].
      apply Forall_app in Hf. destruct Hf as [F1 F2]. apply Forall_app.
      split; [assumption|now inversion F2].
  Qed.

  Lemma rotate_equiv : forall w a a' v,
    Forall (ceq a) w -> ceq a a' -> Forall2 ceq (a :: w ++ v) (w ++ a' :: v).
  Proof.
    induction w as [|c w IH]; intros a a' v Hw Ha; cbn.
    - constructor; [assumption|apply Forall2_ceq_refl].
    - inversion Hw as [|? ? Hc Hw']; subst. constructor; [assumption|].
      apply IH.
      + rewrite Forall_forall in *. intros y Hy. eapply ceq_trans; [apply ceq_sym; eassumption|auto].
      + eapply ceq_trans; [apply ceq_sym; eassumption|assumption].
  Qed.

  Lemma sorted_perm_equiv : forall l1 l2,
    sorted l1 -> sorted l2 -> Permutation l1 l2 -> Forall2 ceq l1 l2.
  Proof.
    induction l1 as [|a l1 IH]; intros l2 S1 S2 P.
    - apply Permutation_nil in P. subst. constructor.
    - assert (Ha : In a l2) by (eapply Permutation_in; [exact P|now left]).
      apply in_split in Ha. destruct Ha as (u & v & ->). apply Permutation_cons_app_inv in P.
      inversion S1 as [|? ? S1' F1]; subst. rewrite Forall_forall in F1.
      apply Forall2_ceq_trans with (l2 := a :: u ++ v).
      + constructor; [apply ceq_refl|]. apply IH; [exact S1'|eapply sorted_remove_middle, S2|exact P].
      + (* what stands before [a] in [l2] is not above it, and [a] is least in [l1] *)
        apply rotate_equiv; [|apply ceq_refl]. apply Forall_forall. intros y Hy.
        apply cle_antisym; [|eapply sorted_app_inv; [exact S2|exact Hy|now left]].
        apply F1. eapply Permutation_in; [apply Permutation_sym, P|]. apply in_or_app. now left.
  Qed.

  Lemma insert_by_perm : forall x l, Permutation (insert_by cmp x l) (x :: l).
  Proof. intros x. apply insert_perm; [reflexivity|]. intros y r. cbn [insert_by]. destruct (cmp x y); auto. Qed.

  Lemma insert_by_sorted : forall x l, sorted l -> sorted (insert_by cmp x l).
  Proof.
    induction l as [|y r IH]; intros S; cbn.
    - repeat constructor.
    - inversion S as [|? ? S' F]; subst.
      assert (Hle : cmp x y <> Gt -> sorted (x :: y :: r)).
      { intros E. constructor; [assumption|]. constructor; [exact E|].
        apply Forall_forall. intros z Hz. rewrite Forall_forall in F.
        apply (tp_trans TP) with (b := y); [exact E|auto]. }
      destruct (cmp x y) eqn:E.
      + apply Hle. congruence.
      + apply Hle. congruence.
      + constructor; [apply IH; exact S'|].
        assert (Hyx : cle y x) by (apply not_cle_lt; intros H; exact (H E)).
        apply Forall_forall. intros z Hz. rewrite Forall_forall in F.
        eapply Permutation_in in Hz; [|apply insert_by_perm].
        destruct Hz as [<-|Hz]; auto.
  Qed.

  Lemma sort_by_perm : forall l, Permutation (sort_by cmp l) l.
  Proof.
    induction l as [|x r IH]; cbn; [reflexivity|].
    eapply Permutation_trans; [apply insert_by_perm|now apply perm_skip].
  Qed.

  Lemma sort_by_sorted : forall l, sorted (sort_by cmp l).
  Proof. induction l; cbn; [constructor|now apply insert_by_sorted]. Qed.

  Definition arr (s l : list A) : Prop := sorted s /\ Permutation s l.

  Lemma arr_sort : forall l, arr (sort_by cmp l) l.
  Proof. split; [apply sort_by_sorted|apply sort_by_perm]. Qed.

  Lemma arr_unique : forall s1 s2 l, arr s1 l -> arr s2 l -> Forall2 ceq s1 s2.
  Proof.
    intros s1 s2 l [S1 P1] [S2 P2]. apply sorted_perm_equiv; [assumption|assumption|].
    eapply Permutation_trans; [exact P1|apply Permutation_sym, P2].
  Qed.
End Preorder.


Section CmpFacts.
  Context {A : Type}.
  Variable cmp : A -> A -> comparison.
  Hypothesis TP : total_preorder cmp.

  Lemma not_lt_cle : forall a b, cmp a b <> Lt <-> cle cmp b a.
  Proof. intros a b. unfold cle. rewrite (tp_sym _ TP a b). destruct (cmp a b); cbn; split; congruence. Qed.

  Lemma flip_tp : total_preorder (fun a b => CompOpp (cmp a b)).
  Proof.
    assert (F : forall x y, cle (fun a b => CompOpp (cmp a b)) x y <-> cle cmp y x).
    { intros x y. rewrite <- not_lt_cle. unfold cle. destruct (cmp x y); cbn; split; congruence. }
    split.
    - intros a b. now rewrite (tp_sym _ TP a b).
    - intros a b c Hab Hbc. apply F. apply (tp_trans _ TP c b a); apply F; assumption.
  Qed.

  Lemma dir_cmp_tp : forall asc, total_preorder (dir_cmp cmp asc).
  Proof. intros [|]; unfold dir_cmp; [exact TP|exact flip_tp]. Qed.

  (** with an antisymmetric order the greatest lower bound, hence commutative and associative *)
  Definition lesser (a b : A) : A := match cmp b a with Lt => b | _ => a end.

  Lemma lesser_glb : forall a b,
    cle cmp (lesser a b) a /\ cle cmp (lesser a b) b /\ (lesser a b = a \/ lesser a b = b).
  Proof.
    intros a b. unfold lesser, cle. pose proof (tp_sym _ TP b a) as S.
    pose proof (cmp_refl cmp TP a) as Ra. pose proof (cmp_refl cmp TP b) as Rb.
    destruct (cmp b a) eqn:E; cbn [CompOpp] in S; rewrite ?E, ?S, ?Ra, ?Rb; repeat split; auto; discriminate.
  Qed.

  Hypothesis cmp_eq : forall a b, cmp a b = Eq -> a = b.

  Lemma lesser_comm : forall a b, lesser a b = lesser b a.
  Proof.
    intros a b. destruct (lesser_glb a b) as (A1 & A2 & A3). destruct (lesser_glb b a) as (B1 & B2 & B3).
    apply cmp_eq, (cle_antisym cmp TP).
    - destruct B3 as [-> | ->]; assumption.
    - destruct A3 as [-> | ->]; assumption.
  Qed.

  Lemma lesser_assoc : forall a b c, lesser (lesser a b) c = lesser a (lesser b c).
  Proof.
    intros a b c. pose proof (tp_trans _ TP) as T.
    destruct (lesser_glb a b) as (A1 & A2 & A3). destruct (lesser_glb (lesser a b) c) as (B1 & B2 & B3).
    destruct (lesser_glb b c) as (C1 & C2 & C3). destruct (lesser_glb a (lesser b c)) as (D1 & D2 & D3).
    set (x := lesser (lesser a b) c) in *. set (y := lesser a (lesser b c)) in *.
    assert (Xa : cle cmp x a) by exact (T _ _ _ B1 A1).
    assert (Xb : cle cmp x b) by exact (T _ _ _ B1 A2).
    assert (Yb : cle cmp y b) by exact (T _ _ _ D2 C1).
    assert (Yc : cle cmp y c) by exact (T _ _ _ D2 C2).
    apply cmp_eq, (cle_antisym cmp TP).
    - destruct D3 as [-> | ->]; [exact Xa|]. destruct C3 as [-> | ->]; assumption.
    - destruct B3 as [-> | ->]; [|exact Yc]. destruct A3 as [-> | ->]; assumption.
  Qed.
End CmpFacts.

Section Heap.
  Context {A : Type}.
  Variable before : nat * A -> nat * A -> bool.

  Lemma pick_head : forall ss i best r,
    pick before i ss best = Some r ->
    best = Some r \/ exists k t, nth_error ss k = Some (snd r :: t) /\ fst r = (i + k)%nat.
  Proof.
    induction ss as [|s ss IH]; intros i best r H; cbn [pick] in H; [now left|].
    apply IH in H. destruct H as [H|(k & t & Hk & Hf)]; [|right; exists (S k), t; split; [exact Hk|lia]].
    destruct s as [|x s']; [now left|].
    destruct best as [b|]; [destruct (before (i, x) b)|]; try (now left);
      injection H as <-; right; exists O, s'; (split; [reflexivity|cbn; lia]).
  Qed.

  Lemma pick_none : forall ss i best,
    pick before i ss best = None <-> best = None /\ concat ss = [].
  Proof.
    induction ss as [|[|x s] ss IH]; intros i best; cbn [pick concat app]; [tauto|apply IH|].
    rewrite IH. split; [|intros [_ [=]]]. intros [H _]. destruct best as [b|]; [destruct (before (i, x) b)|]; discriminate.
  Qed.

  Lemma drop_head_perm : forall (ss : list (list A)) k x t,
    nth_error ss k = Some (x :: t) ->
    Permutation (concat ss) (x :: concat (drop_head k ss)).
  Proof.
    induction ss as [|s ss IH]; intros k x t H; destruct k as [|k]; try discriminate; cbn in *.
    - injection H as ->. cbn. reflexivity.
    - specialize (IH _ _ _ H).
      eapply Permutation_trans; [apply Permutation_app_head, IH|].
      apply Permutation_sym, Permutation_middle.
  Qed.

  Lemma total_len_concat : forall ss : list (list A), total_len ss = length (concat ss).
  Proof. induction ss as [|s ss IH]; cbn [total_len concat]; [reflexivity|]. now rewrite app_length, IH. Qed.

  Lemma drop_head_len : forall (ss : list (list A)) k x t,
    nth_error ss k = Some (x :: t) -> total_len ss = S (total_len (drop_head k ss)).
  Proof. intros ss k x t H. rewrite !total_len_concat. exact (Permutation_length (drop_head_perm _ _ _ _ H)). Qed.

  Lemma drop_head_Forall : forall (P : list A -> Prop) ss k,
    (forall s, P s -> P (tl s)) -> Forall P ss -> Forall P (drop_head k ss).
  Proof.
    induction ss as [|s ss IH]; intros k HP H; destruct k; cbn; inversion H; subst;
      constructor; auto.
  Qed.

  (** induction over the merge, free of its fuel *)
  Lemma kmerge_fuel_ind : forall Q : list (list A) -> list A -> Prop,
    (forall ss, concat ss = [] -> Q ss []) ->
    (forall ss k x t out, pick before O ss None = Some (k, x) -> nth_error ss k = Some (x :: t) ->
       Q (drop_head k ss) out -> Q ss (x :: out)) ->
    forall f ss, (total_len ss <= f)%nat -> Q ss (kmerge_fuel before f ss).
  Proof.
    intros Q Q0 QS. induction f as [|f IH]; intros ss Hf; cbn [kmerge_fuel].
    - apply Q0, length_zero_iff_nil. rewrite total_len_concat in Hf. lia.
    - destruct (pick before O ss None) as [[k x]|] eqn:Ep; [|apply Q0, (pick_none ss O None), Ep].
      destruct (pick_head _ _ _ _ Ep) as [E|(j & t & Hk & Hj)]; [discriminate|]. cbn in Hk, Hj. subst j.
      apply (QS ss k x t); [exact Ep|exact Hk|]. apply IH. pose proof (drop_head_len _ _ _ _ Hk). lia.
  Qed.

  Lemma kmerge_fuel_enough : forall f1 f2 ss,
    (total_len ss <= f1)%nat -> (total_len ss <= f2)%nat ->
    kmerge_fuel before f1 ss = kmerge_fuel before f2 ss.
  Proof.
    intros f1 f2 ss H1. revert f2.
    apply (kmerge_fuel_ind (fun ss out => forall f2, (total_len ss <= f2)%nat -> out = kmerge_fuel before f2 ss));
      [| |exact H1]; clear.
    - intros ss E [|f2] _; cbn [kmerge_fuel]; [|rewrite (proj2 (pick_none ss O None) (conj eq_refl E))]; reflexivity.
    - intros ss k x t out Ep Hk IH f2 H2. pose proof (drop_head_len _ _ _ _ Hk).
      destruct f2 as [|f2]; [lia|]. cbn [kmerge_fuel]. rewrite Ep. f_equal. apply IH. lia.
  Qed.

  Lemma kmerge_ind : forall Q : list (list A) -> list A -> Prop,
    (forall ss, concat ss = [] -> Q ss []) ->
    (forall ss k x t out, pick before O ss None = Some (k, x) -> nth_error ss k = Some (x :: t) ->
       Q (drop_head k ss) out -> Q ss (x :: out)) ->
    forall ss, Q ss (kmerge before ss).
  Proof. intros Q Q0 QS ss. exact (kmerge_fuel_ind Q Q0 QS (total_len ss) ss (le_n _)). Qed.

  Lemma kmerge_perm : forall ss, Permutation (kmerge before ss) (concat ss).
  Proof.
    apply (kmerge_ind (fun ss out => Permutation out (concat ss))).
    - intros ss ->. constructor.
    - intros ss k x t out _ Hk IH. rewrite (drop_head_perm _ _ _ _ Hk). now apply perm_skip.
  Qed.

  Lemma kmerge_Forall : forall (P : A -> Prop) ss, Forall (Forall P) ss -> Forall P (kmerge before ss).
  Proof.
    intros P ss F. eapply Permutation_Forall; [apply Permutation_sym, kmerge_perm|apply Forall_concat, F].
  Qed.

  Lemma pick_heads : forall ss ts i best,
    Forall2 (fun s t => hd_error s = hd_error t) ss ts ->
    pick before i ss best = pick before i ts best.
  Proof.
    intros ss ts i best H. revert i best. induction H as [|s t ss ts Hh _ IH]; intros i best; cbn [pick].
    - reflexivity.
    - destruct s, t; cbn in Hh; try discriminate; [apply IH|].
      injection Hh as ->. apply IH.
  Qed.

  Lemma kmerge_fuel_prefix : forall k f ss ts,
    Forall2 (fun s t => firstn k s = firstn k t) ss ts ->
    firstn k (kmerge_fuel before f ss) = firstn k (kmerge_fuel before f ts).
  Proof.
    induction k as [|k IH]; intros f ss ts HR; [reflexivity|].
    destruct f as [|f]; [reflexivity|]. cbn [kmerge_fuel].
    rewrite (pick_heads ss ts) by (eapply Forall2_imp; [|exact HR]; intros s t; apply firstn_S_hd).
    destruct (pick before O ts None) as [[i x]|]; [|reflexivity].
    cbn [firstn]. f_equal. apply IH.
    clear - HR. revert i. induction HR as [|s t ss ts Hst HR' IHR]; intros [|i]; cbn; constructor.
    - now apply firstn_S_tl.
    - eapply Forall2_imp; [|exact HR']. apply firstn_S_weaken.
    - now apply firstn_S_weaken.
    - apply IHR.
  Qed.

  Lemma total_len_takeN : forall K (ss : list (list A)),
    (total_len (map (takeN K) ss) <= total_len ss)%nat.
  Proof.
    induction ss as [|s ss IH]; cbn [map total_len]; [lia|]. pose proof (takeN_length s K). lia.
  Qed.

  Lemma kmerge_takeN_prefix : forall K k (fulls : list (list A)), (k <= N.to_nat K)%nat ->
    firstn k (kmerge before (map (takeN K) fulls)) = firstn k (kmerge before fulls).
  Proof.
    intros K k fulls Hk. unfold kmerge. pose proof (total_len_takeN K fulls) as Hl.
    rewrite (kmerge_fuel_enough (total_len (map (takeN K) fulls)) (total_len fulls)) by lia.
    apply kmerge_fuel_prefix.
    clear - Hk. induction fulls as [|s ss IH]; cbn; constructor; [|exact IH].
    rewrite takeN_firstn, firstn_firstn. f_equal. lia.
  Qed.

  Lemma merger_loop_spec : forall f ss sk lim em,
    merger_loop before f ss sk lim em =
    match lim with
    | None => dropN sk (kmerge_fuel before f ss)
    | Some l => takeN (l - em) (dropN sk (kmerge_fuel before f ss))
    end.
  Proof.
    induction f as [|f IH]; intros ss sk lim em; cbn [merger_loop kmerge_fuel].
    - destruct lim; reflexivity.
    - destruct (pick before O ss None) as [[i x]|]; [|destruct lim; reflexivity].
      destruct lim as [l|].
      + destruct (N.leb_spec l em) as [Hfull|Hnf]; [replace (l - em)%N with 0%N by lia; now rewrite takeN_0|].
        destruct (N.ltb_spec 0 sk) as [Hsk|Hsk].
        * rewrite IH, dropN_cons_pos by exact Hsk. reflexivity.
        * assert (sk = 0%N) by lia. subst sk. rewrite dropN_0, takeN_cons_pos by lia. f_equal.
          replace (N.pred (l - em)) with (l - N.succ em)%N by lia.
          (* at the limit the next round would emit nothing either *)
          destruct (N.leb_spec l (N.succ em)); [|now rewrite IH, dropN_0].
          replace (l - N.succ em)%N with 0%N by lia. now rewrite takeN_0.
      + destruct (N.ltb_spec 0 sk) as [Hsk|Hsk].
        * rewrite IH, dropN_cons_pos by exact Hsk. reflexivity.
        * assert (sk = 0%N) by lia. subst sk. rewrite dropN_0. f_equal. now rewrite IH, dropN_0.
  Qed.
End Heap.

Section Merge.
  Context {A : Type}.
  Variable cmp : A -> A -> comparison.
  Hypothesis TP : total_preorder cmp.
  Variable asc : bool.

  Let before := heap_before cmp asc.
  Let dcmp := dir_cmp cmp asc.

  Lemma dcmp_tp : total_preorder dcmp.
  Proof. apply dir_cmp_tp, TP. Qed.

  (** all the merge needs of the heap's order: how it breaks ties between streams plays no part in what the merge
      yields up to [ceq] *)
  Lemma before_dle : forall x y,
    if before x y then cle dcmp (snd x) (snd y) else cle dcmp (snd y) (snd x).
  Proof.
    intros [i a] [j b]. unfold before, heap_before, heap_item_cmp, cle, dcmp, dir_cmp. cbn [fst snd].
    rewrite (tp_sym _ TP a b). destruct asc, (cmp a b), (Nat.compare j i); cbn; congruence.
  Qed.

  Lemma pick_least : forall ss i best r,
    pick before i ss best = Some r ->
    (forall b, best = Some b -> cle dcmp (snd r) (snd b))
    /\ (forall y t, In (y :: t) ss -> cle dcmp (snd r) y).
  Proof.
    induction ss as [|s ss IH]; intros i best r H; cbn [pick] in H.
    - subst best. split; [intros b [= ->]; apply (cle_refl _ dcmp_tp)|intros y t []].
    - apply IH in H. destruct H as [Hb Hs]. destruct s as [|x s'].
      + split; [exact Hb|]. intros y t [E|Hi]; [discriminate|eauto].
      + assert (Hx : cle dcmp (snd r) x /\ forall b, best = Some b -> cle dcmp (snd r) (snd b)).
        { destruct best as [b|]; [|split; [exact (Hb _ eq_refl)|discriminate]].
          pose proof (before_dle (i, x) b) as D. destruct (before (i, x) b); specialize (Hb _ eq_refl).
          - split; [exact Hb|]. intros ? [= <-]. exact (tp_trans _ dcmp_tp _ _ _ Hb D).
          - split; [exact (tp_trans _ dcmp_tp _ _ _ Hb D)|]. intros ? [= <-]. exact Hb. }
        split; [apply Hx|]. intros y t [[= <- <-]|Hi]; [apply Hx|eauto].
  Qed.

  Lemma below_heads : forall x ss,
    (forall y t, In (y :: t) ss -> cle dcmp x y) -> Forall (sorted dcmp) ss -> Forall (cle dcmp x) (concat ss).
  Proof.
    intros x ss Hx HS. apply Forall_concat. rewrite Forall_forall in *. intros [|h s] Hs; constructor.
    - eauto.
    - specialize (HS _ Hs). inversion HS as [|? ? _ F]; subst. eapply Forall_impl; [|exact F].
      intros y. apply (tp_trans _ dcmp_tp). eauto.
  Qed.

  Theorem kmerge_sorted_perm : forall ss,
    Forall (sorted dcmp) ss ->
    sorted dcmp (kmerge before ss) /\ Permutation (kmerge before ss) (concat ss).
  Proof.
    apply (kmerge_ind before (fun ss out => Forall (sorted dcmp) ss -> arr dcmp out (concat ss))).
    - intros ss -> _. split; constructor.
    - intros ss k x t out Ep Hk IH HS. pose proof (drop_head_perm _ _ _ _ Hk) as P.
      destruct IH as [S Pout].
      { apply drop_head_Forall; [|exact HS]. intros [|? ?] Hs; [constructor|exact (sorted_tl _ _ _ Hs)]. }
      split; [|rewrite P; now apply perm_skip]. constructor; [exact S|].
      (* [x] is not above any head, so not above any row; the rest of the output is among the rows *)
      eapply Permutation_Forall; [symmetry; exact Pout|].
      assert (F : Forall (cle dcmp x) (concat ss)) by (apply below_heads; [apply (pick_least _ _ _ _ Ep)|exact HS]).
      eapply Permutation_Forall in F; [|exact P]. now inversion F.
  Qed.

  Lemma arr_kmerge : forall (fulls parts : list (list A)),
    Forall2 (arr dcmp) fulls parts -> arr dcmp (kmerge before fulls) (concat parts).
  Proof.
    intros fulls parts HF. destruct (kmerge_sorted_perm fulls) as [S P].
    - clear - HF. induction HF as [|? ? ? ? [S _] _ IH]; constructor; auto.
    - split; [exact S|]. eapply Permutation_trans; [exact P|]. apply concat_perm.
      eapply Forall2_imp; [|exact HF]. now intros f p [_ Pf].
  Qed.

End Merge.
