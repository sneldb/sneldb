(** The models' first-match association lists differ in key type, argument order and direction of the
    key test, not in body; likewise their updates (change an entry in place, or append one).  The facts are
    stated over the two defining equations of [get] (and of [upd]): instantiate with the model function,
    both equations by [reflexivity]; [flip_eqb_eq] for a key test with its arguments the other way round. *)
From Coq Require Import List.
From Snel Require Import Proofs.ListFacts.
Import ListNotations.

Section Assoc.
  Context {K V : Type} (eqb : K -> K -> bool) (get : K -> list (K * V) -> option V).
  Hypothesis eqb_eq : forall a b, eqb a b = true <-> a = b.
  Hypothesis get_nil : forall k, get k [] = None.
  Hypothesis get_cons : forall k k' v r, get k ((k', v) :: r) = if eqb k k' then Some v else get k r.

  Lemma assoc_In : forall k v m, get k m = Some v -> In (k, v) m.
  Proof.
    intros k v. induction m as [|[k' v'] r IH]; rewrite ?get_nil, ?get_cons; [discriminate|].
    destruct (eqb k k') eqn:E; [|right; auto].
    apply eqb_eq in E. intros [= ->]. left. now subst.
  Qed.

  Lemma assoc_none_iff : forall k m, get k m = None <-> ~ In k (map fst m).
  Proof.
    intros k. induction m as [|[k' v'] r IH]; rewrite ?get_nil, ?get_cons; cbn [map fst In]; [tauto|].
    destruct (eqb k k') eqn:E.
    - apply eqb_eq in E. split; [discriminate|]. intros H. elim H. now left.
    - rewrite IH. split; [intros H [->|C]; [|exact (H C)]|tauto].
      rewrite (proj2 (eqb_eq k k) eq_refl) in E. discriminate.
  Qed.

  Lemma assoc_some_iff : forall k m, get k m <> None <-> In k (map fst m).
  Proof.
    intros k m. destruct (get k m) as [v|] eqn:E.
    - split; [intros _|discriminate]. change k with (fst (k, v)). now apply in_map, assoc_In.
    - apply assoc_none_iff in E. tauto.
  Qed.

  Lemma In_assoc : forall k v m, NoDup (map fst m) -> In (k, v) m -> get k m = Some v.
  Proof.
    intros k v. induction m as [|[k' v'] r IH]; cbn [map fst]; intros ND Hin; [destruct Hin|].
    rewrite get_cons. inversion ND as [|? ? Hk ND']; subst. destruct Hin as [E|Hin].
    - injection E as -> ->. now rewrite (proj2 (eqb_eq k k) eq_refl).
    - destruct (eqb k k') eqn:E; [|auto].
      apply eqb_eq in E. subst k'. elim Hk. change k with (fst (k, v)). now apply in_map.
  Qed.

  Lemma assoc_app : forall k m1 m2,
    get k (m1 ++ m2) = match get k m1 with Some v => Some v | None => get k m2 end.
  Proof.
    intros k m1 m2. induction m1 as [|[k' v'] r IH]; cbn [app]; rewrite ?get_nil, ?get_cons; [reflexivity|].
    destruct (eqb k k'); [reflexivity|exact IH].
  Qed.

  Variable upd : K -> (option V -> V) -> list (K * V) -> list (K * V).
  Hypothesis upd_nil : forall k f, upd k f [] = [(k, f None)].
  Hypothesis upd_cons : forall k f k' v r,
    upd k f ((k', v) :: r) = if eqb k k' then (k', f (Some v)) :: r else (k', v) :: upd k f r.

  Lemma assoc_upd_get : forall k k' f m,
    get k (upd k' f m) = if eqb k k' then Some (f (get k' m)) else get k m.
  Proof.
    intros k k' f. induction m as [|[k0 v] r IH]; rewrite ?upd_nil, ?upd_cons, ?get_nil, ?get_cons; [now rewrite get_nil|].
    destruct (eqb k' k0) eqn:E0; rewrite !get_cons.
    - apply eqb_eq in E0. subst k0. destruct (eqb k k'); reflexivity.
    - destruct (eqb k k0) eqn:E; [|exact IH].
      apply eqb_eq in E. subst k0. destruct (eqb k k') eqn:E'; [|reflexivity].
      apply eqb_eq in E'. subst k'. rewrite (proj2 (eqb_eq k k) eq_refl) in E0. discriminate.
  Qed.

  Lemma assoc_upd_keys : forall k f m,
    map fst (upd k f m) = match get k m with Some _ => map fst m | None => map fst m ++ [k] end.
  Proof.
    intros k f. induction m as [|[k0 v] r IH]; rewrite ?upd_nil, ?upd_cons, ?get_nil, ?get_cons; [reflexivity|].
    destruct (eqb k k0); cbn [map fst app]; [reflexivity|]. rewrite IH. now destruct (get k r).
  Qed.

  Lemma assoc_upd_keys_in : forall k f m k', In k' (map fst (upd k f m)) <-> k' = k \/ In k' (map fst m).
  Proof.
    intros k f m k'. rewrite assoc_upd_keys. destruct (get k m) as [v|] eqn:E.
    - apply assoc_In, (in_map fst) in E. cbn [fst] in E. intuition congruence.
    - rewrite in_app_iff. cbn [In]. intuition congruence.
  Qed.

  Lemma assoc_upd_nodup : forall k f m, NoDup (map fst m) -> NoDup (map fst (upd k f m)).
  Proof.
    intros k f m ND. rewrite assoc_upd_keys. destruct (get k m) eqn:E; [exact ND|].
    apply nodup_snoc; [exact ND|]. apply assoc_none_iff, E.
  Qed.
End Assoc.

Lemma flip_eqb_eq {K} (eqb : K -> K -> bool) :
  (forall a b, eqb a b = true <-> a = b) -> forall a b, eqb b a = true <-> a = b.
Proof. intros H a b. rewrite H. split; congruence. Qed.
