(** Cost of the expression and brace grammars, in rule invocations, for the two forms the Rust
    text can be in (read by tools/params/p34_expr_reparse.py and p33_store_braces.py).

    peg does not memoise.  In the form [x:and_expr() _ ci("OR") _ y:or_expr() {..} / and_expr()]
    the first operand is parsed a second time whenever the first alternative fails after it;
    in the form [x:and_expr() y:( _ ci("OR") _ y:or_expr() {y} )?] it is parsed once.  Both give
    the same result (the model in Model/Parser.v is written in the second form); the number of
    [factor] invocations differs: [c_or rp], computed here from the model's own results, doubles
    at each rule level when [rp = true].  Likewise [balanced_braces] with '{' among the plain
    characters re-reads an unclosed block's brace and re-scans its contents one level up
    ([bb_entry rescan]); [bb_table] is the literal peg rule evaluated for every suffix, right to
    left, so that its cost can be computed without paying it.

    In the form the code is in now the cost is linear in the input length, for every input
    ([expr_cost_linear], [brace_cost_linear]); the text families [fam_*] (nested parentheses, NOT
    chains, AND/OR chains, unclosed and nested braces) are instances; in the other form the same
    families cost 4^depth / 2^n.  On the implementation the time budget of the probe is the criterion.

    The counters run on the fuel of the rules they count and return 0 where it is 0.  That [expr_cost]
    and [bb_entry] count a complete run rests on that fuel never running out
    ([FuelProofs.parse_expr_at_avoids]; every step of [bb_loop] consumes a byte); this is not stated
    as a lemma about the counters. *)
From Coq Require Import NArith ZArith Arith List Bool Lia.
From Coq Require Import ZifyBool ZifyNat ZifyN.
From Snel Require Import Base.Bytes Gen.Params Model.Tokenizer Model.Parser Model.Command Proofs.BytesFacts Proofs.ParserBasics
  Proofs.FuelProofs.
Import ListNotations.
Open Scope N_scope.

(** * WHERE expressions: number of [factor] invocations *)

Section ExprCost.
Variable fx : bool.
Variable rp : bool.     (* true: the re-parsing form *)

Definition again (c : N) : N := if rp then c else 0.

Fixpoint c_or (fuel : nat) (s : bytes) {struct fuel} : N :=
  match fuel with
  | O => 0
  | S f =>
      let ca := c_and f s in
      match and_expr fx f s with
      | Ok (_, r) =>
          match ci K_OR (ws r) with
          | Some r1 =>
              let ct := c_or f (ws r1) in
              match or_expr fx f (ws r1) with
              | Ok _ => ca + ct
              | Err => ca + ct + again ca      (* alternative 1 failed after the operand: alternative 2 parses it again *)
              | _ => ca + ct
              end
          | None => ca + again ca
          end
      | Err => ca + again ca
      | _ => ca
      end
  end
with c_and (fuel : nat) (s : bytes) {struct fuel} : N :=
  match fuel with
  | O => 0
  | S f =>
      let cf := c_factor f s in
      match factor fx f s with
      | Ok (_, r) =>
          match ci K_AND (ws r) with
          | Some r1 =>
              let ct := c_and f (ws r1) in
              match and_expr fx f (ws r1) with
              | Ok _ => cf + ct
              | Err => cf + ct + again cf
              | _ => cf + ct
              end
          | None => cf + again cf
          end
      | Err => cf + again cf
      | _ => cf
      end
  end
with c_factor (fuel : nat) (s : bytes) {struct fuel} : N :=
  match fuel with
  | O => 0
  | S f =>
      let c_paren := match lit 40 s with Some r1 => c_or f (ws r1) | None => 0 end in
      1 + match ci K_NOT s with
          | Some r1 =>
              c_factor f (ws r1) + match factor fx f (ws r1) with Err => c_paren | _ => 0 end
          | None => c_paren
          end
  end.

Definition expr_cost (s : bytes) : N := c_or (expr_fuel s) s.

End ExprCost.

(** a text that begins with a letter begins with a field, so a leaf is read or a conversion fails *)
Lemma leaf_alpha : forall fx s, head_is is_alpha s = true -> leaf fx s <> Err.
Proof.
  intros fx s H. rewrite leaf_field. destruct (field s) as [[f r]|] eqn:F; [destruct (after_field _ _ f r); discriminate|]. exfalso.
  unfold field in F. destruct (ident s) as [[i r]|] eqn:I.
  - destruct r as [|d r1]; [discriminate|]. destruct (d =? 46); [destruct (ident r1) as [[j r2]|]|]; discriminate.
  - destruct s as [|c s]; [discriminate|]. cbn in H. unfold ident, ident_with, is_ident_start in I. rewrite H in I.
    cbn [orb] in I. destruct (span is_ident_char s); discriminate.
Qed.

Lemma leaf_paren : forall fx s r, lit 40 s = Some r -> leaf fx s = Err.
Proof. intros fx s r H. apply lit_head in H as ->. reflexivity. Qed.

(** [NOT (]: when the factor after NOT fails, the leaf that is tried instead reads NOT as a field name and stops
    before the parenthesis *)
Lemma leaf_word_paren : forall fx K s r1 r0 x r, ci K s = Some r1 -> lit 40 (ws r1) = Some r0 -> leaf fx s = Ok (x, r) -> r = r1.
Proof.
  intros fx K s r1 r0 x r C L E. apply ci_inv in C as (w & -> & Hw & Hr & _). apply lit_head in L.
  (* blanks and a parenthesis end the field *)
  assert (Hh : head_is is_ident_char r1 = false /\ head_is (N.eqb 46) r1 = false).
  { destruct r1 as [|d r1']; [discriminate|]. unfold ws in L. cbn [drop_while] in L. cbn [head_is].
    destruct (is_tws d) eqn:T; [unfold is_tws, is_ident_char, is_alpha, is_digit in *; lia|].
    inversion L; subst. split; reflexivity. }
  destruct Hh as [Hi Hd]. destruct w as [|c w]; [discriminate|]. cbn in Hw. apply andb_prop in Hw as [Hc Hw].
  assert (F : field ((c :: w) ++ r1) = Some (c :: w, r1)).
  { unfold field, ident, ident_with, is_ident_start. cbn [app]. rewrite Hc. cbn [orb].
    rewrite (span_app is_ident_char w r1); [|apply forallb_forall; intros y Hy; rewrite forallb_forall in Hw; unfold is_ident_char; rewrite (Hw y Hy); reflexivity|exact Hi].
    destruct r1 as [|d r1']; [reflexivity|]. cbn [head_is] in Hd. rewrite (N.eqb_sym d), Hd. reflexivity. }
  (* and after them no operator and no IN follows: the bare field *)
  rewrite leaf_field, F, after_field_err in E; rewrite ?L; [inversion E; reflexivity|destruct r0; reflexivity|reflexivity].
Qed.

(** The amortised count of a rule [p] whose [factor] invocations [c] counts: where [p] succeeds, the count is paid for
    by the bytes [p] consumed, provided the text it leaves is [clean].  A rule may read on past what it ends up
    consuming (a chain reads its keyword and the operand after it, and gives both back when the operand fails; the
    factor after NOT fails, and NOT is read as a field name), and what was counted on such text is not paid for.
    [clean] excludes what follows then: the chain's keyword, and a parenthesis, which alone makes a failing factor
    count more than itself.  A rule above goes on only at a keyword or at a closing parenthesis, where the text is
    clean for the rule below, so that text read in vain is never read again. *)
Definition lin (clean : bytes -> Prop) (p : P expr) (c : bytes -> N) : Prop :=
  forall s, c s <= N.of_nat (length s) + 1 /\
            forall x r, p s = Ok (x, r) -> clean (ws r) -> c s + N.of_nat (length r) <= N.of_nat (length s) + 1.

Fixpoint clean (Ks : list bytes) (s : bytes) : Prop :=
  match Ks with [] => lit 40 s = None | K :: Ks' => clean Ks' s /\ ci K s = None end.

(** one level of [c_or] and of [c_and] at [rp = false] ([c_or_S], [c_and_S]) *)
Definition c_chain (K : bytes) (sub : P expr) (csub cself : bytes -> N) (s : bytes) : N :=
  csub s + match sub s with
           | Ok (_, r) => match ci K (ws r) with Some r1 => cself (ws r1) | None => 0 end
           | _ => 0
           end.

Lemma chain_lin : forall K Ks mk sub self csub cself,
  lin (clean Ks) sub csub -> lin (clean (K :: Ks)) self cself -> (forall s r1, ci K s = Some r1 -> clean Ks s) ->
  lin (clean (K :: Ks)) (chain K mk sub self) (c_chain K sub csub cself).
Proof.
  intros K Ks mk sub self csub cself Hsub Hself HK s.
  unfold chain, c_chain. destruct (Hsub s) as (B1 & B2).
  destruct (sub s) as [[x r]| | |]; [|rewrite N.add_0_r; split; [exact B1|discriminate] ..].
  specialize (B2 x r eq_refl). destruct (ci K (ws r)) as [r1|] eqn:C.
  - (* the keyword follows: [sub] is paid for by what it consumed, [self] by the text after the keyword at the most *)
    specialize (B2 (HK _ _ C)). pose proof (ci_length _ _ _ C). pose proof (ws_length r). pose proof (ws_length r1).
    destruct (Hself (ws r1)) as (S1 & S2). split; [lia|].
    intros y r' E Hc. destruct (self (ws r1)) as [[z r2]| | |]; inversion E; subst.
    + (* both succeed: each is paid for by what it consumed *)
      specialize (S2 z r' eq_refl Hc). lia.
    + (* [self] failed and the chain ends before the keyword: that text is not clean *)
      destruct Hc as [_ N]. rewrite N in C. discriminate C.
  - split; [lia|]. intros y r' E [Hc _]. inversion E; subst. specialize (B2 Hc). lia.
Qed.

(** one level of [c_factor] *)
Definition c_fac (fac : P expr) (co cf : bytes -> N) (s : bytes) : N :=
  let c_paren := match lit 40 s with Some r1 => co (ws r1) | None => 0 end in
  1 + match ci K_NOT s with
      | Some r1 => cf (ws r1) + match fac (ws r1) with Err => c_paren | _ => 0 end
      | None => c_paren
      end.

Lemma word_no_paren : forall K s r, ci K s = Some r -> lit 40 s = None.
Proof.
  intros K s r C. apply ci_head in C. destruct (lit 40 s) as [r0|] eqn:L; [|reflexivity].
  apply lit_head in L as ->. discriminate C.
Qed.

Lemma close_clean : forall s r, lit 41 s = Some r -> clean [K_OR; K_AND] s.
Proof. intros s r L. apply lit_head in L as ->. repeat split. Qed.

Section Linear.
Variable fx : bool.

(** a factor that fails where no parenthesis opens has invoked no other: after NOT, at a letter, some leaf is read *)
Lemma factor_err : forall or fac co cf s, factor_rule (leaf fx) or fac s = Err -> lit 40 s = None -> c_fac fac co cf s = 1.
Proof.
  intros or fac co cf s E L. unfold factor_rule, paren_or_leaf in E. unfold c_fac. rewrite L in *.
  destruct (ci K_NOT s) as [r1|] eqn:C; [exfalso|reflexivity].
  destruct (fac (ws r1)) as [[x r2]| | |]; try discriminate E. exact (leaf_alpha fx s (ci_head _ _ _ C) E).
Qed.

Lemma factor_lin : forall or fac co cf, lin (clean [K_OR; K_AND]) or co -> lin (clean []) fac cf ->
  (forall s, fac s = Err -> lit 40 s = None -> cf s <= 1) ->
  lin (clean []) (factor_rule (leaf fx) or fac) (c_fac fac co cf).
Proof.
  intros or fac co cf Ho Hf He s. unfold factor_rule, c_fac, paren_or_leaf. destruct (ci K_NOT s) as [r1|] eqn:C.
  - (* NOT: a letter opens no parenthesis, so what is tried after a failed factor is the leaf alone, at no count *)
    rewrite (word_no_paren _ _ _ C). pose proof (ci_length _ _ _ C). pose proof (ws_length r1).
    destruct (Hf (ws r1)) as (F1 & F2). specialize (He (ws r1)). destruct (fac (ws r1)) as [[x r2]| | |]; (split; [lia|]); try discriminate.
    + (* the factor after NOT succeeds: it is paid for by what it consumed, this invocation by the keyword *)
      intros y r E Hc. inversion E; subst. specialize (F2 x r eq_refl Hc). lia.
    + intros x r E Hc. destruct (lit 40 (ws r1)) as [r0|] eqn:L.
      * (* it failed at a parenthesis, on any amount of text: the leaf read is NOT and stops there, not clean *)
        rewrite (leaf_word_paren _ _ _ _ _ _ _ C L E) in Hc. cbn [clean] in Hc. congruence.
      * (* it failed elsewhere, having counted itself: the two are paid for by the byte the leaf consumes *)
        specialize (He eq_refl eq_refl). apply (leaf_consumes fx) in E. lia.
  - destruct (lit 40 s) as [r1|] eqn:L.
    + (* a parenthesis, and no leaf: the expression inside is paid for where the closing parenthesis follows it,
         which is clean text; the two parentheses pay for this invocation *)
      rewrite (leaf_paren fx s r1 L). pose proof (lit_len _ _ _ L). pose proof (ws_length r1).
      destruct (Ho (ws r1)) as (O1 & O2). split; [lia|].
      intros x r E _. destruct (or (ws r1)) as [[e r2]| | |]; try discriminate E.
      destruct (lit 41 (ws r2)) as [r3|] eqn:L1; inversion E; subst.
      specialize (O2 _ _ eq_refl (close_clean _ _ L1)). apply lit_len in L1. pose proof (ws_length r2). lia.
    + (* the leaf alone: nothing to pay for but this invocation *)
      split; [lia|]. intros x r E _. apply (leaf_consumes fx) in E. lia.
Qed.

Lemma or_not_and : forall s r, ci K_OR s = Some r -> ci K_AND s = None.
Proof.
  intros s r H. apply ci_inv in H as (w & -> & Hw & Hr & E). rewrite (ci_word _ _ _ Hw Hr).
  destruct (ci_eqb w K_AND) eqn:E'; [|reflexivity]. apply bytes_eqb_eq in E, E'. rewrite E in E'. discriminate E'.
Qed.

Lemma c_or_S : forall f s, c_or fx false (S f) s = c_chain K_OR (and_expr fx f) (c_and fx false f) (c_or fx false f) s.
Proof.
  intros. cbn [c_or]. unfold c_chain, again. destruct (and_expr fx f s) as [[x r]| | |]; rewrite ?N.add_0_r; try reflexivity.
  destruct (ci K_OR (ws r)); rewrite ?N.add_0_r; try reflexivity. destruct (or_expr fx f _) as [y| | |]; rewrite ?N.add_0_r; reflexivity.
Qed.

Lemma c_and_S : forall f s, c_and fx false (S f) s = c_chain K_AND (factor fx f) (c_factor fx false f) (c_and fx false f) s.
Proof.
  intros. cbn [c_and]. unfold c_chain, again. destruct (factor fx f s) as [[x r]| | |]; rewrite ?N.add_0_r; try reflexivity.
  destruct (ci K_AND (ws r)); rewrite ?N.add_0_r; try reflexivity. destruct (and_expr fx f _) as [y| | |]; rewrite ?N.add_0_r; reflexivity.
Qed.

Lemma cost_lin : forall f,
  lin (clean [K_OR; K_AND]) (or_expr fx f) (c_or fx false f) /\ lin (clean [K_AND]) (and_expr fx f) (c_and fx false f) /\
  lin (clean []) (factor fx f) (c_factor fx false f).
Proof.
  induction f as [|f (IHo & IHa & IHf)]; [repeat split; try discriminate; cbn; lia|].
  split; [|split]; intro s.
  - unfold or_expr. rewrite or_expr_g_S, c_or_S. apply (chain_lin K_OR [K_AND] EOr _ _ _ _ IHa IHo).
    intros s0 r1 C. split; [exact (word_no_paren _ _ _ C)|exact (or_not_and _ _ C)].
  - unfold and_expr. rewrite and_expr_g_S, c_and_S. exact (chain_lin K_AND [] EAnd _ _ _ _ IHf IHa (word_no_paren K_AND) s).
  - unfold factor. rewrite factor_g_S. apply (factor_lin _ _ _ _ IHo IHf).
    intros s0 E L. destruct f as [|f]; [discriminate E|]. unfold factor in E. rewrite factor_g_S in E.
    exact (N.eq_le_incl _ _ (factor_err _ _ _ _ _ E L)).
Qed.

Theorem expr_cost_linear : forall s, expr_cost fx false s <= N.of_nat (length s) + 1.
Proof. intro s. exact (proj1 (proj1 (cost_lin (expr_fuel s)) s)). Qed.

End Linear.

(** * STORE: the literal [balanced_braces] rule, for every suffix *)

(** one entry per suffix: the length the rule matches there (if it matches) and the number of
    [balanced_braces] invocations at a '{' that evaluating it costs *)
Definition bb_ent := (option nat * N)%type.

(** the loop [( balanced_braces() / json_string() / plain )*] after a '{', over the suffix [r] and
    the entries [t] of its suffixes; [pos] counts the characters consumed so far *)
Fixpoint bb_loop (rescan skip : bool) (fuel : nat) (r : bytes) (t : list bb_ent) (pos : nat) (cost : N)
  : option nat * N :=
  match fuel with
  | O => (None, cost)
  | S f =>
      match r, t with
      | c :: r', e :: t' =>
          if c =? 125 then (Some (S (S pos)), cost)                  (* the closing brace: '{' + pos chars + '}' *)
          else if c =? 123 then
            match e with
            | (Some k, ck) => bb_loop rescan skip f (skipn k r) (skipn k t) (pos + k) (cost + ck)
            | (None, ck) =>
                if rescan then bb_loop rescan skip f r' t' (S pos) (cost + ck)   (* '{' re-read as a plain character *)
                else (None, cost + ck)                                           (* the loop ends; '}' expected, '{' found *)
            end
          else if skip && (c =? 34) then
            match json_str_end r' with
            | Some rest =>
                let k := (length r - length rest)%nat in
                bb_loop rescan skip f (skipn k r) (skipn k t) (pos + k) cost
            | None => bb_loop rescan skip f r' t' (S pos) cost
            end
          else bb_loop rescan skip f r' t' (S pos) cost
      | _, _ => (None, cost)                                          (* end of input: '}' expected *)
      end
  end.

Fixpoint bb_table (rescan skip : bool) (s : bytes) : list bb_ent :=
  match s with
  | [] => []
  | c :: r =>
      let t := bb_table rescan skip r in
      (if c =? 123 then
         let '(res, cost) := bb_loop rescan skip (S (length r)) r t 0 1 in (res, cost)
       else (None, 0)) :: t
  end.

Definition bb_entry (rescan skip : bool) (s : bytes) : bb_ent :=
  match bb_table rescan skip s with e :: _ => e | [] => (None, 0) end.

(** What the loop may report when it goes on at [pos] with [cost] counted and [n] characters left: it adds at most
    [n]; where it finds the closing brace, at most the characters it read since [pos].  An entry is what the loop
    reports from 0 at 1; a block that was matched is skipped by the loop around it, its count paid for by its length,
    and a '{' that matches no block ends that loop. *)
Definition loop_ok (n pos : nat) (cost : N) (out : option nat * N) : Prop :=
  snd out <= cost + N.of_nat n /\ forall m, fst out = Some m -> snd out + N.of_nat (pos + 2) <= cost + N.of_nat m.

Fixpoint tab_ok (t : list bb_ent) : Prop :=
  match t with [] => True | e :: t' => loop_ok (length t') 0 1 e /\ tab_ok t' end.

Lemma tab_ok_skipn : forall k t, tab_ok t -> tab_ok (skipn k t).
Proof. induction k as [|k IH]; intros [|e t] H; cbn [skipn]; auto. apply IH, H. Qed.

Lemma loop_ok_skip : forall k ck n pos cost out, ck <= N.of_nat k -> ck <= N.of_nat n ->
  loop_ok (n - k) (pos + k) (cost + ck) out -> loop_ok n pos cost out.
Proof. intros k ck n pos cost out Hk Hr [B1 B2]. split; [lia|]. intros m Hm. specialize (B2 m Hm). lia. Qed.

Section Braces.
Variable sk : bool.

Lemma bb_loop_ok : forall f r t pos cost, length t = length r -> tab_ok t ->
  loop_ok (length r) pos cost (bb_loop false sk f r t pos cost).
Proof.
  induction f as [|f IH]; intros r t pos cost Hl Ht; cbn [bb_loop]; [split; [cbn; lia|discriminate]|].
  destruct r as [|c r'], t as [|e t']; try discriminate Hl; [split; [cbn; lia|discriminate]|].
  assert (Go : forall k pos' cost',
    loop_ok (length (c :: r') - k) pos' cost' (bb_loop false sk f (skipn k (c :: r')) (skipn k (e :: t')) pos' cost')).
  { intros. rewrite <- skipn_length. apply IH; [rewrite !skipn_length; lia|exact (tab_ok_skipn k _ Ht)]. }
  assert (Step : loop_ok (length (c :: r')) pos cost (bb_loop false sk f r' t' (S pos) cost)).
  { apply (loop_ok_skip 1 0); [lia|lia|]. rewrite Nat.add_1_r, N.add_0_r. exact (Go 1%nat _ _). }
  destruct (c =? 125); [split; cbn [fst snd]; [lia|]; intros m Hm; inversion Hm; lia|].
  destruct (c =? 123).
  - destruct Ht as [[He1 He2] _]. cbn [length] in Hl. injection Hl as Hl. rewrite Hl in He1. destruct e as [[k|] ck]; cbn [fst snd] in *.
    + (* a block of [k] characters: its count is below [k] *)
      apply (loop_ok_skip k ck); [specialize (He2 k eq_refl)|cbn [length]|apply Go]; lia.
    + (* no block: the loop ends, the entry's count is within the suffix *)
      split; cbn [fst snd length]; [lia|discriminate].
  - destruct (sk && (c =? 34)); [destruct (json_str_end r') as [rest|]|]; try exact Step.
    (* a string literal is skipped at no count *)
    apply (loop_ok_skip (length (c :: r') - length rest) 0); [lia|lia|]. rewrite N.add_0_r. apply Go.
Qed.

Lemma bb_table_ok : forall s, length (bb_table false sk s) = length s /\ tab_ok (bb_table false sk s).
Proof.
  induction s as [|c r [IHl IHt]]; [split; exact I || reflexivity|]. cbn [bb_table length]. rewrite IHl. split; [reflexivity|].
  cbn [tab_ok]. split; [|exact IHt]. rewrite IHl. destruct (c =? 123); [|split; cbn; [lia|discriminate]].
  pose proof (bb_loop_ok (S (length r)) r _ 0%nat 1 IHl IHt) as H. destruct (bb_loop false sk _ r _ 0 1). exact H.
Qed.

Theorem brace_cost_linear : forall s, snd (bb_entry false sk s) <= N.of_nat (length s).
Proof.
  intro s. unfold bb_entry. destruct (bb_table_ok s) as [Hl Ht]. destruct (bb_table false sk s) as [|e t]; [cbn; lia|].
  destruct Ht as [[H _] _]. cbn [length] in Hl. lia.
Qed.
End Braces.

Definition txt_where : bytes := [81;85;69;82;89;32;101;32;87;72;69;82;69;32].      (* QUERY e WHERE  *)
Definition txt_leaf : bytes := [97;32;61;32;49].                                    (* a = 1 *)
Definition txt_not : bytes := [78;79;84;32].                                        (* NOT  *)
Definition txt_and : bytes := [32;65;78;68;32].                                     (*  AND  *)
Definition txt_or : bytes := [32;79;82;32].                                         (*  OR  *)

Fixpoint rep (n : nat) (x : bytes) : bytes := match n with O => [] | S k => x ++ rep k x end.

Definition fam_paren (d : nat) : bytes := rep d [40] ++ txt_leaf ++ rep d [41].
Definition fam_paren_open (d : nat) : bytes := rep d [40] ++ txt_leaf ++ rep (pred d) [41].   (* one ')' missing *)
Definition fam_not (d : nat) : bytes := rep d txt_not ++ txt_leaf.
Definition fam_not_paren (d : nat) : bytes := rep d (40 :: txt_not) ++ txt_leaf ++ rep d [41].
Definition fam_and (d : nat) : bytes := rep d (txt_leaf ++ txt_and) ++ txt_leaf.
Definition fam_or (d : nat) : bytes := rep d (txt_leaf ++ txt_or) ++ txt_leaf.
Definition fam_braces (n : nat) : bytes := rep n [123].
Definition fam_braces_closed (n : nat) : bytes := rep n [123] ++ rep n [125].
Definition fam_braces_short (n : nat) : bytes := rep n [123] ++ rep (pred n) [125].

Definition linear_expr (rp : bool) (s : bytes) : bool :=
  expr_cost true rp s <=? 2 * N.of_nat (length s) + 2.
Definition linear_braces (rescan : bool) (s : bytes) : bool :=
  snd (bb_entry rescan true s) <=? N.of_nat (length s) + 1.

(** the literal rule and the model's depth counter agree on these texts (length matched, or no match) *)
Definition bb_agrees (s : bytes) : bool :=
  match fst (bb_entry store_brace_rescans store_skips_strings s), balanced_braces s with
  | Some k, Some (j, _) => Nat.eqb k (length j)
  | None, None => true
  | _, _ => false
  end.

Definition depths : list nat := [1; 5; 13; 40; 200]%nat.

Lemma linear_expr_all : forall s, linear_expr false s = true.
Proof. intro s. unfold linear_expr. pose proof (expr_cost_linear true s). lia. Qed.

Lemma linear_braces_all : forall s, linear_braces false s = true.
Proof. intro s. unfold linear_braces. pose proof (brace_cost_linear true s). lia. Qed.

Lemma cur_expr_parses_once : expr_grammar_reparses = false.
Proof. reflexivity. Qed.
Lemma cur_brace_read_once : store_brace_rescans = false.
Proof. reflexivity. Qed.

Theorem no_exponential_witness :
  forallb (fun d => linear_expr expr_grammar_reparses (fam_paren d)
                    && linear_expr expr_grammar_reparses (fam_paren_open d)
                    && linear_expr expr_grammar_reparses (fam_not d)
                    && linear_expr expr_grammar_reparses (fam_not_paren d)
                    && linear_expr expr_grammar_reparses (fam_and d)
                    && linear_expr expr_grammar_reparses (fam_or d)) depths = true /\
  forallb (fun n => linear_braces store_brace_rescans (fam_braces n)
                    && linear_braces store_brace_rescans (fam_braces_closed n)
                    && linear_braces store_brace_rescans (fam_braces_short n)) (depths ++ [34; 1000]%nat) = true /\
  forallb (fun n => bb_agrees (fam_braces n) && bb_agrees (fam_braces_closed n) && bb_agrees (fam_braces_short n))
          (depths ++ [34]%nat) = true.
Proof.
  split; [|split].
  - rewrite cur_expr_parses_once. apply forallb_forall. intros d _. rewrite !linear_expr_all. reflexivity.
  - rewrite cur_brace_read_once. apply forallb_forall. intros n _. rewrite !linear_braces_all. reflexivity.
  - vm_compute. reflexivity.
Qed.

(** ** in the other form (sneldb before 04c7300) the same families are exponential *)
Lemma reparsing_was_exponential :
  expr_cost true true (fam_paren 13) = (4 ^ 15 - 4) / 3 /\
  linear_expr true (fam_paren 13) = false /\
  snd (bb_entry true true (fam_braces 34)) = 2 ^ 33 /\
  linear_braces true (fam_braces 34) = false /\
  (* and the result does not depend on the form *)
  fst (bb_entry true true (fam_braces_closed 13)) = fst (bb_entry false true (fam_braces_closed 13)).
Proof. split; [|split; [|split; [|split]]]; vm_compute; reflexivity. Qed.

Lemma again_le : forall c, again false c <= again true c.
Proof. intro c. cbn. lia. Qed.
