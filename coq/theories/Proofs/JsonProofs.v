(** The JSON endpoint's conversion of and / or operand lists (Model/JsonCommand.v [join]) keeps every
    operand, once and in order, whatever the length of the list. *)
From Coq Require Import NArith ZArith List.
From Snel Require Import Base.Bytes Model.Parser Model.JsonCommand.
Import ListNotations.
Open Scope N_scope.

Fixpoint leaves (e : expr) : list expr :=
  match e with
  | ECmp _ _ _ | EIn _ _ => [e]
  | EAnd x y | EOr x y => leaves x ++ leaves y
  | ENot x => leaves x
  end.

(** the operands of a left-nested chain of [n] applications of the connective *)
Fixpoint and_operands (n : nat) (e : expr) : list expr :=
  match n with
  | O => [e]
  | S k => match e with EAnd l r => and_operands k l ++ [r] | _ => [e] end
  end.
Fixpoint or_operands (n : nat) (e : expr) : list expr :=
  match n with
  | O => [e]
  | S k => match e with EOr l r => or_operands k l ++ [r] | _ => [e] end
  end.

Lemma fold_leaves : forall mk : expr -> expr -> expr, (forall a b, leaves (mk a b) = leaves a ++ leaves b) ->
  forall xs x, leaves (fold_left mk xs x) = leaves x ++ flat_map leaves xs.
Proof.
  intros mk Hmk. induction xs as [|y xs IH]; intro x; cbn [fold_left flat_map].
  - rewrite app_nil_r. reflexivity.
  - rewrite IH, Hmk, <- app_assoc. reflexivity.
Qed.

Lemma fold_operands : forall (mk : expr -> expr -> expr) (ops : nat -> expr -> list expr),
  (forall e, ops O e = [e]) -> (forall k l r, ops (S k) (mk l r) = ops k l ++ [r]) ->
  forall xs x, ops (length xs) (fold_left mk xs x) = x :: xs.
Proof.
  intros mk ops H0 HS xs. induction xs as [|y xs IH] using rev_ind; intro x; [apply H0|].
  rewrite fold_left_app, app_length. cbn [fold_left length]. rewrite Nat.add_1_r, HS, IH. reflexivity.
Qed.

Lemma join_keeps : forall (mk : expr -> expr -> expr) (ops : nat -> expr -> list expr),
  (forall e, ops O e = [e]) -> (forall k l r, ops (S k) (mk l r) = ops k l ++ [r]) ->
  (forall a b, leaves (mk a b) = leaves a ++ leaves b) ->
  forall xs e, join mk xs = Some e -> ops (length xs - 1)%nat e = xs /\ leaves e = flat_map leaves xs.
Proof.
  intros mk ops H0 HS HL [|x xs] e [= <-]. cbn [length flat_map]. rewrite Nat.sub_succ, Nat.sub_0_r.
  split; [apply fold_operands | apply fold_leaves]; assumption.
Qed.

Theorem join_keeps_operands : forall xs e,
  (join EAnd xs = Some e -> and_operands (length xs - 1) e = xs /\ leaves e = flat_map leaves xs) /\
  (join EOr xs = Some e -> or_operands (length xs - 1) e = xs /\ leaves e = flat_map leaves xs) /\
  (join EAnd xs = None <-> xs = []).
Proof.
  intros xs e. split; [apply (join_keeps EAnd and_operands); reflexivity|].
  split; [apply (join_keeps EOr or_operands); reflexivity|]. destruct xs; cbn [join]; split; congruence.
Qed.

(** an object whose only key is "and" (or "or") is no Compare and no In, has no other list and no "not" *)
Lemma conv_and_single : forall f js, conv_expr (S f) (JObj [(S_and, JArr js)]) =
  match jall (map (conv_expr f) js) with JOk xs => JOk (logical_of xs [] None) | JErr => JErr | JUn => JUn end.
Proof. reflexivity. Qed.

Lemma conv_or_single : forall f js, conv_expr (S f) (JObj [(S_or, JArr js)]) =
  match jall (map (conv_expr f) js) with JOk xs => JOk (logical_of [] xs None) | JErr => JErr | JUn => JUn end.
Proof. reflexivity. Qed.

Theorem conv_logical_keeps_operands : forall f js xs,
  xs <> [] -> jall (map (conv_expr f) js) = JOk xs ->
  (exists e, conv_expr (S f) (JObj [(S_and, JArr js)]) = JOk e /\
             and_operands (length xs - 1) e = xs /\ leaves e = flat_map leaves xs) /\
  (exists e, conv_expr (S f) (JObj [(S_or, JArr js)]) = JOk e /\
             or_operands (length xs - 1) e = xs /\ leaves e = flat_map leaves xs).
Proof.
  intros f js xs NE H.
  destruct xs as [|x xs]; [congruence|].
  split.
  - exists (fold_left EAnd xs x). split.
    + rewrite conv_and_single, H. reflexivity.
    + apply (join_keeps EAnd and_operands); reflexivity.
  - exists (fold_left EOr xs x). split.
    + rewrite conv_or_single, H. reflexivity.
    + apply (join_keeps EOr or_operands); reflexivity.
Qed.

(** the whole conversion on a flat list of comparisons: {"and":[c1..cn]} (n >= 1) mentions c1..cn *)
Definition jcmp (f : bytes) (v : Z) : json := JObj [(S_field, JStr f); (S_op, JStr [101; 113]); (S_value, JInt v)].

Example conv_and_3_and_5 :
  let cs := map (fun n => jcmp [97] (Z.of_nat n)) [1; 2; 3; 4; 5]%nat in
  (exists e, conv_expr 10 (JObj [(S_and, JArr (firstn 3 cs))]) = JOk e /\ length (leaves e) = 3%nat) /\
  (exists e, conv_expr 10 (JObj [(S_and, JArr cs)]) = JOk e /\ length (leaves e) = 5%nat).
Proof. split; eexists; split; vm_compute; reflexivity. Qed.
