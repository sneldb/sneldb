(** Proofs about Model/Sequence.v (C15).  Both two-pointer matchers are one loop, [sweep], over a step function that
    says which b-row an a-row takes and where the b-pointer stands afterwards.  On a time-sorted a-list the sweep
    gives each a-row the b-row it would get alone ([sweep_sorted]), so the matcher without LIMIT is, up to the order
    of the groups, [paired] with [partner] ([matcher_perm]); soundness and "matched iff a partner exists" are then
    facts about [paired] under [serves]. *)
From Coq Require Import ZArith List Bool Lia Sorted Permutation.
From Coq Require Import ZifyBool ZifyN.
From Snel Require Import Base.Bytes Model.Sequence Proofs.BytesFacts Proofs.ListFacts.
Import ListNotations.
Open Scope N_scope.

Lemma lkey_eqb_eq : forall a b, lkey_eqb a b = true <-> a = b.
Proof.
  intros [x|x] [y|y]; cbn [lkey_eqb]; split; intro H; try discriminate; try (inversion H; subst).
  - apply Z.eqb_eq in H. subst. reflexivity.
  - apply Z.eqb_refl.
  - apply bytes_eqb_eq in H. subst. reflexivity.
  - apply bytes_eqb_refl.
Qed.

Definition linked (a b : event) : Prop :=
  exists k, e_link a = Some k /\ e_link b = Some k.

Lemma has_key_iff : forall k e, has_key k e = true <-> e_link e = Some k.
Proof.
  intros k e. unfold has_key. destruct (e_link e) as [k'|]; split; intro H; try discriminate.
  - apply lkey_eqb_eq in H. subst. reflexivity.
  - inversion H. subst. apply lkey_eqb_eq. reflexivity.
Qed.

Lemma sort_stable_perm : forall l, Permutation (sort_stable l) l.
Proof.
  apply fold_insert_perm. intros z. apply insert_perm; [reflexivity|].
  intros x r. cbn [insert_stable]. destruct (ts x <? ts z); auto.
Qed.

Lemma sort_stable_In : forall y l, In y (sort_stable l) <-> In y l.
Proof. split; apply Permutation_in; [|apply Permutation_sym]; apply sort_stable_perm. Qed.

Lemma in_key_group : forall k a l, In a (sort_stable (filter (has_key k) l)) <-> In a l /\ e_link a = Some k.
Proof. intros k a l. rewrite sort_stable_In, filter_In, has_key_iff. reflexivity. Qed.

Definition ts_le (a b : event) : Prop := ts a <= ts b.

Lemma insert_stable_sorted : forall x l, Sorted ts_le l -> Sorted ts_le (insert_stable x l).
Proof.
  intros x l H. induction H as [|z l Hs IH Hd]; cbn [insert_stable].
  - repeat constructor.
  - destruct (ts z <? ts x) eqn:E.
    + constructor; [exact IH|].
      destruct l as [|w l]; cbn [insert_stable].
      * constructor. unfold ts_le. lia.
      * destruct (ts w <? ts x) eqn:E2; constructor; unfold ts_le.
        -- inversion Hd. assumption.
        -- lia.
    + constructor; [constructor; assumption|]. constructor. unfold ts_le. lia.
Qed.

Lemma sort_stable_sorted : forall l, Sorted ts_le (sort_stable l).
Proof.
  unfold sort_stable. induction l as [|x l IH]; cbn [fold_right]; [constructor|].
  apply insert_stable_sorted. exact IH.
Qed.

Lemma Sorted_ts_head_le : forall a l, Sorted ts_le (a :: l) -> forall x, In x l -> ts a <= ts x.
Proof. intros a l H. apply Forall_forall. apply (Sorted_extends (R := ts_le)); [|exact H]. intros x y z; unfold ts_le; lia. Qed.

Lemma sort_groups_perm : forall l, Permutation (sort_groups l) l.
Proof.
  apply fold_insert_perm. intros z. apply insert_perm; [reflexivity|].
  intros x r. cbn [insert_group]. destruct (earliest x <? earliest z); auto.
Qed.

Definition opt_pair (w : event -> event -> bool) (a : event) (o : option event) : list pair :=
  match o with Some b => if w a b then [(a, b)] else [] | None => [] end.

Lemma in_opt_pair : forall w a o x b, In (x, b) (opt_pair w a o) <-> x = a /\ o = Some b /\ w a b = true.
Proof.
  intros w a [b'|] x b; cbn [opt_pair]; [destruct (w a b') eqn:E|]; cbn [In]; intuition congruence.
Qed.

Definition paired (w : event -> event -> bool) (o : event -> option event) (la : list event) : list pair :=
  flat_map (fun a => opt_pair w a (o a)) la.

Lemma in_paired : forall w o la a b, In (a, b) (paired w o la) <-> In a la /\ o a = Some b /\ w a b = true.
Proof.
  intros w o la a b. unfold paired. rewrite in_flat_map. split.
  - intros (x & Hx & H). apply in_opt_pair in H as (-> & H). auto.
  - intros (Ha & H). exists a. split; [exact Ha|]. apply in_opt_pair. auto.
Qed.

Lemma fst_paired : forall w o la,
  map fst (paired w o la) = filter (fun a => match o a with Some b => w a b | None => false end) la.
Proof.
  intros w o la. induction la as [|a la IH]; [reflexivity|]. cbn [paired flat_map filter]. rewrite map_app, <- IH.
  unfold opt_pair. destruct (o a) as [b|]; [destruct (w a b)|]; reflexivity.
Qed.

Definition serves (o : event -> option event) (R : event -> event -> Prop) (lb : list event) : Prop :=
  forall a, match o a with
            | Some b => In b lb /\ R a b
            | None => forall b, In b lb -> ~ R a b
            end.

Lemma paired_sound : forall w o R lb la a b, serves o R lb ->
  In (a, b) (paired w o la) -> In a la /\ In b lb /\ R a b /\ w a b = true.
Proof.
  intros w o R lb la a b S H. apply in_paired in H as (Ha & E & Hw). specialize (S a). rewrite E in S. tauto.
Qed.

Lemma paired_matched_iff : forall w o R lb la, serves o R lb ->
  (forall a b, In a la -> In b lb -> w a b = true) ->
  forall a, (exists b, In (a, b) (paired w o la)) <-> In a la /\ exists b, In b lb /\ R a b.
Proof.
  intros w o R lb la S Hw a. split.
  - intros [b H]. eapply paired_sound in H; eauto. split; [|exists b]; tauto.
  - intros (Ha & b & Hb & Hr). specialize (S a). destruct (o a) as [b'|] eqn:E; [|destruct (S b Hb Hr)].
    exists b'. apply in_paired. destruct S. auto.
Qed.

Section Sweep.
  Variable step : event -> list event -> option event * list event.
  Variable w : event -> event -> bool.

  Fixpoint sweep (la lb : list event) : list pair :=
    match la with
    | [] => []
    | a :: la' => opt_pair w a (fst (step a lb)) ++ sweep la' (snd (step a lb))
    end.

  Lemma sweep_nil_r : (forall a, step a [] = (None, [])) -> forall la, sweep la [] = [].
  Proof. intros H la. induction la as [|a la IH]; cbn [sweep]; [reflexivity|]. rewrite H. exact IH. Qed.

  (** what an earlier a-row leaves of the b-list serves every later a-row as well as the whole list *)
  Hypothesis step_later : forall a0 a lb, ts a0 <= ts a -> fst (step a (snd (step a0 lb))) = fst (step a lb).

  Theorem sweep_sorted : forall la lb, Sorted ts_le la -> sweep la lb = paired w (fun a => fst (step a lb)) la.
  Proof.
    induction la as [|a0 la IH]; intros lb Sa; [reflexivity|]. cbn [sweep paired flat_map]. f_equal.
    rewrite IH by exact (proj1 (Sorted_inv Sa)). apply flat_map_ext_in. intros a Ha.
    rewrite step_later; [reflexivity|]. exact (Sorted_ts_head_le _ _ Sa a Ha).
  Qed.
End Sweep.

Fixpoint skip_before (ta : N) (lb : list event) : list event :=
  match lb with
  | b :: r => if ts b <? ta then skip_before ta r else lb
  | [] => []
  end.

Definition step_f (a : event) (lb : list event) : option event * list event :=
  (hd_error (skip_before (ts a) lb), skip_before (ts a) lb).

Lemma followed_by_sweep : forall w la lb, followed_by w la lb = sweep step_f w la lb.
Proof.
  intros w la. induction la as [|a la IH]; intros lb; [reflexivity|].
  induction lb as [|b lb IHb]; [now rewrite sweep_nil_r|].
  (* one round of the inner [fix go] of [followed_by]; its call [go lb] is [followed_by w (a :: la) lb], as in [IHb] *)
  change (followed_by w (a :: la) (b :: lb)) with
    (if ts a <=? ts b then opt_pair w a (Some b) ++ followed_by w la (b :: lb) else followed_by w (a :: la) lb).
  cbn [sweep step_f fst snd skip_before]. destruct (N.leb_spec (ts a) (ts b)) as [H|H].
  - rewrite (proj2 (N.ltb_ge _ _) H), IH. reflexivity.
  - rewrite (proj2 (N.ltb_lt _ _) H). exact IHb.
Qed.

Lemma skip_before_later : forall ta0 ta lb, ta0 <= ta -> skip_before ta (skip_before ta0 lb) = skip_before ta lb.
Proof.
  intros ta0 ta lb H. induction lb as [|b r IH]; [reflexivity|]. cbn [skip_before].
  destruct (N.ltb_spec (ts b) ta0) as [H0|H0]; [rewrite IH, (proj2 (N.ltb_lt (ts b) ta)) by lia|]; reflexivity.
Qed.

Lemma step_f_later : forall a0 a lb, ts a0 <= ts a -> fst (step_f a (snd (step_f a0 lb))) = fst (step_f a lb).
Proof. intros a0 a lb H. unfold step_f. cbn [fst snd]. now rewrite skip_before_later. Qed.

Lemma step_f_serves : forall lb, serves (fun a => fst (step_f a lb)) (fun a b => ts a <= ts b) lb.
Proof.
  intros lb a. cbn [step_f fst]. induction lb as [|b r IH]; cbn [skip_before]; [intros b []|].
  destruct (N.ltb_spec (ts b) (ts a)) as [H|H].
  - destruct (hd_error (skip_before (ts a) r)); [split; [right|]; apply IH|]. intros x [<-|Hx]; [lia|auto].
  - cbn [hd_error]. split; [left; reflexivity|exact H].
Qed.

(** [Sorted ts_le lb] is not used: it stands here as in the PRECEDED BY twin *)
Theorem followed_by_matched_iff : forall w la lb,
  Sorted ts_le la -> Sorted ts_le lb ->
  (forall a b, In a la -> In b lb -> w a b = true) ->
  forall a, In a la ->
  ((exists b, In (a, b) (followed_by w la lb)) <-> (exists b, In b lb /\ ts a <= ts b)).
Proof.
  intros w la lb Sa _ Hw a Ha. rewrite followed_by_sweep, (sweep_sorted _ _ step_f_later) by exact Sa.
  rewrite (paired_matched_iff _ _ _ _ _ (step_f_serves lb) Hw). tauto.
Qed.

(** holds for [seq_pb_else_advances_a = true] (sneldb 49473e7); with a Rust text that advances the b pointer in the
    final [else] of [match_preceded_by] the flag is [false] and this lemma does not check *)
Lemma preceded_by_is_fixed : preceded_by = preceded_by_gen true.
Proof. reflexivity. Qed.

Definition step_p (a : event) (lb : list event) : option event * list event :=
  match lb with
  | b :: r => if ts b <? ts a then let '(l, rest) := latest_before (ts a) b r in (Some l, l :: rest) else (None, lb)
  | [] => (None, [])
  end.

Lemma preceded_fixed_sweep : forall w la lb, preceded_by_gen true w la lb = sweep step_p w la lb.
Proof.
  intros w la. induction la as [|a la IH]; intros lb; [reflexivity|].
  destruct lb as [|b lb]; [now rewrite sweep_nil_r|].
  cbn [preceded_by_gen sweep step_p]. destruct (ts b <? ts a).
  - destruct (latest_before (ts a) b lb) as [l rest]. cbn [fst snd opt_pair]. now rewrite IH.
  - cbn [fst snd opt_pair app]. apply IH.
Qed.

Lemma latest_before_spec : forall ta rest cur l rest',
  latest_before ta cur rest = (l, rest') -> ts cur < ta -> ts l < ta /\ In l (cur :: rest).
Proof.
  intros ta rest. induction rest as [|nb rest IH]; intros cur l rest' H Hc; cbn [latest_before] in H.
  - inversion H. subst. split; [exact Hc|left; reflexivity].
  - destruct (N.ltb_spec (ts nb) ta) as [E|E]; [|inversion H; subst; split; [exact Hc|left; reflexivity]].
    apply IH in H; [|exact E]. split; [|right]; apply H.
Qed.

Lemma latest_before_later : forall ta0 ta r cur l rest, ta0 <= ta ->
  latest_before ta0 cur r = (l, rest) -> latest_before ta l rest = latest_before ta cur r.
Proof.
  intros ta0 ta r. induction r as [|nb r IH]; intros cur l rest H E; cbn [latest_before] in E.
  - now inversion E.
  - destruct (N.ltb_spec (ts nb) ta0) as [H0|H0]; [|now inversion E].
    cbn [latest_before]. rewrite (proj2 (N.ltb_lt (ts nb) ta)) by lia. now apply IH.
Qed.

Lemma step_p_later : forall a0 a lb, ts a0 <= ts a -> fst (step_p a (snd (step_p a0 lb))) = fst (step_p a lb).
Proof.
  intros a0 a [|b r] H; [reflexivity|]. cbn [step_p]. destruct (N.ltb_spec (ts b) (ts a0)) as [H0|H0]; [|reflexivity].
  destruct (latest_before (ts a0) b r) as [l rest] eqn:E. cbn [snd step_p].
  destruct (latest_before_spec _ _ _ _ _ E H0) as [Hl _].
  rewrite (proj2 (N.ltb_lt (ts l) (ts a))), (proj2 (N.ltb_lt (ts b) (ts a))) by lia.
  rewrite (latest_before_later _ _ _ _ _ _ H E). reflexivity.
Qed.

Lemma step_p_serves : forall lb, Sorted ts_le lb -> serves (fun a => fst (step_p a lb)) (fun a b => ts b < ts a) lb.
Proof.
  intros [|b r] Sb a; [intros b []|]. cbn [step_p]. destruct (N.ltb_spec (ts b) (ts a)) as [H|H].
  - destruct (latest_before (ts a) b r) as [l rest] eqn:E. cbn [fst].
    destruct (latest_before_spec _ _ _ _ _ E H). auto.
  - cbn [fst]. intros x [<-|Hx]; [lia|]. pose proof (Sorted_ts_head_le _ _ Sb x Hx). lia.
Qed.

Theorem preceded_by_matched_iff : forall w la lb,
  Sorted ts_le la -> Sorted ts_le lb ->
  (forall a b, In a la -> In b lb -> w a b = true) ->
  forall a, In a la ->
  ((exists b, In (a, b) (preceded_by w la lb)) <-> (exists b, In b lb /\ ts b < ts a)).
Proof.
  intros w la lb Sa Sb Hw a Ha. rewrite preceded_by_is_fixed, preceded_fixed_sweep, (sweep_sorted _ _ step_p_later) by exact Sa.
  rewrite (paired_matched_iff _ _ _ _ _ (step_p_serves lb Sb) Hw). tauto.
Qed.

Definition step_of (lk : link) := match lk with FollowedBy => step_f | PrecededBy => step_p end.
Definition ts_rel (lk : link) (a b : event) : Prop :=
  match lk with FollowedBy => ts a <= ts b | PrecededBy => ts b < ts a end.

Lemma step_of_later : forall lk a0 a lb, ts a0 <= ts a ->
  fst (step_of lk a (snd (step_of lk a0 lb))) = fst (step_of lk a lb).
Proof. intros []; [apply step_f_later|apply step_p_later]. Qed.

Lemma step_of_serves : forall lk lb, Sorted ts_le lb -> serves (fun a => fst (step_of lk a lb)) (ts_rel lk) lb.
Proof. intros [] lb Sb; [apply step_f_serves|apply step_p_serves, Sb]. Qed.

Lemma match_group_sweep : forall lk w g, match_group lk w g = sweep (step_of lk) w (g_a g) (g_b g).
Proof.
  intros lk w g. unfold match_group. destruct (g_a g) as [|a la]; [reflexivity|]. destruct (g_b g) as [|b lb].
  - symmetry. apply sweep_nil_r. now destruct lk.
  - destruct lk; [apply followed_by_sweep|rewrite preceded_by_is_fixed; apply preceded_fixed_sweep].
Qed.

Lemma opt_take_In : forall (A : Type) o (l : list A) x, In x (opt_take o l) -> In x l.
Proof. intros A [n|] l x H; cbn in H; [eapply firstn_In; eauto|exact H]. Qed.

Lemma keys_of_acc : forall l acc k, In k acc -> In k (keys_of l acc).
Proof.
  induction l as [|e l IH]; intros acc k H; cbn [keys_of]; [exact H|].
  destruct (e_link e) as [k'|]; [|apply IH; exact H].
  destruct (existsb (lkey_eqb k') acc); apply IH; [exact H|]. apply in_or_app. left. exact H.
Qed.

Lemma keys_of_complete : forall l acc e k, In e l -> e_link e = Some k -> In k (keys_of l acc).
Proof.
  induction l as [|x l IH]; intros acc e k Hin Hk; [destruct Hin|]. cbn [keys_of].
  destruct Hin as [Hx|Hin].
  - subst x. rewrite Hk. destruct (existsb (lkey_eqb k) acc) eqn:E.
    + apply keys_of_acc, (existsb_eqb_In lkey_eqb lkey_eqb_eq), E.
    + apply keys_of_acc. apply in_or_app. right. left. reflexivity.
  - destruct (e_link x) as [k'|]; [destruct (existsb (lkey_eqb k') acc)|]; eapply IH; eauto.
Qed.

Lemma keys_of_distinct : forall l acc, NoDup acc -> NoDup (keys_of l acc).
Proof.
  induction l as [|e r IH]; intros acc Hn; cbn [keys_of]; [exact Hn|].
  destruct (e_link e) as [k|]; [|apply IH; exact Hn].
  destruct (existsb (lkey_eqb k) acc) eqn:E; [apply IH; exact Hn|].
  apply IH, nodup_snoc; [exact Hn|].
  intros Hx. apply (existsb_eqb_In lkey_eqb lkey_eqb_eq) in Hx. congruence.
Qed.

(* the keys are compared as [has_key] compares them, so that [oeqb (e_link x) (Some k)] is [has_key k x]
   by computation ([keyed_flat_map]) *)
Definition oeqb (o o' : option lkey) : bool :=
  match o, o' with Some k', Some k => lkey_eqb k k' | None, None => true | _, _ => false end.

Lemma oeqb_eq : forall o o', oeqb o o' = true <-> o = o'.
Proof.
  intros [k'|] [k|]; cbn [oeqb]; rewrite ?lkey_eqb_eq; split; intro H; try discriminate; congruence.
Qed.

Lemma keyed_flat_map {B} (Q : event -> list B) la ks :
  NoDup ks -> (forall a k, In a la -> e_link a = Some k -> In k ks) -> (forall a, e_link a = None -> Q a = []) ->
  Permutation (flat_map (fun k => flat_map Q (filter (has_key k) la)) ks) (flat_map Q la).
Proof.
  intros ND Hk Hn.
  assert (P : Permutation (flat_map (fun o => filter (fun x => oeqb (e_link x) o) la) (None :: map Some ks)) la).
  { apply (partition_by_key_perm e_link oeqb oeqb_eq).
    - constructor; [rewrite in_map_iff; intros (k & [=] & _)|].
      apply FinFun.Injective_map_NoDup; [intros x y [=]; assumption|exact ND].
    - intros a Ha. destruct (e_link a) as [k|] eqn:E; [right; apply in_map, (Hk a k Ha E)|left; reflexivity]. }
  eapply Permutation_trans; [|apply (Permutation_flat_map Q), P]. rewrite flat_map_flat_map. cbn [flat_map].
  rewrite (flat_map_nil_on Q), (flat_map_concat_map _ (map Some ks)), map_map, <- flat_map_concat_map; [reflexivity|].
  intros a Ha. apply filter_In in Ha as [_ Ha]. apply Hn. destruct (e_link a); [discriminate|reflexivity].
Qed.

Definition partner (lk : link) (lb : list event) (a : event) : option event :=
  match e_link a with
  | Some k => fst (step_of lk a (sort_stable (filter (has_key k) lb)))
  | None => None
  end.

Lemma partner_serves : forall lk lb, serves (partner lk lb) (fun a b => linked a b /\ ts_rel lk a b) lb.
Proof.
  intros lk lb a. unfold partner, linked. destruct (e_link a) as [k|]; [|intros b _ [(k & [=] & _) _]].
  pose proof (step_of_serves lk _ (sort_stable_sorted (filter (has_key k) lb)) a) as S. cbv beta in S.
  destruct (fst _) as [b|].
  - destruct S as [Hb Ht]. apply in_key_group in Hb as [Hb Kb]. eauto.
  - intros b Hb [(k' & [= <-] & Kb) Ht]. apply (S b); [apply in_key_group; auto|exact Ht].
Qed.

Theorem matcher_perm : forall lk wh ta tb la lb,
  Permutation (matcher lk wh ta tb None la lb) (paired (pair_where wh ta tb) (partner lk lb) la).
Proof.
  intros lk wh ta tb la lb. unfold matcher, match_sequences, make_groups. cbn [opt_take].
  rewrite sort_groups_perm, flat_map_concat_map, map_map, <- flat_map_concat_map.
  eapply Permutation_trans; [apply flat_map_perm_in|apply keyed_flat_map].
  - (* one group: its a-rows are sorted and carry the group's key *)
    intros k _. rewrite match_group_sweep. cbn [g_a g_b].
    rewrite (sweep_sorted _ _ (step_of_later lk)) by apply sort_stable_sorted. unfold paired.
    rewrite (sort_stable_perm (filter _ la)).
    apply Permutation_refl', flat_map_ext_in. intros a Ha. apply filter_In in Ha as [_ Ha]. apply has_key_iff in Ha.
    unfold partner. now rewrite Ha.
  - apply keys_of_distinct, keys_of_distinct. constructor.
  - intros a k Ha Ka. apply keys_of_acc. eapply keys_of_complete; eauto.
  - intros a Ka. unfold partner. now rewrite Ka.
Qed.

Lemma matcher_limit : forall lk wh ta tb limit la lb,
  matcher lk wh ta tb limit la lb = opt_take limit (matcher lk wh ta tb None la lb).
Proof. reflexivity. Qed.

Corollary in_matcher : forall lk wh ta tb la lb p,
  In p (matcher lk wh ta tb None la lb) <-> In p (paired (pair_where wh ta tb) (partner lk lb) la).
Proof. intros. split; apply Permutation_in; [|apply Permutation_sym]; apply matcher_perm. Qed.

Theorem pairs_sound : forall lk wh ta tb limit la lb a b,
  In (a, b) (matcher lk wh ta tb limit la lb) ->
  In a la /\ In b lb /\ linked a b /\
  match lk with FollowedBy => ts a <= ts b | PrecededBy => ts b < ts a end /\
  where_row wh ta a = true /\ where_row wh tb b = true.
Proof.
  intros lk wh ta tb limit la lb a b H. rewrite matcher_limit in H.
  apply opt_take_In, in_matcher, (paired_sound _ _ _ _ _ _ _ (partner_serves lk lb)) in H as (Ha & Hb & [Hl Ht] & Hw).
  apply andb_true_iff in Hw. tauto.
Qed.

Theorem limit_bounds : forall lk wh ta tb n la lb,
  (length (matcher lk wh ta tb (Some n) la lb) <= N.to_nat n)%nat /\
  matcher lk wh ta tb (Some n) la lb = firstn (N.to_nat n) (matcher lk wh ta tb None la lb).
Proof.
  intros. rewrite matcher_limit. cbn [opt_take]. split; [apply firstn_le_length|reflexivity].
Qed.

Definition ev (pos : N) (k t : Z) (f : bytes) (v : Z) : event :=
  mkEvent pos (Some (LInt k)) (Some t) [(f, Some v)].
Definition t_pa : bytes := [112; 97].
Definition t_pb : bytes := [112; 98].
Definition f_x : bytes := [120].
Definition f_y : bytes := [121].

(** the sweep spends [a] on b1, which fails the WHERE, and never looks at b2, which passes *)
Theorem matcher_incomplete_refuted :
  let wh := Some (ECmp (Some t_pb) f_y OpEq 1) in
  let a := ev 0 7 1 f_x 0 in
  let b1 := ev 0 7 2 f_y 0 in
  let b2 := ev 1 7 3 f_y 1 in
  matcher FollowedBy wh t_pa t_pb None [a] [b1; b2] = [] /\
  linked a b2 /\ ts a <= ts b2 /\ where_row wh t_pa a = true /\ where_row wh t_pb b2 = true.
Proof. cbv zeta. split; [vm_compute; reflexivity|]. split; [exists (LInt 7); split; reflexivity|]. vm_compute. repeat split; congruence. Qed.

Lemma where_row_and : forall l r ty x,
  where_row (Some (EAnd l r)) ty x = where_row (Some l) ty x && where_row (Some r) ty x.
Proof.
  intros. cbn [where_row transform].
  destruct (transform l ty), (transform r ty); cbn [eval_row]; rewrite ?andb_true_r; reflexivity.
Qed.

Lemma one_sided_transform : forall e ty, one_sided e ty = true ->
  exists t, (forall ty', transform e ty' = if bytes_eqb ty ty' then Some t else None) /\
  forall fa fb ta tb a b, bytes_eqb ty ta || bytes_eqb ty tb = true ->
    eval_row t (if bytes_eqb ty ta then a else b) = eval_pair fa fb e ta tb a b.
Proof.
  induction e as [p f op c|l IHl r IHr|l IHl r IHr|x IH]; intros ty H; cbn [one_sided] in H; cbn [transform].
  - destruct p as [p|]; [|discriminate]. apply bytes_eqb_eq in H. subst p. eexists. split; [reflexivity|].
    intros fa fb ta tb a b E. cbn [eval_pair].
    destruct (bytes_eqb ty ta); [reflexivity|]. cbn [orb] in E. rewrite E. reflexivity.
  - apply andb_true_iff in H as [H1 H2]. destruct (IHl _ H1) as (t1 & T1 & E1), (IHr _ H2) as (t2 & T2 & E2).
    exists (EAnd t1 t2). split; [intros ty'; rewrite T1, T2; now destruct (bytes_eqb ty ty')|].
    intros fa fb ta tb a b E. cbn [eval_row eval_pair]. now rewrite (E1 fa fb ta tb a b E), (E2 fa fb ta tb a b E).
  - apply andb_true_iff in H as [H1 H2]. destruct (IHl _ H1) as (t1 & T1 & E1), (IHr _ H2) as (t2 & T2 & E2).
    exists (EOr t1 t2). split; [intros ty'; rewrite T1, T2; now destruct (bytes_eqb ty ty')|].
    intros fa fb ta tb a b E. cbn [eval_row eval_pair]. now rewrite (E1 fa fb ta tb a b E), (E2 fa fb ta tb a b E).
  - destruct (IH _ H) as (t & T & E). exists (ENot t). split; [intros ty'; rewrite T; now destruct (bytes_eqb ty ty')|].
    intros fa fb ta tb a b E0. cbn [eval_row eval_pair]. now rewrite (E fa fb ta tb a b E0).
Qed.

Lemma one_sided_either : forall fa fb e ta tb a b, bytes_eqb ta tb = false ->
  one_sided e ta || one_sided e tb = true -> eval_pair fa fb e ta tb a b = where_row (Some e) ta a && where_row (Some e) tb b.
Proof.
  intros fa fb e ta tb a b Hne H. cbn [where_row].
  assert (Hne' : bytes_eqb tb ta = false) by (rewrite bytes_eqb_sym; exact Hne).
  apply orb_true_iff in H. destruct H as [H|H]; destruct (one_sided_transform _ _ H) as (t & T & E);
    rewrite !T, bytes_eqb_refl, <- (E fa fb ta tb a b) by (rewrite bytes_eqb_refl; auto using orb_true_r).
  - rewrite Hne, bytes_eqb_refl, andb_true_r. reflexivity.
  - rewrite Hne'. reflexivity.
Qed.

Theorem pushdown_exact_for_conjunctions : forall fa fb e ta tb a b,
  bytes_eqb ta tb = false -> conjunctive fa fb e ta tb = true ->
  eval_pair fa fb e ta tb a b = where_row (Some e) ta a && where_row (Some e) tb b.
Proof.
  intros fa fb e ta tb a b Hne.
  induction e as [p f op c|l IHl r IHr|l IHl r IHr|x IH]; intros H; cbn [conjunctive] in H.
  - destruct p as [p|]; [apply one_sided_either; assumption|].
    cbn [eval_pair]. unfold declared_by_one in H.
    destruct (mem_bytes f fa), (mem_bytes f fb); cbn in H; try discriminate; reflexivity.
  - rewrite <- orb_assoc in H. apply orb_true_iff in H. destruct H as [H|H]; [|apply one_sided_either; assumption].
    apply andb_true_iff in H. destruct H as [H1 H2].
    cbn [eval_pair]. rewrite (IHl H1), (IHr H2), !where_row_and.
    destruct (where_row (Some l) ta a), (where_row (Some l) tb b), (where_row (Some r) ta a), (where_row (Some r) tb b); reflexivity.
  - apply one_sided_either; assumption.
  - apply one_sided_either; assumption.
Qed.

Example pushdown_exact_sat :
  conjunctive [f_x] [f_y] (EAnd (ECmp (Some t_pa) f_x OpGt 1) (EOr (ECmp (Some t_pb) f_y OpEq 2) (ENot (ECmp (Some t_pb) f_y OpLt 0)))) t_pa t_pb = true.
Proof. vm_compute. reflexivity. Qed.

(** an OR that spans both types: the pair passes by [pa.x = 1], the b-row is filtered out by [pb.y = 2] *)
Theorem pushdown_refuted :
  let e := EOr (ECmp (Some t_pa) f_x OpEq 1) (ECmp (Some t_pb) f_y OpEq 2) in
  let a := ev 0 7 1 f_x 1 in
  let b := ev 0 7 2 f_y 0 in
  eval_pair [f_x] [f_y] e t_pa t_pb a b = true /\ where_row (Some e) t_pb b = false /\
  seq_query FollowedBy (Some e) t_pa t_pb None [a] [b] = [] /\ conjunctive [f_x] [f_y] e t_pa t_pb = false.
Proof. cbv zeta. vm_compute. repeat split; reflexivity. Qed.

Definition time_le (a b : event) : Prop :=
  match e_time a, e_time b with Some x, Some y => (x <= y)%Z | _, _ => False end.
Definition time_lt (a b : event) : Prop :=
  match e_time a, e_time b with Some x, Some y => (x < y)%Z | _, _ => False end.

Lemma time_ok_ts : forall e, time_ok e = true -> exists z, e_time e = Some z /\ (0 <= z)%Z /\ ts e = Z.to_N z.
Proof.
  intros e H. unfold time_ok in H. destruct (e_time e) as [z|] eqn:E; [|discriminate].
  exists z. split; [reflexivity|]. split; [lia|]. unfold ts. rewrite E.
  rewrite Z.mod_small; [reflexivity|]. assert (2 ^ 63 < 2 ^ 64)%Z by reflexivity. lia.
Qed.

Definition time_rel (lk : link) (a b : event) : Prop :=
  match lk with FollowedBy => time_le a b | PrecededBy => time_lt b a end.

Lemma ts_rel_time : forall lk a b, time_ok a = true -> time_ok b = true ->
  (ts_rel lk a b <-> time_rel lk a b).
Proof.
  intros lk a b Ha Hb. destruct (time_ok_ts _ Ha) as (x & Ex & Px & Tx), (time_ok_ts _ Hb) as (y & Ey & Py & Ty).
  destruct lk; cbn [ts_rel time_rel]; unfold time_le, time_lt; rewrite Ex, Ey, Tx, Ty; lia.
Qed.

Lemma spec_where_split : forall fa fb wh ta tb a b,
  bytes_eqb ta tb = false -> conjunctive_where fa fb wh ta tb = true ->
  spec_where fa fb wh ta tb a b = where_row wh ta a && where_row wh tb b.
Proof.
  intros fa fb [e|] ta tb a b Hne Hc; [|reflexivity]. cbn [spec_where]. apply pushdown_exact_for_conjunctions; assumption.
Qed.

Section Composed.
  Variables (fa fb : list bytes) (wh : option expr) (ta tb : bytes) (sa sb : list event).
  Hypothesis Hne : bytes_eqb ta tb = false.
  Hypothesis Hconj : conjunctive_where fa fb wh ta tb = true.
  Hypothesis Htime : forall e, In e (sa ++ sb) -> time_ok e = true.

  Lemma matched_iff_exists : forall lk a, In a sa ->
    ((exists b, In (a, b) (seq_query lk wh ta tb None sa sb)) <->
     (exists b, In b sb /\ linked a b /\ time_rel lk a b /\ spec_where fa fb wh ta tb a b = true)).
  Proof.
    intros lk a Ha. unfold seq_query, sub_query. setoid_rewrite in_matcher.
    rewrite (paired_matched_iff _ _ _ _ _ (partner_serves lk _))
      by (intros x y Hx Hy; apply filter_In in Hx, Hy; unfold pair_where; now rewrite (proj2 Hx), (proj2 Hy)).
    assert (T : forall b, In b sb -> (ts_rel lk a b <-> time_rel lk a b))
      by (intros b Hb; apply ts_rel_time; apply Htime, in_or_app; auto).
    (* what is left: [a] and [b] pass their sub-queries iff the pair passes the WHERE *)
    setoid_rewrite filter_In. setoid_rewrite (spec_where_split fa fb wh ta tb a _ Hne Hconj). setoid_rewrite andb_true_iff.
    split.
    - intros ((_ & Wa) & b & (Hb & Wb) & Hl & Ht). exists b. apply T in Ht; auto.
    - intros (b & Hb & Hl & Ht & Wa & Wb). apply T in Ht; eauto 8.
  Qed.

  Theorem matched_iff_exists_followed_by : forall a, In a sa ->
    ((exists b, In (a, b) (seq_query FollowedBy wh ta tb None sa sb)) <->
     (exists b, In b sb /\ linked a b /\ time_le a b /\ spec_where fa fb wh ta tb a b = true)).
  Proof. exact (matched_iff_exists FollowedBy). Qed.

  Theorem matched_iff_exists_preceded_by : forall a, In a sa ->
    ((exists b, In (a, b) (seq_query PrecededBy wh ta tb None sa sb)) <->
     (exists b, In b sb /\ linked a b /\ time_lt b a /\ spec_where fa fb wh ta tb a b = true)).
  Proof. exact (matched_iff_exists PrecededBy). Qed.
End Composed.

(** the pair a@10 / b@5 is found because the a pointer moves past a@1 (sneldb 49473e7); [preceded_by_gen false]
    moves the b pointer instead and returns nothing *)
Example preceded_by_former_witness :
  let a1 := ev 0 7 1 f_x 0 in
  let a2 := ev 1 7 10 f_x 0 in
  let b := ev 0 7 5 f_y 0 in
  seq_query PrecededBy None t_pa t_pb None [a1; a2] [b] = [(a2, b)].
Proof. vm_compute. reflexivity. Qed.

Example composed_hypotheses_sat :
  let wh := Some (EAnd (ECmp (Some t_pa) f_x OpGte 0) (ECmp (Some t_pb) f_y OpEq 1)) in
  let sa := [ev 0 7 6 f_x 0; ev 1 7 9 f_x 2; ev 2 8 3 f_x 1] in
  let sb := [ev 0 7 5 f_y 1; ev 1 7 7 f_y 1; ev 2 8 2 f_y 1; ev 3 8 4 f_y 0] in
  bytes_eqb t_pa t_pb = false /\ conjunctive_where [f_x] [f_y] wh t_pa t_pb = true /\
  (forall e, In e (sa ++ sb) -> time_ok e = true) /\
  length (seq_query FollowedBy wh t_pa t_pb None sa sb) = 1%nat /\
  length (seq_query PrecededBy wh t_pa t_pb None sa sb) = 3%nat.
Proof.
  cbv zeta. split; [reflexivity|]. split; [reflexivity|]. split.
  - intros e H. cbn in H. repeat (destruct H as [H|H]; [subst; reflexivity|]). destruct H.
  - split; vm_compute; reflexivity.
Qed.

