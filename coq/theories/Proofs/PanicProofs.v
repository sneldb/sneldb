(** Panics of the model come only from the numeric conversions.  By the [avoids] lemmas at [Crash] the repaired
    grammar ([fx = true]) never panics ([fixed_never_panics]), nor does the mode the Rust text is in
    ([parse_never_panics], which Props/C17.v takes).  By the definedness order of FuelProofs.v at [Crash] the repaired
    grammar agrees with the other one wherever that one does not panic ([fixed_agrees]).
    [nopanic] is [avoids Crash] and [sim] / [psim] are [below Crash] / [pbelow Crash], written out; their lemmas
    restate those of FuelProofs.v, PlotProofs.v and TotalityProofs.v for this one failure. *)
From Coq Require Import NArith ZArith List.
From Snel Require Import Base.Bytes Gen.Params Model.Tokenizer Model.Parser Model.PlotQL Model.Command
  Proofs.ParserBasics Proofs.FuelProofs Proofs.PlotProofs Proofs.TotalityProofs.
Import ListNotations.
Open Scope N_scope.

Definition nopanic {A} (p : P A) : Prop := forall s k, p s <> Panic k.

Lemma avoids_np : forall A (p : P A), avoids Crash p <-> nopanic p.
Proof.
  intros A p. split; intros H s.
  - intros k E. apply (H s). rewrite E. exact I.
  - specialize (H s). destruct (p s) as [x| |k|]; cbn; try tauto. intros _. exact (H k eq_refl).
Qed.

Lemma ret_np : forall A (a : A), nopanic (ret a).
Proof. intros. apply avoids_np, ret_avoids. Qed.
Lemma opt_np : forall A (p : P A), nopanic p -> nopanic (opt p).
Proof. intros A p H. apply avoids_np, opt_avoids, avoids_np, H. Qed.
Lemma sym_np : forall c, nopanic (sym c).
Proof. intros. apply avoids_np, sym_avoids. Qed.
Lemma skip_np : nopanic skip.
Proof. apply avoids_np, skip_avoids. Qed.
Lemma notp_np : forall A (t : bytes -> option A), nopanic (notp t).
Proof. intros. apply avoids_np, notp_avoids. Qed.
Lemma eof_np : nopanic eof.
Proof. apply avoids_np, eof_avoids. Qed.
Lemma sep_list1_np : forall A (p : P A) sep, nopanic p -> nopanic (sep_list1 p sep).
Proof. intros A p sep H. apply avoids_np, sep_list1_avoids; [apply avoids_np, H|exact I]. Qed.

Lemma fieldp_np : nopanic fieldp. Proof. apply avoids_np, fieldp_avoids. Qed.
Lemma identp_np : nopanic identp. Proof. apply avoids_np, identp_avoids. Qed.
Lemma strp_np : nopanic strp. Proof. apply avoids_np, strp_avoids. Qed.
Lemma intp_np : nopanic intp. Proof. apply avoids_np, intp_avoids. Qed.

Lemma value_np : nopanic (value true).
Proof. apply avoids_np, value_avoids. reflexivity. Qed.
Lemma parse_expr_at_np : nopanic (parse_expr_at true).
Proof. apply avoids_np, parse_expr_at_avoids. reflexivity. Qed.
Lemma conv_clause_np : forall site mk n, nopanic (conv_clause true site mk n).
Proof. intros. apply avoids_np, conv_clause_avoids. reflexivity. Qed.
Lemma group_rest_np : nopanic (fun s => many (S (length s)) (fun s1 => match comma_sep s1 with Some s2 => fieldp s2 | None => Err end) s).
Proof. apply avoids_np. auto 8 with pc. Qed.
Lemma agg_field_np : forall k mk, nopanic (agg_field k mk).
Proof. intros. apply avoids_np, agg_field_a. Qed.
Lemma agg_spec_np : nopanic agg_spec.
Proof. apply avoids_np, agg_spec_a. Qed.
Lemma granularity_np : nopanic granularity. Proof. apply avoids_np, granularity_a. Qed.
Lemma opt_using_np : nopanic opt_using. Proof. apply avoids_np, opt_using_a. Qed.

Lemma p_value_np : nopanic p_value.
Proof. apply avoids_np, p_value_a. Qed.
Lemma p_expression_np : nopanic p_expression.
Proof. apply avoids_np, p_expression_a. Qed.
Lemma p_integer_np : nopanic p_integer.
Proof. apply avoids_np, p_integer_a. Qed.
Lemma seq_sep_np : nopanic seq_sep.
Proof. apply avoids_np, seq_sep_a. Qed.
Lemma paren_field_np : nopanic paren_field. Proof. apply avoids_np, paren_field_a. Qed.
Lemma metric_expr_np : nopanic metric_expr.
Proof. apply avoids_np, metric_expr_a. Qed.

Lemma pfails_panic : forall r k, ~ pfails Crash r -> r <> PPanic k.
Proof. intros r k H E. apply H. rewrite E. exact I. Qed.

Lemma parse_remember_np : forall s k, parse_remember true s <> PPanic k.
Proof.
  intros s k. apply pfails_panic.
  apply (cmd_case_avoids _ Crash (fun _ => PErr) true (parse_remember_case s) (parse_query_avoids true Crash eq_refl)).
  intros _. exact id.
Qed.

Theorem fixed_never_panics : forall s k, parse_command true s <> PPanic k.
Proof. intros s k. apply pfails_panic, parse_command_avoids, parse_query_avoids. reflexivity. Qed.

(** The parser in the mode the Rust text is in: the translator reads fallible actions in query.rs,
    so this is the repaired grammar.  (If the text goes back to [unwrap()] the flag flips and this
    proof no longer checks.) *)
Lemma cur_mode_fallible : query_numeric_fallible = true.
Proof. reflexivity. Qed.

Theorem parse_never_panics : forall s k, parse_command_cur s <> PPanic k.
Proof. intros s k. unfold parse_command_cur. rewrite cur_mode_fallible. apply fixed_never_panics. Qed.

Definition sim {A} (r0 r1 : res A) : Prop := (exists k, r0 = Panic k) \/ r0 = r1.
Definition psim {A} (p0 p1 : P A) : Prop := forall s, sim (p0 s) (p1 s).

Lemma below_sim : forall A (r0 r1 : res A), below Crash r0 r1 <-> sim r0 r1.
Proof.
  intros A r0 r1. split; (intros [H|H]; [left|right; exact H]).
  - destruct r0; try destruct H. eauto.
  - destruct H as [k ->]. exact I.
Qed.
Lemma pbelow_psim : forall A (p0 p1 : P A), pbelow Crash p0 p1 <-> psim p0 p1.
Proof. intros A p0 p1. split; intros H s; apply below_sim, H. Qed.

Lemma opt_psim : forall A (p0 p1 : P A), psim p0 p1 -> psim (opt p0) (opt p1).
Proof. intros A p0 p1 H. apply pbelow_psim, opt_below, pbelow_psim, H. Qed.
Lemma sep_list1_psim : forall A (p0 p1 : P A) sep, psim p0 p1 -> psim (sep_list1 p0 sep) (sep_list1 p1 sep).
Proof. intros A p0 p1 sep H. apply pbelow_psim, sep_list1_below, pbelow_psim, H. Qed.

(** the same order on the results of [parse_command], which have constructors of their own *)
Definition cbelow (b : failure) (r0 r1 : presult) : Prop := pfails b r0 \/ r0 = r1.

Lemma cbelow_refl : forall b r, cbelow b r r.
Proof. right. reflexivity. Qed.

Lemma of_res_below : forall A b (f : A -> command) r0 r1, below b r0 r1 -> cbelow b (of_res f r0) (of_res f r1).
Proof. intros A b f r0 r1 [H| ->]; [left|apply cbelow_refl]. destruct b, r0; exact H. Qed.

Lemma cmd_case_below : forall F batch0 batch1, cmd_case F -> (forall ts, cbelow Crash (batch0 ts) (batch1 ts)) ->
  cbelow Crash (F batch0 false) (F batch1 true).
Proof.
  intros F batch0 batch1 [r Hr|f q|ts] Hb; [apply cbelow_refl|apply of_res_below, parse_query_below|apply Hb].
Qed.

(** a part that panics ends the batch with its panic; any other result of a part is the same in both modes *)
Lemma batch_parts_below : forall parts acc u, cbelow Crash (batch_parts false parts acc u) (batch_parts true parts acc u).
Proof.
  induction parts as [|p r IH]; intros acc u; cbn [batch_parts]; [apply cbelow_refl|].
  destruct (utrim p); [apply IH|]. unfold parse_command_core.
  destruct (cmd_case_below _ (fun _ => PErr) (fun _ => PErr) (parse_command_with_case p) (fun _ => cbelow_refl _ _)) as [H|E].
  - left. destruct (parse_command_with _ false p); try destruct H. exact I.
  - rewrite <- E. destruct (parse_command_with _ false p); try apply IH; apply cbelow_refl.
Qed.

Lemma parse_command_below : forall s, cbelow Crash (parse_command false s) (parse_command true s).
Proof.
  intro s. apply (cmd_case_below _ (parse_batch false) (parse_batch true) (parse_command_with_case s)).
  intros ts. unfold parse_batch. destruct ts as [|t0 [|[] r]]; try apply cbelow_refl.
  destruct (batch_buffer r 0 [] false) as [[buf|]|]; [apply batch_parts_below|apply cbelow_refl ..].
Qed.

Theorem fixed_agrees : forall s, (forall k, parse_command false s <> PPanic k) ->
  parse_command true s = parse_command false s.
Proof.
  intros s Hn. destruct (parse_command_below s) as [H|E]; [|symmetry; exact E].
  destruct (parse_command false s) as [c| |k| | |u]; try destruct H. destruct (Hn k eq_refl).
Qed.
