(** PLOT grammar (Model/PlotQL.v): every repetition consumes input, so the fuel suffices; and no rule panics.
    Per rule: [_c] it [consumes], [_s] it [shrinks], [_a] it [avoids] either failure, [_n] the same at [Fuel] as [noof]. *)
From Coq Require Import NArith ZArith List Bool Lia.
From Snel Require Import Base.Bytes Model.Tokenizer Model.Parser Model.PlotQL
  Proofs.TokenizerProofs Proofs.ParserBasics Proofs.FuelProofs.
Open Scope N_scope.

Lemma pid_tail_len : forall f s t r, pid_tail f s = (t, r) -> (length r <= length s)%nat.
Proof.
  induction f as [|f IH]; intros s t r H; cbn [pid_tail] in H.
  - inversion H; subst. auto.
  - destruct s as [|c s']; [inversion H; subst; auto|].
    destruct (c =? 45); [|inversion H; subst; auto].
    destruct (span is_pa s') as [a r'] eqn:S. apply span_length in S.
    destruct a as [|x a']; [inversion H; subst; auto|].
    destruct (pid_tail f r') as [t' r''] eqn:T. inversion H; subst. apply IH in T. cbn [length] in *. lia.
Qed.

Lemma p_ident_len : forall s a r, p_ident s = Some (a, r) -> (length r < length s)%nat.
Proof.
  intros s a r H. unfold p_ident in H. destruct s as [|c s']; [discriminate|].
  destruct (is_ident_start c); [|discriminate].
  destruct (span is_pa s') as [x r1] eqn:S. apply span_length in S.
  destruct (pid_tail (length r1) r1) as [t r2] eqn:T. apply pid_tail_len in T.
  inversion H; subst. cbn [length]. lia.
Qed.

Lemma p_field_len : forall s a r, p_field s = Some (a, r) -> (length r < length s)%nat.
Proof.
  intros s a r E. unfold p_field in E. destruct (p_ident s) as [[i r0]|] eqn:E0; [|discriminate].
  apply p_ident_len in E0. destruct r0 as [|c r1]; [inversion E; subst; auto|].
  destruct (c =? 46).
  - destruct (p_ident r1) as [[j r2]|] eqn:E1; inversion E; subst; auto.
    apply p_ident_len in E1. cbn [length] in *. lia.
  - inversion E; subst; auto.
Qed.

Lemma p_identp_c : consumes p_identp. Proof. apply lift_consumes, p_ident_len. Qed.
Lemma p_fieldp_c : consumes p_fieldp. Proof. apply lift_consumes, p_field_len. Qed.
Lemma p_identp_a : forall b, avoids b p_identp. Proof. intro. apply lift_avoids. Qed.
Lemma p_fieldp_a : forall b, avoids b p_fieldp. Proof. intro. apply lift_avoids. Qed.
Lemma p_identp_n : noof p_identp. Proof. apply avoids_noof, p_identp_a. Qed.
Lemma p_fieldp_n : noof p_fieldp. Proof. apply avoids_noof, p_fieldp_a. Qed.
#[global] Hint Resolve p_identp_c p_fieldp_c p_identp_a p_fieldp_a : pc.

Lemma p_value_c : consumes p_value.
Proof.
  apply (alt_consumes _ (lift_map string_lit VStr)); [apply lift_map_consumes, string_lit_len|].
  apply (alt_consumes _ _ (lift_map p_ident VStr)); [apply number_consumes|apply lift_map_consumes, p_ident_len].
Qed.
Lemma p_value_a : forall b, avoids b p_value.
Proof.
  intro b. apply (alt_avoids _ _ (lift_map string_lit VStr)); [apply lift_map_avoids|].
  apply (alt_avoids _ _ _ (lift_map p_ident VStr)); [apply number_avoids; destruct b; reflexivity|apply lift_map_avoids].
Qed.
Lemma p_value_n : noof p_value. Proof. apply avoids_noof, p_value_a. Qed.
#[global] Hint Resolve p_value_c p_value_a : pc.

Lemma p_value_list_s : shrinks p_value_list.
Proof. unfold p_value_list. auto 10 with pc. Qed.
Lemma p_value_list_a : forall b, avoids b p_value_list.
Proof. intro. unfold p_value_list. auto 10 with pc. Qed.
Lemma p_value_list_n : noof p_value_list. Proof. apply avoids_noof, p_value_list_a. Qed.
#[global] Hint Resolve p_value_list_s p_value_list_a : pc.

Lemma p_exists_args_c : forall v, consumes (p_exists_args v).
Proof. intro v. unfold p_exists_args. apply bind_consumes_l; auto 40 with pc. Qed.
Lemma p_leaf_c : consumes p_leaf.
Proof.
  unfold p_leaf. apply alt_consumes; [|apply alt_consumes].
  - unfold p_comparison. apply bind_consumes_l; auto 30 with pc.
  - unfold p_in_expr. apply bind_consumes_l; auto 40 with pc.
  - unfold p_exists_expr. apply alt_consumes; [|apply p_exists_args_c].
    apply bind_consumes_l; [apply kw_consumes|]. intros _. apply bind_shrinks; auto with pc.
    intros _. apply consumes_shrinks, p_exists_args_c.
Qed.
Lemma p_leaf_a : forall b, avoids b p_leaf.
Proof. intro. unfold p_leaf, p_comparison, p_in_expr, p_exists_expr, p_exists_args. auto 60 with pc. Qed.

Lemma p_expression_a : forall b, avoids b p_expression.
Proof. intros b s. exact (proj1 (expr_avoids p_leaf p_leaf_c b (p_leaf_a b) _ s) (le_n _)). Qed.
Lemma p_expression_n : noof p_expression. Proof. apply avoids_noof, p_expression_a. Qed.
Lemma p_expression_c : consumes p_expression.
Proof. intros s a r E. exact (proj1 (expr_consumes p_leaf p_leaf_c _) s a r E). Qed.
#[global] Hint Resolve p_expression_a p_expression_c : pc.

Lemma paren_field_s : shrinks paren_field. Proof. unfold paren_field. auto 40 with pc. Qed.
Lemma paren_field_a : forall b, avoids b paren_field. Proof. intro. unfold paren_field. auto 40 with pc. Qed.
Lemma paren_field_n : noof paren_field. Proof. apply avoids_noof, paren_field_a. Qed.
#[global] Hint Resolve paren_field_s paren_field_a : pc.

Lemma agg_func_c : consumes agg_func.
Proof. unfold agg_func. repeat apply alt_consumes; apply bind_consumes_l; auto with pc. Qed.
Lemma agg_func_a : forall b, avoids b agg_func. Proof. intro. unfold agg_func. auto 20 with pc. Qed.
Lemma agg_func_n : noof agg_func. Proof. apply avoids_noof, agg_func_a. Qed.
#[global] Hint Resolve agg_func_c agg_func_a : pc.

Lemma metric_expr_c : consumes metric_expr.
Proof.
  unfold metric_expr. repeat apply alt_consumes; apply bind_consumes_l; auto 20 with pc.
Qed.
Lemma metric_expr_a : forall b, avoids b metric_expr. Proof. intro. unfold metric_expr. auto 30 with pc. Qed.
Lemma metric_expr_n : noof metric_expr. Proof. apply avoids_noof, metric_expr_a. Qed.
#[global] Hint Resolve metric_expr_c metric_expr_a : pc.

Lemma seq_sep_c : consumes seq_sep.
Proof.
  unfold seq_sep. apply alt_consumes; [|apply kw_consumes].
  intros s a r E. destruct s as [|x [|y r']]; try discriminate.
  destruct ((x =? 45) && (y =? 62)); inversion E; subst. cbn. lia.
Qed.
Lemma seq_sep_a : forall b, avoids b seq_sep.
Proof.
  intro b. unfold seq_sep. apply alt_avoids; [|apply kw_avoids].
  intros s. destruct s as [|x [|y r']]; auto with pc. destruct ((x =? 45) && (y =? 62)); auto with pc.
Qed.
Lemma seq_sep_n : noof seq_sep. Proof. apply avoids_noof, seq_sep_a. Qed.
#[global] Hint Resolve seq_sep_c seq_sep_a : pc.

Lemma p_events_step_c : consumes (let* _ := skip in let* _ := seq_sep in let* _ := skip in p_identp).
Proof. apply skip_consumes. intros _. apply bind_consumes_l; auto 20 with pc. Qed.
Lemma p_events_s : shrinks p_events.
Proof.
  unfold p_events. apply bind_shrinks; auto with pc. intros h. apply bind_shrinks; auto with pc.
  intros s l r E. eapply many_shrinks; eauto. apply consumes_shrinks, p_events_step_c.
Qed.
Lemma p_events_a : forall b, avoids b p_events.
Proof. intro. unfold p_events. pose proof p_events_step_c. auto 30 with pc. Qed.
Lemma p_events_n : noof p_events. Proof. apply avoids_noof, p_events_a. Qed.
#[global] Hint Resolve p_events_s p_events_a : pc.

Lemma p_integer_c : consumes p_integer.
Proof.
  intros s a r E. unfold p_integer in E. destruct (integer s) as [[[neg d] r0]|] eqn:I; [|discriminate].
  apply integer_len in I. destruct neg.
  - destruct (_ =? 0); inversion E; subst; auto.
  - destruct (_ <=? _); inversion E; subst; auto.
Qed.
Lemma p_integer_a : forall b, avoids b p_integer.
Proof.
  intros b s. unfold p_integer. destruct (integer s) as [[[neg d] r0]|]; auto with pc.
  destruct neg; [destruct (_ =? 0)|destruct (_ <=? _)]; auto with pc.
Qed.
Lemma p_integer_n : noof p_integer. Proof. apply avoids_noof, p_integer_a. Qed.
#[global] Hint Resolve p_integer_c p_integer_a : pc.

Lemma p_field_list_s : shrinks p_field_list.
Proof. unfold p_field_list. auto 10 with pc. Qed.
Lemma p_field_list_a : forall b, avoids b p_field_list.
Proof. intro. unfold p_field_list. auto 10 with pc. Qed.
Lemma p_field_list_n : noof p_field_list. Proof. apply avoids_noof, p_field_list_a. Qed.
#[global] Hint Resolve p_field_list_s p_field_list_a : pc.

(** [granularity] is a rule of the QUERY grammar (Model/Parser.v) that [ptime_clause] of PLOT uses too *)
Lemma granularity_sh : shrinks granularity. Proof. unfold granularity. auto 30 with pc. Qed.
Lemma granularity_a : forall b, avoids b granularity. Proof. intro. unfold granularity. auto 40 with pc. Qed.
Lemma granularity_no : noof granularity. Proof. apply avoids_noof, granularity_a. Qed.
#[global] Hint Resolve granularity_sh granularity_a : pc.

Lemma top_by_target_s : shrinks top_by_target. Proof. unfold top_by_target. auto 20 with pc. Qed.
Lemma top_by_target_a : forall b, avoids b top_by_target. Proof. intro. unfold top_by_target. auto 20 with pc. Qed.
Lemma top_by_target_n : noof top_by_target. Proof. apply avoids_noof, top_by_target_a. Qed.
#[global] Hint Resolve top_by_target_s top_by_target_a : pc.

Lemma clause_before_c : consumes clause_before_vs.
Proof.
  unfold clause_before_vs, filter_clause, top_clause. apply alt_consumes; apply bind_consumes_l; auto 40 with pc.
Qed.
Lemma clause_before_a : forall b, avoids b clause_before_vs.
Proof. intro. unfold clause_before_vs, filter_clause, top_clause. auto 60 with pc. Qed.
Lemma clause_after_c : consumes clause_after_vs.
Proof.
  unfold clause_after_vs, breakdown_clause, ptime_clause, top_clause.
  repeat apply alt_consumes; apply bind_consumes_l; auto 40 with pc.
Qed.
Lemma clause_after_a : forall b, avoids b clause_after_vs.
Proof. intro. unfold clause_after_vs, breakdown_clause, ptime_clause, top_clause. auto 60 with pc. Qed.

Lemma clauses_of_s : forall p, consumes p -> shrinks (clauses_of p).
Proof.
  intros p Hp s l r E. unfold clauses_of in E. eapply many_shrinks; eauto.
  apply bind_shrinks; auto with pc.
Qed.
Lemma clauses_of_a : forall b p, consumes p -> avoids b p -> avoids b (clauses_of p).
Proof.
  intros b p Hc Hn. unfold clauses_of. apply many_self_avoids; [auto with pc|].
  apply consumes_fuelled, skip_consumes. intros _. exact Hc.
Qed.

Lemma metric_of_events_c : consumes metric_of_events.
Proof.
  unfold metric_of_events. apply bind_consumes_l; auto with pc. intros m.
  pose proof (clauses_of_s _ clause_before_c). auto 20 with pc.
Qed.
Lemma metric_of_events_a : forall b, avoids b metric_of_events.
Proof.
  intro b. unfold metric_of_events. pose proof (clauses_of_a b _ clause_before_c (clause_before_a b)). auto 30 with pc.
Qed.

Lemma vs_step_c : consumes (let* _ := skip in let* _ := kw K_VS in let* _ := skip in metric_of_events).
Proof. pose proof metric_of_events_c. apply skip_consumes. intros _. apply bind_consumes_l; auto 10 with pc. Qed.

Lemma plot_rule_a : forall b, avoids b plot_rule.
Proof.
  intro b. unfold plot_rule.
  pose proof (metric_of_events_a b). pose proof vs_step_c. pose proof (clauses_of_a b _ clause_after_c (clause_after_a b)).
  auto 40 with pc.
Qed.

Lemma parse_plot_avoids : forall b s, ~ fails b (parse_plot s).
Proof.
  intros b s. unfold parse_plot. pose proof (plot_rule_a b s) as H.
  destruct (plot_rule s) as [[[[m sd] af] r]| |k|]; [|exact H ..].
  destruct (forallb _ sd); [|apply not_fails_err]. destruct sd; apply not_fails_ok.
Qed.
