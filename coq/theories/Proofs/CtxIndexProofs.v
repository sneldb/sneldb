(** Proofs over Model/CtxIndex.v: the context index built by [ZoneWriter::write_all] lists, for
    every (event type, context), exactly the zones that hold a row of that context. *)
From Coq Require Import NArith List.
From Snel Require Import Base.Bytes Model.CtxIndex Proofs.BytesFacts Proofs.ListFacts Proofs.AssocFacts.
Import ListNotations.
Open Scope N_scope.

Lemma sm_get_upd : forall (A : Type) k k2 (f : option A -> A) m,
  sm_get k2 (sm_upd k f m) = if bytes_eqb k2 k then Some (f (sm_get k m)) else sm_get k2 m.
Proof. intros. apply (assoc_upd_get bytes_eqb sm_get bytes_eqb_eq); reflexivity. Qed.

Lemma sm_get_upd_same : forall (A : Type) k (f : option A -> A) m,
  sm_get k (sm_upd k f m) = Some (f (sm_get k m)).
Proof. intros. now rewrite sm_get_upd, bytes_eqb_refl. Qed.

Lemma sm_get_upd_other : forall (A : Type) k k2 (f : option A -> A) m,
  k <> k2 -> sm_get k2 (sm_upd k f m) = sm_get k2 m.
Proof. intros A k k2 f m Hne. rewrite sm_get_upd, (proj2 (bytes_eqb_neq k2 k)); congruence. Qed.

Lemma sm_get_in : forall (A : Type) k (v : A) m, sm_get k m = Some v -> In v (map snd m).
Proof.
  intros A k v m H. apply (assoc_In bytes_eqb sm_get bytes_eqb_eq) in H; [|reflexivity..].
  change v with (snd (k, v)). now apply in_map.
Qed.

Lemma zones_of_insert_same : forall et c z ix,
  zones_of (insert et c z ix) et c = zones_of ix et c ++ [z].
Proof.
  intros. unfold zones_of, insert.
  rewrite sm_get_upd_same. cbn [or_nil]. rewrite sm_get_upd_same. reflexivity.
Qed.

Lemma zones_of_insert_other : forall et c z ix et' c',
  (et, c) <> (et', c') -> zones_of (insert et c z ix) et' c' = zones_of ix et' c'.
Proof.
  intros et c z ix et' c' Hne. unfold zones_of, insert.
  destruct (list_eq_dec N.eq_dec et et') as [<-|E].
  - rewrite sm_get_upd_same. cbn [or_nil]. rewrite sm_get_upd_other; [reflexivity | congruence].
  - rewrite sm_get_upd_other; [reflexivity | exact E].
Qed.

Lemma in_zones_of_insert : forall et c z ix et' c' x,
  In x (zones_of (insert et c z ix) et' c') <->
  In x (zones_of ix et' c') \/ (x = z /\ et = et' /\ c = c').
Proof.
  intros et c z ix et' c' x.
  destruct (list_eq_dec (list_eq_dec N.eq_dec) [et; c] [et'; c']) as [[= <- <-]|Hne].
  - rewrite zones_of_insert_same, in_app_iff. cbn [In]. intuition.
  - rewrite zones_of_insert_other by congruence. intuition congruence.
Qed.

Lemma in_zones_of_rows : forall et z cs ix et' c' x,
  In x (zones_of (insert_rows et z cs ix) et' c') <->
  In x (zones_of ix et' c') \/ (x = z /\ et = et' /\ In c' cs).
Proof.
  intros et z cs. induction cs as [|c cs IH]; intros ix et' c' x; cbn [insert_rows fold_left In]; [tauto|].
  fold (insert_rows et z cs (insert et c z ix)). rewrite IH, in_zones_of_insert. intuition.
Qed.

Lemma in_zones_of_build : forall zps ix et c x,
  In x (zones_of (fold_left insert_zone zps ix) et c) <-> In x (zones_of ix et c) \/ zone_holds zps et c x.
Proof.
  unfold zone_holds. induction zps as [|zp zps IH]; intros ix et c x; cbn [fold_left].
  - split; [now left | intros [H|(zp & [] & _)]; exact H].
  - rewrite IH. unfold insert_zone. rewrite in_zones_of_rows. split.
    + intros [[H|(-> & <- & Hc)]|(zp' & Hin & H)]; [now left | right; exists zp | right; exists zp']; cbn [In]; auto.
    + intros [H|(zp' & [<-|Hin] & H)]; [now left; left | left; right; intuition | right; now exists zp'].
Qed.

Lemma zins_in : forall z s x, In x (zins z s) <-> x = z \/ In x s.
Proof.
  intros z. apply insert_in; [reflexivity|]. intros x r. cbn [zins].
  destruct (N.ltb_spec z x); [auto|]. destruct (N.eqb_spec z x); auto.
Qed.

Lemma sort_dedup_in : forall l x, In x (sort_dedup l) <-> In x l.
Proof. intros l x. unfold sort_dedup. rewrite (fold_insert_in zins zins_in). cbn [In]. tauto. Qed.

Lemma find_ctx : forall ix et c, find ix et (Some c) = sort_dedup (zones_of ix et c).
Proof.
  intros. unfold find, zones_of. destruct (sm_get et ix) as [cm|]; [|reflexivity].
  cbn [or_nil]. destruct (sm_get c cm); reflexivity.
Qed.

(** The property only needs the "if" half (it allows over-reporting); the "only if" half pins
    the model used as the correspondence reference. *)
Theorem ctx_probe_exact : forall zps et c z,
  In z (find (build zps) et (Some c)) <-> zone_holds zps et c z.
Proof.
  intros zps et c z. rewrite find_ctx, sort_dedup_in. unfold build. rewrite in_zones_of_build.
  split; [intros [[]|H]; exact H | now right].
Qed.

Theorem ctx_probe_sound : forall zps et c z,
  zone_holds zps et c z -> In z (find (build zps) et (Some c)).
Proof. apply ctx_probe_exact. Qed.

Lemma find_none_incl : forall ix et c z, In z (find ix et (Some c)) -> In z (find ix et None).
Proof.
  intros ix et c z. unfold find. destruct (sm_get et ix) as [cm|]; [|intros []].
  destruct (sm_get c cm) as [zs|] eqn:E; [|intros []]. rewrite !sort_dedup_in, in_concat.
  intros H. exists zs. split; [exact (sm_get_in _ c zs cm E) | exact H].
Qed.

Theorem ctx_probe_none_sound : forall zps et c z,
  zone_holds zps et c z -> In z (find (build zps) et None).
Proof. intros zps et c z H. apply (find_none_incl _ et c), ctx_probe_sound, H. Qed.
