(** [parse_command] returns neither [failure] of FuelProofs.v where the QUERY grammar does not
    ([parse_command_avoids]): the REPLAY, STORE and PLOT grammars avoid both, the token parsers return neither,
    and a failing result of [parse_command] is a failing result of the QUERY grammar on some text
    ([parse_command_origin]).  The QUERY grammar avoids [Fuel] in both modes and [Crash] in the repaired one
    ([parse_query_avoids], [mode_ok]); so the fuel never runs out ([parse_command_fuel_enough]), and the repaired
    grammar never panics (PanicProofs.fixed_never_panics). *)
From Coq Require Import NArith ZArith List Lia.
From Snel Require Import Base.Bytes Model.Tokenizer Model.Parser Model.PlotQL Model.Command
  Proofs.ParserBasics Proofs.FuelProofs Proofs.PlotProofs.
Import ListNotations.
Open Scope N_scope.

Section Mode.
Variable fx : bool.

Hint Resolve value_consumes value_avoids parse_expr_at_avoids parse_expr_at_consumes : pc.

Lemma conv_clause_shrinks : forall site mk n, shrinks (conv_clause fx site mk n).
Proof.
  intros site mk n s a r E. unfold conv_clause in E. destruct (conv_u32 fx site (fst n) (snd n)); try discriminate.
  inversion E; subst. lia.
Qed.
Lemma conv_clause_avoids : forall b, mode_ok b fx -> forall site mk n, avoids b (conv_clause fx site mk n).
Proof.
  intros b Hm site mk n s. pose proof (numfail_avoids N b fx site Hm) as H. unfold conv_clause, conv_u32.
  destruct (fst n); [|destruct (_ <? _); [apply not_fails_ok|]]; destruct (numfail fx site) as [v| |k|]; auto with pc.
Qed.
Lemma conv_clause_noof : forall site mk n, noof (conv_clause fx site mk n).
Proof. intros. apply avoids_noof, conv_clause_avoids. exact I. Qed.
Hint Resolve conv_clause_shrinks conv_clause_avoids : pc.

Lemma return_item_c : consumes return_item. Proof. unfold return_item. auto with pc. Qed.

Lemma agg_field_c : forall k mk, consumes (agg_field k mk). Proof. intros. unfold agg_field. apply bind_consumes_l; auto 40 with pc. Qed.
Lemma agg_field_a : forall b k mk, avoids b (agg_field k mk).
Proof. intros. unfold agg_field. auto 40 with pc. Qed.
Hint Resolve return_item_c agg_field_c agg_field_a : pc.

Lemma agg_spec_c : consumes agg_spec.
Proof. unfold agg_spec. repeat apply alt_consumes; auto with pc; apply bind_consumes_l; auto 40 with pc. Qed.
Lemma agg_spec_a : forall b, avoids b agg_spec.
Proof. intro. unfold agg_spec. auto 60 with pc. Qed.
Lemma agg_spec_n : noof agg_spec.
Proof. apply avoids_noof, agg_spec_a. Qed.

Lemma granularity_s : shrinks granularity.
Proof. exact granularity_sh. Qed.
Lemma granularity_n : noof granularity. Proof. exact granularity_no. Qed.

Lemma opt_using_s : shrinks opt_using.
Proof. unfold opt_using. auto 30 with pc. Qed.
Lemma opt_using_a : forall b, avoids b opt_using. Proof. intro. unfold opt_using. auto 40 with pc. Qed.
Lemma opt_using_n : noof opt_using. Proof. apply avoids_noof, opt_using_a. Qed.
Hint Resolve agg_spec_c agg_spec_a opt_using_s opt_using_a : pc.

Lemma group_rest_n : noof (fun s => many (S (length s)) (fun s1 => match comma_sep s1 with Some s2 => fieldp s2 | None => Err end) s).
Proof. apply avoids_noof. auto 8 with pc. Qed.

(** every clause begins with a rule that consumes: a keyword, or the aggregate list *)
Lemma clause_p_c : consumes (clause_p fx).
Proof.
  unfold clause_p, for_clause, since_clause, return_clause, linked_clause, where_clause, using_time_clause,
    using_clause, agg_clause, time_clause, group_clause, limit_clause, offset_clause, order_clause.
  repeat apply alt_consumes; apply bind_consumes_l; auto 40 with pc.
Qed.
Lemma clause_p_a : forall b, mode_ok b fx -> avoids b (clause_p fx).
Proof.
  intros b Hm.
  unfold clause_p, for_clause, since_clause, return_clause, return_item, linked_clause, where_clause, using_time_clause,
    using_clause, agg_clause, time_clause, group_clause, limit_clause, offset_clause, order_clause.
  repeat apply alt_avoids; auto 60 with pc.
Qed.

Lemma seq_link_s : shrinks seq_link. Proof. unfold seq_link. auto 40 with pc. Qed.
Lemma seq_link_a : forall b, avoids b seq_link. Proof. intro. unfold seq_link. auto 40 with pc. Qed.
Lemma seq_link_n : noof seq_link. Proof. apply avoids_noof, seq_link_a. Qed.
Hint Resolve seq_link_s seq_link_a : pc.

Lemma seq_step_c : consumes (let* _ := skip in let* l := seq_link in let* _ := skip in let* t := identp in ret (l, t)).
Proof.
  apply skip_consumes. intros _. apply bind_consumes_r; [apply seq_link_s|intros l].
  apply skip_consumes. intros _. apply bind_consumes_l; auto with pc.
Qed.

Lemma clause_step_c : consumes (let* _ := skip in clause_p fx).
Proof. apply skip_consumes. intros _. apply clause_p_c. Qed.

Lemma query_rule_a : forall b, mode_ok b fx -> avoids b (query_rule fx).
Proof.
  intros b Hm. unfold query_rule, event_sequence.
  pose proof seq_step_c. pose proof clause_step_c. pose proof (clause_p_a b Hm). auto 40 with pc.
Qed.

Lemma parse_query_avoids : forall b, mode_ok b fx -> forall s, ~ fails b (parse_query fx s).
Proof.
  intros b Hm s. unfold parse_query. pose proof (query_rule_a b Hm s) as H.
  destruct (query_rule fx s) as [[q r]| |k|]; [apply not_fails_ok|exact H ..].
Qed.

End Mode.

Lemma conv_clause_below : forall site mk n, pbelow Crash (conv_clause false site mk n) (conv_clause true site mk n).
Proof.
  intros site mk n s. unfold conv_clause, conv_u32.
  destruct (fst n); [left; exact I|]. destruct (_ <? _); [apply below_refl|left; exact I].
Qed.

(** only WHERE, LIMIT and OFFSET depend on the mode *)
Lemma query_rule_below : pbelow Crash (query_rule false) (query_rule true).
Proof. pose proof conv_clause_below. unfold query_rule, clause_p, where_clause, limit_clause, offset_clause. auto 30 with pc. Qed.

Lemma parse_query_below : forall s, below Crash (parse_query false s) (parse_query true s).
Proof. intro s. unfold parse_query. below_on (query_rule_below s). apply below_refl. Qed.

Lemma rident_c : consumes (lift rident).
Proof. apply lift_consumes. exact (ident_with_len is_replay_ident_char). Qed.
#[global] Hint Resolve rident_c : pc.

Lemma rclause_c : consumes rclause_p.
Proof.
  unfold rclause_p. repeat apply alt_consumes; apply bind_consumes_l; auto 40 with pc.
Qed.
Lemma rclause_a : forall b, avoids b rclause_p.
Proof. intro. unfold rclause_p. auto 60 with pc. Qed.

Lemma replay_rule_a : forall b, avoids b replay_rule.
Proof.
  intro b. unfold replay_rule, event_type_opt.
  assert (Hc : consumes (let* _ := skip in rclause_p)) by (apply skip_consumes; intros _; apply rclause_c).
  pose proof (rclause_a b).
  (* the ten binds in front of the [let '(since, retf, tf) := fold_left ..], which [auto] does not see through *)
  do 10 (apply bind_avoids; [auto 20 with pc|intro]).
  destruct (fold_left apply_rclause _ (None, None, None)) as [[x y] z]. auto with pc.
Qed.

Lemma store_rule_a : forall b, avoids b store_rule.
Proof. intro. unfold store_rule. auto 80 with pc. Qed.

Definition pfails (b : failure) (r : presult) : Prop :=
  match b, r with
  | Fuel, POOF => True
  | Crash, PPanic _ => True
  | _, _ => False
  end.

Definition nofail (r : presult) : Prop := match r with PPanic _ | POOF => False | _ => True end.

Lemma nofail_avoids : forall b r, nofail r -> ~ pfails b r.
Proof. intros [] [] H; try exact id; destruct H. Qed.
Lemma pfails_not_nofail : forall b r, pfails b r -> ~ nofail r.
Proof. intros b r H Hp. exact (nofail_avoids b r Hp H). Qed.

Ltac break_match :=
  repeat match goal with
         | |- context [match ?x with _ => _ end] => destruct x
         | |- context [if ?x then _ else _] => destruct x
         end.

Lemma parse_grant_like_nofail : forall g ts, nofail (parse_grant_like g ts).
Proof. intros g ts. unfold parse_grant_like. break_match; exact I. Qed.
Lemma parse_create_user_nofail : forall ts, nofail (parse_create_user ts).
Proof. intros ts. unfold parse_create_user. break_match; exact I. Qed.
Lemma parse_show_nofail : forall ts, nofail (parse_show ts).
Proof. intros ts. unfold parse_show. break_match; exact I. Qed.
Lemma parse_show_permissions_nofail : forall ts, nofail (parse_show_permissions ts).
Proof. intros ts. unfold parse_show_permissions. break_match; exact I. Qed.
Lemma parse_revoke_key_nofail : forall ts, nofail (parse_revoke_key ts).
Proof. intros ts. unfold parse_revoke_key. break_match; exact I. Qed.
Lemma parse_list_users_nofail : forall ts, nofail (parse_list_users ts).
Proof. intros ts. unfold parse_list_users. break_match; exact I. Qed.
Lemma parse_nullary_nofail : forall c ts, nofail (parse_nullary c ts).
Proof. intros c ts. unfold parse_nullary. break_match; exact I. Qed.
Lemma parse_define_nofail : forall ts, nofail (parse_define ts).
Proof. intros ts. unfold parse_define. break_match; exact I. Qed.

(** a grammar's result handed on as a command result: [of_res], [parse_store], [parse_replay], [parse_plot_cmd] *)
Lemma wrap_avoids : forall A b (r : res A) (f : A -> presult), ~ fails b r -> (forall a, nofail (f a)) ->
  ~ pfails b (match r with Ok a => f a | Err => PErr | Panic k => PPanic k | OOF => POOF end).
Proof. intros A b [a| |k|] f H Hf; [apply nofail_avoids, Hf|apply nofail_avoids; exact I|exact H ..]. Qed.

Lemma of_res_avoids : forall A b (f : A -> command) r, ~ fails b r -> ~ pfails b (of_res f r).
Proof. intros A b f r H. apply (wrap_avoids A b r (fun a => POk (f a)) H). intro; exact I. Qed.
Lemma parse_store_avoids : forall b s, ~ pfails b (parse_store s).
Proof. intros b s. apply wrap_avoids; [apply store_rule_a|intros [c r]; exact I]. Qed.
Lemma parse_replay_avoids : forall b s, ~ pfails b (parse_replay s).
Proof. intros b s. apply wrap_avoids; [apply replay_rule_a|intros [c r]; exact I]. Qed.
Lemma parse_plot_cmd_avoids : forall b s, ~ pfails b (parse_plot_cmd s).
Proof. intros b s. apply wrap_avoids; [apply parse_plot_avoids|intros [q|qs]; exact I]. Qed.

(** [parse_command_with], as a function of the BATCH continuation and the mode, is one of three things:
    a result that depends on neither and is no failure, the QUERY grammar on some text, the continuation *)
Inductive cmd_case : ((list token -> presult) -> bool -> presult) -> Prop :=
| CaseFixed r : (forall b, ~ pfails b r) -> cmd_case (fun _ _ => r)
| CaseQuery f q : cmd_case (fun _ fx => of_res f (parse_query fx q))
| CaseBatch ts : cmd_case (fun batch _ => batch ts).

Lemma case_nofail : forall r, nofail r -> cmd_case (fun _ _ => r).
Proof. intros r H. apply CaseFixed. intro b. apply nofail_avoids, H. Qed.

Lemma parse_remember_case : forall s, cmd_case (fun _ fx => parse_remember fx s).
Proof. intro s. unfold parse_remember. break_match; try (apply case_nofail; exact I). apply CaseQuery. Qed.

Lemma parse_command_with_case : forall s, cmd_case (fun batch fx => parse_command_with batch fx s).
Proof.
  intro s. unfold parse_command_with.
  destruct (negb (tokens_in_domain _)); [apply case_nofail; exact I|].
  destruct (negb (tokens_valid _)); [apply case_nofail; exact I|].
  destruct (tokenize (utrim s)) as [|[w| | | | | | | | | | | |] rest]; try (apply case_nofail; exact I).
  (* one bullet per head, in the order of the tests in [parse_command_with] *)
  repeat match goal with |- cmd_case (fun _ _ => if ?c then _ else _) => destruct c end.
  - apply case_nofail, parse_define_nofail.
  - apply CaseFixed. intro. apply parse_store_avoids.
  - apply parse_remember_case.
  - apply CaseQuery.
  - apply CaseFixed. intro. apply parse_replay_avoids.
  - apply CaseBatch.
  - apply case_nofail, parse_nullary_nofail.
  - apply case_nofail, parse_nullary_nofail.
  - apply CaseFixed. intro. apply parse_plot_cmd_avoids.
  - apply case_nofail, parse_create_user_nofail.
  - destruct rest as [|t r]; [|destruct (word_is K_KEY t)]; apply case_nofail; auto using parse_revoke_key_nofail, parse_grant_like_nofail.
  - apply case_nofail, parse_list_users_nofail.
  - apply case_nofail, parse_grant_like_nofail.
  - destruct rest as [|t r]; [|destruct (word_is K_PERMISSIONS t)]; apply case_nofail; auto using parse_show_permissions_nofail, parse_show_nofail.
  - apply case_nofail; exact I.
Qed.

Lemma cmd_case_origin : forall F b batch fx, cmd_case F -> pfails b (F batch fx) ->
  (exists f q, F batch fx = of_res f (parse_query fx q)) \/ (exists ts, F batch fx = batch ts).
Proof. intros F b batch fx [r Hr|f q|ts] H; [destruct (Hr b H)|left; eauto|right; eauto]. Qed.

(** the undecided result carried along is no failure, so a failure comes from a part *)
Lemma batch_parts_origin : forall b fx parts acc u, match u with Some x => nofail x | None => True end ->
  pfails b (batch_parts fx parts acc u) -> exists p, parse_command_core fx p = batch_parts fx parts acc u.
Proof.
  intros b fx. induction parts as [|p ps IH]; intros acc u Hu H; cbn [batch_parts] in *.
  - destruct u as [x|]; [destruct (nofail_avoids b x Hu H)|destruct acc; destruct (pfails_not_nofail b _ H I)].
  - destruct (utrim p); [exact (IH _ _ Hu H)|].
    destruct (parse_command_core fx p) as [c| |k| | |um] eqn:Ec; try (exists p; exact Ec).
    + exact (IH _ _ Hu H).
    + apply (IH _ _) in H; [exact H|destruct u; [exact Hu|exact I]].
    + apply (IH _ _) in H; [exact H|destruct u; [exact Hu|exact I]].
Qed.

(** [q] is, in the proof, the text under a QUERY / FIND / REMEMBER head, of the command or of a part of a BATCH; the
    statement does not say which *)
Theorem parse_command_origin : forall b fx s, pfails b (parse_command fx s) ->
  exists f q, parse_command fx s = of_res f (parse_query fx q).
Proof.
  intros b fx s H. unfold parse_command in *.
  destruct (cmd_case_origin _ b (parse_batch fx) fx (parse_command_with_case s) H) as [E|(ts & E)]; [exact E|].
  rewrite E in *. clear E. unfold parse_batch in *.
  destruct ts as [|t0 [|[] r]]; try destruct (pfails_not_nofail b _ H I).
  destruct (batch_buffer r 0 [] false) as [[buf|]|]; try destruct (pfails_not_nofail b _ H I).
  destruct (batch_parts_origin b fx _ _ None I H) as (p & E).
  rewrite <- E in *. unfold parse_command_core in *.
  destruct (cmd_case_origin _ b (fun _ => PErr) fx (parse_command_with_case p) H) as [E'|(ts & E')]; [exact E'|].
  rewrite E' in H. destruct (pfails_not_nofail b _ H I).
Qed.

Lemma cmd_case_avoids : forall F b batch fx, cmd_case F ->
  (forall q, ~ fails b (parse_query fx q)) -> (forall ts, ~ pfails b (batch ts)) -> ~ pfails b (F batch fx).
Proof. intros F b batch fx [r Hr|f q|ts] Hq Hb; [apply Hr|apply of_res_avoids, Hq|apply Hb]. Qed.

Theorem parse_command_avoids : forall b fx, (forall q, ~ fails b (parse_query fx q)) -> forall s, ~ pfails b (parse_command fx s).
Proof. intros b fx Hq s H. destruct (parse_command_origin b fx s H) as (f & q & E). rewrite E in H. exact (of_res_avoids _ b f _ (Hq q) H). Qed.

Theorem parse_command_fuel_enough : forall fx s, parse_command fx s <> POOF.
Proof. intros fx s E. apply (parse_command_avoids Fuel fx (parse_query_avoids fx Fuel I) s). rewrite E. exact I. Qed.
