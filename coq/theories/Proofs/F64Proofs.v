(** Facts about Base/OrdF64.v: integers of magnitude at most 2^53 convert to
    doubles exactly, hence strictly monotonically. *)
From Coq Require Import ZArith NArith Lia.
From Coq Require Import ZifyBool.
From Snel Require Import Base.OrdF64.
Open Scope Z_scope.

Definition two53 : Z := 9007199254740992.

Lemma rde_1 : forall a, round_div_even a 1 = a.
Proof.
  intros a. unfold round_div_even. rewrite Z.div_1_r, Z.mod_1_r. reflexivity.
Qed.

Lemma rde_exact : forall k b, 0 < b -> round_div_even (k * b) b = k.
Proof.
  intros k b Hb. unfold round_div_even. rewrite Z.div_mul by lia. rewrite Z.mod_mul by lia.
  cbn [Z.mul]. destruct (Z.compare_spec 0 b); lia.
Qed.

Lemma log2_le_53 : forall z, 1 <= z <= two53 -> 0 <= Z.log2 z <= 53.
Proof.
  intros z Hz. split; [apply Z.log2_nonneg|]. change 53 with (Z.log2 two53). apply Z.log2_le_mono. lia.
Qed.

(** An integer whose significand [q = z * 2^52 / 2^(log2 z)] is whole converts without rounding: both
    branches of [f64_mag] divide a multiple of the divisor. *)
Lemma f64_mag_exact : forall z q, 1 <= z -> Z.log2 z <= 1023 -> q * 2 ^ Z.log2 z = z * two52 ->
  two52 <= q < 2 * two52 /\ f64_mag z 1 = Z.to_N ((Z.log2 z + 1022) * two52 + q).
Proof.
  intros z q Hz He Hq. pose proof (Z.log2_spec z ltac:(lia)) as [Hlo Hhi]. pose proof (Z.log2_nonneg z) as H0.
  set (e := Z.log2 z) in *. rewrite Z.pow_succ_r in Hhi by exact H0.
  assert (P : 0 < 2 ^ e) by (apply Z.pow_pos_nonneg; lia).
  assert (Hb : two52 <= q < 2 * two52) by (unfold two52 in *; nia).
  split; [exact Hb|].
  assert (Hr : (if 0 <=? e - 52 then round_div_even z (1 * 2 ^ (e - 52)) else round_div_even (z * 2 ^ (52 - e)) 1) = q).
  { destruct (Z.leb_spec 0 (e - 52)) as [G|L].
    - (* z = q * 2^(e-52) *)
      assert (P' : 0 < 2 ^ (e - 52)) by (apply Z.pow_pos_nonneg; lia).
      replace e with (52 + (e - 52)) in Hq at 1 by lia. rewrite Z.pow_add_r in Hq by lia. change (2 ^ 52) with two52 in Hq.
      rewrite Z.mul_1_l. replace z with (q * 2 ^ (e - 52)) by (unfold two52 in *; nia). apply rde_exact, P'.
    - (* q = z * 2^(52-e) *)
      assert (E : 2 ^ (52 - e) * 2 ^ e = two52) by (rewrite <- Z.pow_add_r by lia; replace (52 - e + e) with 52 by lia; reflexivity).
      replace (z * 2 ^ (52 - e)) with q by (rewrite <- E in Hq; nia). apply rde_1. }
  unfold f64_mag. change (Z.log2 1) with 0. rewrite Z.sub_0_r. fold e.
  replace (0 <=? e) with true by lia. replace (1 * 2 ^ e <=? z) with true by lia. replace (e <? -1022) with false by lia.
  rewrite Hr. replace (f64_inf_bits <=? Z.to_N ((e + 1022) * two52 + q))%N with false; [reflexivity|].
  symmetry. apply N.leb_gt. unfold f64_inf_bits, two52 in *. lia.
Qed.

Lemma f64_mag_int : forall z, 1 <= z <= two53 ->
  exists q, f64_mag z 1 = Z.to_N ((Z.log2 z + 1022) * two52 + q)
            /\ two52 <= q < 2 * two52 /\ q * 2 ^ (Z.log2 z) = z * two52.
Proof.
  intros z Hz. pose proof (log2_le_53 z Hz) as He.
  assert (exists q, q * 2 ^ Z.log2 z = z * two52) as [q Hq].
  { destruct (Z_le_gt_dec (Z.log2 z) 52) as [L|G].
    - exists (z * 2 ^ (52 - Z.log2 z)). rewrite <- Z.mul_assoc, <- Z.pow_add_r by lia.
      replace (52 - Z.log2 z + Z.log2 z) with 52 by lia. reflexivity.
    - (* log2 z = 53: z = 2^53 *)
      pose proof (Z.log2_spec z ltac:(lia)) as [Hlo _]. replace (Z.log2 z) with 53 in * by lia.
      exists two52. unfold two53 in Hz. change (2 ^ 53) with 9007199254740992 in *. unfold two52. lia. }
  exists q. destruct (f64_mag_exact z q) as [Hb Hm]; auto; lia.
Qed.

Definition int_key (z : Z) : Z := f64_key (f64_of_Z z).

Lemma f64_key_sign_mag : forall (neg : bool) m, (m < f64_inf_bits)%N ->
  f64_key (if neg then f64_sign_bit + m else m) = (if neg then - Z.of_N m else Z.of_N m)
  /\ f64_is_nan (if neg then f64_sign_bit + m else m) = false.
Proof.
  intros neg m Hm. unfold f64_key, f64_is_nan, f64_sign_bit, f64_inf_bits in *.
  assert (E : ((if neg then 9223372036854775808 + m else m) mod 9223372036854775808 = m)%N).
  { destruct neg; [rewrite N.add_mod, N.mod_same, N.add_0_l, N.mod_mod by lia|]; apply N.mod_small; lia. }
  rewrite E. destruct neg.
  - replace (9223372036854775808 + m <? 9223372036854775808)%N with false by lia. split; [reflexivity|lia].
  - replace (m <? 9223372036854775808)%N with true by lia. split; [reflexivity|lia].
Qed.

Lemma f64_of_Z_sign_mag : forall z (neg : bool), 1 <= z ->
  f64_of_Z (if neg then - z else z) = (if neg then f64_sign_bit + f64_mag z 1 else f64_mag z 1)%N.
Proof.
  intros z neg Hz. unfold f64_of_Z, f64_of_ratio.
  replace (Z.abs (if neg then - z else z)) with z by (destruct neg; lia).
  replace (z =? 0) with false by lia. destruct neg.
  - replace (- z <? 0) with true by lia. reflexivity.
  - replace (z <? 0) with false by lia. reflexivity.
Qed.

Lemma int_mag_finite : forall z, 1 <= z <= two53 -> (f64_mag z 1 < f64_inf_bits)%N.
Proof.
  intros z Hz. destruct (f64_mag_int z Hz) as (q & -> & Hq & _). pose proof (log2_le_53 z Hz).
  unfold f64_inf_bits, two52 in *. lia.
Qed.

Lemma int_key_mag : forall z (neg : bool), 1 <= z <= two53 ->
  int_key (if neg then - z else z) = (if neg then - Z.of_N (f64_mag z 1) else Z.of_N (f64_mag z 1))
  /\ f64_is_nan (f64_of_Z (if neg then - z else z)) = false.
Proof.
  intros z neg Hz. unfold int_key. rewrite f64_of_Z_sign_mag by lia. apply f64_key_sign_mag, int_mag_finite, Hz.
Qed.

Lemma int_key_opp : forall z, 1 <= z <= two53 -> int_key (- z) = - int_key z.
Proof. intros z Hz. rewrite (proj1 (int_key_mag z true Hz)), (proj1 (int_key_mag z false Hz)). reflexivity. Qed.

Lemma int_key_closed : forall z, 1 <= z <= two53 ->
  exists q, int_key z = (Z.log2 z + 1022) * two52 + q
            /\ two52 <= q < 2 * two52 /\ q * 2 ^ (Z.log2 z) = z * two52.
Proof.
  intros z Hz. destruct (f64_mag_int z Hz) as (q & Hm & Hq & Hqe). exists q.
  rewrite (proj1 (int_key_mag z false Hz)), Hm, Z2N.id by (pose proof (Z.log2_nonneg z); unfold two52 in *; lia).
  auto.
Qed.

Lemma int_key_pos : forall z, 1 <= z <= two53 -> 0 < int_key z.
Proof.
  intros z Hz. destruct (int_key_closed z Hz) as (q & -> & Q & _).
  pose proof (Z.log2_nonneg z). unfold two52 in *. lia.
Qed.

Lemma int_key_0 : int_key 0 = 0.
Proof. reflexivity. Qed.

Lemma int_key_mono_pos : forall x y, 1 <= x -> x < y -> y <= two53 -> int_key x < int_key y.
Proof.
  intros x y Hx Hxy Hy.
  destruct (int_key_closed x ltac:(lia)) as (qx & Kx & Qx & Ex).
  destruct (int_key_closed y ltac:(lia)) as (qy & Ky & Qy & Ey).
  pose proof (Z.log2_nonneg x). pose proof (Z.log2_le_mono x y ltac:(lia)) as Hle.
  rewrite Kx, Ky. unfold two52 in *.
  destruct (Z.eq_dec (Z.log2 x) (Z.log2 y)) as [E|N].
  - rewrite E in *. assert (0 < 2 ^ Z.log2 y) by (apply Z.pow_pos_nonneg; lia).
    assert (qx * 2 ^ Z.log2 y < qy * 2 ^ Z.log2 y) by lia.
    assert (qx < qy) by (eapply Z.mul_lt_mono_pos_r; eassumption). lia.
  - lia.
Qed.

Theorem int_key_compare : forall x y, - two53 <= x <= two53 -> - two53 <= y <= two53 ->
  Z.compare (int_key x) (int_key y) = Z.compare x y.
Proof.
  assert (Hlt : forall x y, - two53 <= x -> x < y -> y <= two53 -> int_key x < int_key y).
  { intros x y Hx Hxy Hy.
    destruct (Z_lt_le_dec x 0) as [Nx|Px], (Z_lt_le_dec y 0) as [Ny|Py].
    - (* both negative *)
      pose proof (int_key_opp (- x) ltac:(lia)) as Kx. pose proof (int_key_opp (- y) ltac:(lia)) as Ky.
      rewrite Z.opp_involutive in Kx, Ky. rewrite Kx, Ky.
      pose proof (int_key_mono_pos (- y) (- x) ltac:(lia) ltac:(lia) ltac:(lia)). lia.
    - pose proof (int_key_opp (- x) ltac:(lia)) as Kx. rewrite Z.opp_involutive in Kx. rewrite Kx.
      pose proof (int_key_pos (- x) ltac:(lia)).
      destruct (Z.eq_dec y 0) as [->|Ny0]; [rewrite int_key_0; lia|].
      pose proof (int_key_pos y ltac:(lia)). lia.
    - lia.
    - destruct (Z.eq_dec x 0) as [->|Nx0].
      + rewrite int_key_0. apply int_key_pos. lia.
      + apply (int_key_mono_pos x y); lia. }
  intros x y Hx Hy. destruct (Z.compare_spec x y) as [->|H|H].
  - apply Z.compare_refl.
  - apply Z.compare_lt_iff. apply Hlt; lia.
  - apply Z.compare_gt_iff. apply Hlt; lia.
Qed.

Lemma int_not_nan : forall z, - two53 <= z <= two53 -> f64_is_nan (f64_of_Z z) = false.
Proof.
  intros z Hz. destruct (Z_lt_le_dec z 0) as [N|P].
  - rewrite <- (Z.opp_involutive z). apply (int_key_mag (- z) true). lia.
  - destruct (Z.eq_dec z 0) as [->|Nz]; [reflexivity|]. apply (int_key_mag z false). lia.
Qed.
