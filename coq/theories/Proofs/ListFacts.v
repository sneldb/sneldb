(** Facts about the standard library's list operations that it lacks; no statement here speaks of the model. *)
From Coq Require Import List Bool Permutation Sorted ZArith Lia.
Import ListNotations.

Lemma filter_all {A} (p : A -> bool) l : (forall x, In x l -> p x = true) -> filter p l = l.
Proof.
  induction l as [|x r IH]; cbn [filter]; intros H; [reflexivity|].
  rewrite (H x (or_introl eq_refl)), IH; [reflexivity|]. intros y Hy. apply H. right. exact Hy.
Qed.

Lemma filter_none {A} (p : A -> bool) l : (forall x, In x l -> p x = false) -> filter p l = [].
Proof.
  induction l as [|x r IH]; cbn [filter]; intros H; [reflexivity|].
  rewrite (H x (or_introl eq_refl)). apply IH. intros y Hy. apply H. right. exact Hy.
Qed.

Lemma filter_filter {A} (p q : A -> bool) l : filter p (filter q l) = filter (fun x => q x && p x) l.
Proof.
  induction l as [|x r IH]; cbn [filter]; [reflexivity|].
  destruct (q x); cbn [filter andb]; [destruct (p x)|]; rewrite IH; reflexivity.
Qed.

Lemma filter_map_comm {A B} (g : A -> B) (p : B -> bool) l :
  filter p (map g l) = map g (filter (fun a => p (g a)) l).
Proof. induction l as [|x l IH]; cbn [map filter]; [reflexivity|]. destruct (p (g x)); cbn [map]; rewrite IH; reflexivity. Qed.

Lemma filter_concat {A} (p : A -> bool) ls : filter p (concat ls) = concat (map (filter p) ls).
Proof. symmetry. apply concat_filter_map. Qed.

Lemma filter_flat_map {A B} (p : B -> bool) (f : A -> list B) l :
  filter p (flat_map f l) = flat_map (fun x => filter p (f x)) l.
Proof. induction l as [|x l IH]; cbn [flat_map]; [reflexivity|]. rewrite filter_app, IH. reflexivity. Qed.

Lemma in_concat_map {A B} (f : A -> list B) l y : In y (concat (map f l)) <-> exists x, In x l /\ In y (f x).
Proof. rewrite <- flat_map_concat_map. apply in_flat_map. Qed.

Lemma in_concat_filter {A B} (f : A -> list B) p (l : list A) y :
  In y (concat (map f (filter p l))) -> In y (concat (map f l)).
Proof.
  intros H. apply in_concat_map in H as (a & Ha & H). apply filter_In in Ha as [Ha _]. apply in_concat_map. eauto.
Qed.

Lemma in_concat_skipn {A} (l : list (list A)) n m x :
  n <= m -> In x (nth m l []) -> In x (concat (skipn n l)).
Proof.
  revert n m. induction l as [|y l IH]; intros n m Hnm Hx; [destruct m; destruct Hx|].
  destruct n as [|n]; destruct m as [|m]; cbn [skipn nth concat] in *.
  - apply in_or_app. left. exact Hx.
  - apply in_or_app. right. apply (IH 0 m (Nat.le_0_l m) Hx).
  - inversion Hnm.
  - apply (IH n m); [apply le_S_n, Hnm|exact Hx].
Qed.

Lemma concat_filter_nil {A B} (f : A -> list B) p l :
  (forall x, In x l -> p x = false -> f x = []) -> concat (map f (filter p l)) = concat (map f l).
Proof.
  induction l as [|x r IH]; cbn [filter map concat]; intros H; [reflexivity|].
  assert (Hr : forall y, In y r -> p y = false -> f y = []) by (intros y Hy; apply H; right; exact Hy).
  destruct (p x) eqn:Hp; cbn [map concat]; rewrite (IH Hr); [reflexivity|].
  rewrite (H x (or_introl eq_refl) Hp). reflexivity.
Qed.

Lemma flat_map_ext_in {A B} (f g : A -> list B) l : (forall x, In x l -> f x = g x) -> flat_map f l = flat_map g l.
Proof. intros H. rewrite !flat_map_concat_map. f_equal. apply map_ext_in, H. Qed.

Lemma flat_map_flat_map {A B C} (f : A -> list B) (g : B -> list C) l :
  flat_map g (flat_map f l) = flat_map (fun x => flat_map g (f x)) l.
Proof. induction l as [|x l IH]; [reflexivity|]. cbn [flat_map]. now rewrite flat_map_app, IH. Qed.

Lemma concat_flat_map : forall {A B} (f : A -> list (list B)) l,
  concat (flat_map f l) = flat_map (fun x => concat (f x)) l.
Proof.
  intros A B f l. induction l as [|x l IH]; cbn [flat_map concat]; [reflexivity|].
  rewrite concat_app, IH. reflexivity.
Qed.

Lemma flat_map_nil_on {A B} (f : A -> list B) l : (forall j, In j l -> f j = []) -> flat_map f l = [].
Proof.
  induction l as [|a l IH]; intro H; [reflexivity|]. cbn [flat_map].
  rewrite (H a) by (left; reflexivity). apply IH. intros j Hj. apply H. right. exact Hj.
Qed.

Lemma flat_map_single {A B} (f : A -> list B) l i :
  NoDup l -> In i l -> (forall j, In j l -> j <> i -> f j = []) -> flat_map f l = f i.
Proof.
  intros Hnd Hin Hz. apply in_split in Hin as (l1 & l2 & ->). apply NoDup_remove_2 in Hnd.
  rewrite flat_map_app. cbn [flat_map].
  rewrite !flat_map_nil_on, app_nil_r; [reflexivity| |]; intros j Hj;
    (apply Hz; [apply in_or_app; cbn [In]; tauto|]); intros ->; apply Hnd, in_or_app; tauto.
Qed.

Lemma nodup_app {A} (l1 l2 : list A) :
  NoDup (l1 ++ l2) <-> NoDup l1 /\ NoDup l2 /\ (forall x, In x l1 -> In x l2 -> False).
Proof.
  induction l1 as [|a l1 IH]; cbn [app].
  - split; [intros H; repeat split; auto; constructor | tauto].
  - rewrite !NoDup_cons_iff, IH, in_app_iff. split.
    + intros (Hn & H1 & H2 & H3). repeat split; auto.
      intros x [->|Hx] Hx2; [apply Hn; auto | eauto].
    + intros ((Hn & H1) & H2 & H3). repeat split; auto.
      * intros [Ha|Ha]; [auto | eapply H3; [left; reflexivity | exact Ha]].
      * intros x Hx Hx2. eapply H3; [right; exact Hx | exact Hx2].
Qed.

Lemma nodup_snoc {A} (l : list A) a : NoDup l -> ~ In a l -> NoDup (l ++ [a]).
Proof.
  intros Hl Ha. apply nodup_app. split; [exact Hl|]. split; [repeat constructor; intros []|].
  intros x Hx [<-|[]]. exact (Ha Hx).
Qed.

Lemma nodup_map_filter {A B} (f : A -> B) p (l : list A) : NoDup (map f l) -> NoDup (map f (filter p l)).
Proof.
  induction l as [|x r IH]; cbn [map filter]; intros H; [constructor|].
  apply NoDup_cons_iff in H as [Hx H]. destruct (p x); cbn [map]; [|auto].
  constructor; [|auto]. intros Hin. apply Hx. apply in_map_iff in Hin as (y & E & Hy).
  apply filter_In in Hy as [Hy _]. rewrite <- E. apply in_map, Hy.
Qed.

Lemma nodup_map_inj_on {A B} (f : A -> B) (l : list A) :
  NoDup (map f l) -> forall a b, In a l -> In b l -> f a = f b -> a = b.
Proof.
  induction l as [|x r IH]; cbn [map]; intros Hn a b Ha Hb Hab; [destruct Ha|].
  apply NoDup_cons_iff in Hn as [Hx Hn].
  destruct Ha as [->|Ha], Hb as [->|Hb]; auto.
  - exfalso. apply Hx. rewrite Hab. apply in_map. exact Hb.
  - exfalso. apply Hx. rewrite <- Hab. apply in_map. exact Ha.
Qed.

Lemma nodup_map_inj {A B} (f : A -> B) (l : list A) :
  NoDup l -> (forall a b, In a l -> In b l -> f a = f b -> a = b) -> NoDup (map f l).
Proof.
  induction l as [|x r IH]; cbn [map]; intros Hn Hinj; [constructor|].
  apply NoDup_cons_iff in Hn as [Hx Hn]. constructor.
  - intros Hin. apply in_map_iff in Hin as (y & Hy & Hyr).
    assert (y = x) by (apply Hinj; [right; exact Hyr | left; reflexivity | exact Hy]). subst y. auto.
  - apply IH; [exact Hn|]. intros a b Ha Hb. apply Hinj; right; assumption.
Qed.

Lemma nodup_concat_in {A} (ls : list (list A)) l :
  NoDup (concat ls) -> In l ls -> NoDup l.
Proof.
  induction ls as [|x r IH]; cbn [concat]; [intros _ []|].
  intros H [->|Hl]; apply nodup_app in H as (H1 & H2 & _); auto.
Qed.

Lemma nodup_concat_sub {X Y} (f g : X -> list Y) l :
  NoDup (concat (map f l)) -> (forall x, In x l -> NoDup (f x) -> NoDup (g x) /\ incl (g x) (f x)) -> NoDup (concat (map g l)).
Proof.
  induction l as [|x l IH]; cbn [map concat]; intros Hn H; [constructor|]. apply nodup_app in Hn as (H1 & H2 & H3).
  destruct (H x (or_introl eq_refl) H1) as [G1 G2]. apply nodup_app. split; [exact G1|].
  split; [apply IH; [exact H2 | intros y Hy; apply H; right; exact Hy]|].
  intros e He He2. apply (H3 e (G2 e He)). apply in_concat_map in He2 as (y & Hy & He2). apply in_concat_map. exists y. split; [exact Hy|].
  eapply nodup_concat_in in H2; [|apply in_map, Hy]. apply (H y (or_intror Hy) H2), He2.
Qed.

Lemma in_map_of_nat_seq n j : In j (map N.of_nat (seq 0 n)) <-> (j < N.of_nat n)%N.
Proof.
  rewrite in_map_iff. split.
  - intros (i & <- & Hi). apply in_seq in Hi. lia.
  - intro H. exists (N.to_nat j). split; [lia|]. apply in_seq. lia.
Qed.

Lemma map_nth_seq : forall {A} (l : list A) d, map (fun i => nth i l d) (seq 0 (length l)) = l.
Proof.
  intros A l d. induction l as [|x l IH]; cbn [length seq map nth]; [reflexivity|].
  f_equal. rewrite <- seq_shift, map_map. exact IH.
Qed.

Lemma nodup_map_of_nat_seq n : NoDup (map N.of_nat (seq 0 n)).
Proof. apply FinFun.Injective_map_NoDup; [intros a b H; lia|apply seq_NoDup]. Qed.

Lemma Permutation_filter {A} (p : A -> bool) l l' : Permutation l l' -> Permutation (filter p l) (filter p l').
Proof.
  induction 1 as [|x l l' _ IH|x y l|l l' l'' _ IH1 _ IH2]; cbn [filter].
  - constructor.
  - destruct (p x); [constructor|]; exact IH.
  - destruct (p x), (p y); try apply Permutation_refl. apply perm_swap.
  - eapply perm_trans; eassumption.
Qed.

Lemma filter_split_perm {A} (p : A -> bool) l :
  Permutation l (filter p l ++ filter (fun x => negb (p x)) l).
Proof.
  induction l as [|x l IH]; cbn [filter]; [constructor|].
  destruct (p x); cbn [negb app].
  - constructor. exact IH.
  - apply Permutation_cons_app. exact IH.
Qed.

Lemma Permutation_concat : forall {A} (l l' : list (list A)), Permutation l l' -> Permutation (concat l) (concat l').
Proof.
  intros A l l' H. rewrite <- (map_id l), <- (map_id l'), <- !flat_map_concat_map. apply Permutation_flat_map, H.
Qed.

Lemma concat_perm {A} (l1 l2 : list (list A)) :
  Forall2 (@Permutation A) l1 l2 -> Permutation (concat l1) (concat l2).
Proof. intros H. induction H; cbn [concat]; [apply Permutation_refl | apply Permutation_app; assumption]. Qed.

Lemma flat_map_perm_in {A B} (f g : A -> list B) l :
  (forall x, In x l -> Permutation (f x) (g x)) -> Permutation (flat_map f l) (flat_map g l).
Proof.
  induction l as [|x l IH]; intros H; [constructor|]. cbn [flat_map].
  apply Permutation_app; [apply H; left; reflexivity|apply IH; intros y Hy; apply H; right; exact Hy].
Qed.

Lemma partition_by_key_perm {A K} (key : A -> K) (eqb : K -> K -> bool) :
  (forall a b, eqb a b = true <-> a = b) ->
  forall ks l, NoDup ks -> (forall x, In x l -> In (key x) ks) ->
  Permutation (flat_map (fun k => filter (fun x => eqb (key x) k) l) ks) l.
Proof.
  intros E. induction ks as [|a ks IH]; intros l ND Hin.
  - destruct l as [|x l]; [constructor|destruct (Hin x (or_introl eq_refl))].
  - apply NoDup_cons_iff in ND as [Ha ND]. cbn [flat_map].
    (* the elements under [a], then the others: their keys lie in [ks], and none of them is [a] *)
    eapply Permutation_trans; [|apply Permutation_sym, (filter_split_perm (fun x => eqb (key x) a))].
    apply Permutation_app_head. set (rest := filter (fun x => negb (eqb (key x) a)) l).
    eapply Permutation_trans; [|apply (IH rest ND)].
    + apply Permutation_refl'. apply flat_map_ext_in. intros k Hk. unfold rest. rewrite filter_filter.
      apply filter_ext. intro x. destruct (eqb (key x) k) eqn:Ek; [|now rewrite andb_false_r].
      apply E in Ek. destruct (eqb (key x) a) eqn:Ea; [|reflexivity]. apply E in Ea. congruence.
    + intros x Hx. apply filter_In in Hx as [Hx Hne]. destruct (Hin x Hx) as [Ea|H]; [|exact H].
      rewrite (proj2 (E _ _) (eq_sym Ea)) in Hne. discriminate.
Qed.

Lemma sorted_app {A} (R : A -> A -> Prop) : forall l1 l2, StronglySorted R l1 -> StronglySorted R l2 ->
  (forall a b, In a l1 -> In b l2 -> R a b) -> StronglySorted R (l1 ++ l2).
Proof.
  induction l1 as [|x l1 IH]; intros l2 H1 H2 H; [exact H2|].
  apply StronglySorted_inv in H1 as (H1 & Hx). cbn [app]. constructor.
  - apply IH; [exact H1 | exact H2 | intros a b Ha; apply H; right; exact Ha].
  - apply Forall_app. split; [exact Hx|]. apply Forall_forall. intros b Hb. apply H; [left; reflexivity | exact Hb].
Qed.

Lemma sorted_app_inv {A} (R : A -> A -> Prop) (a b : list A) x y : StronglySorted R (a ++ b) -> In x a -> In y b -> R x y.
Proof.
  induction a as [|z a IH]; cbn [app]; intros Hs Hx Hy; [destruct Hx|].
  apply StronglySorted_inv in Hs as [Hs Hz]. destruct Hx as [->|Hx]; [|auto].
  rewrite Forall_forall in Hz. apply Hz, in_app_iff. right. exact Hy.
Qed.

Lemma sorted_map {A B} (R : A -> A -> Prop) (R' : B -> B -> Prop) (g : A -> B) l :
  (forall a b, In a l -> In b l -> R a b -> R' (g a) (g b)) -> StronglySorted R l -> StronglySorted R' (map g l).
Proof.
  induction l as [|x l IH]; intros Hg Hs; cbn [map]; [constructor|].
  apply StronglySorted_inv in Hs as (Hs & Hx). constructor.
  - apply IH; [|exact Hs]. intros a b Ha Hb. apply Hg; right; assumption.
  - apply Forall_map, Forall_forall. intros b Hb. apply Hg; [left; reflexivity|right; exact Hb|].
    revert b Hb. apply Forall_forall, Hx.
Qed.

Lemma sorted_rev {A} (R : A -> A -> Prop) : forall l, StronglySorted R l -> StronglySorted (fun a b => R b a) (rev l).
Proof.
  induction 1 as [|x l _ IH Hx]; cbn [rev]; [constructor|].
  apply sorted_app; [exact IH | repeat constructor |].
  intros a b Ha [<-|[]]. apply in_rev in Ha. revert a Ha. apply Forall_forall, Hx.
Qed.

Lemma sorted_flat_map {X Y K} (R : K -> K -> Prop) (k : Y -> K) (f : X -> list Y) (id : X -> K) l :
  (forall x, map k (f x) = [] \/ map k (f x) = [id x]) ->
  StronglySorted R (map id l) -> StronglySorted R (map k (flat_map f l)).
Proof.
  intros H.
  assert (Hin : forall l0 b, In b (map k (flat_map f l0)) -> In b (map id l0)).
  { induction l0 as [|x l0 IH]; cbn [flat_map map]; intros b Hb; [exact Hb|]. rewrite map_app, in_app_iff in Hb.
    destruct Hb as [Hb|Hb]; [|right; apply IH, Hb].
    destruct (H x) as [E|E]; rewrite E in Hb; [destruct Hb | destruct Hb as [<-|[]]; left; reflexivity]. }
  induction l as [|x l IH]; cbn [flat_map map]; intros Hs; [constructor|]. apply StronglySorted_inv in Hs as [Hs Hx].
  rewrite map_app. apply sorted_app; [destruct (H x) as [-> | ->]; repeat constructor | apply IH, Hs |].
  intros a b Ha Hb. apply Hin in Hb. rewrite Forall_forall in Hx.
  destruct (H x) as [E|E]; rewrite E in Ha; [destruct Ha | destruct Ha as [<-|[]]; apply Hx, Hb].
Qed.

Lemma sorted_lt_nodup l : StronglySorted N.lt l -> NoDup l.
Proof.
  induction 1 as [|x l _ IH Hx]; constructor; [|exact IH].
  intros Hin. rewrite Forall_forall in Hx. specialize (Hx x Hin). lia.
Qed.

Lemma find_app {A} (p : A -> bool) l1 l2 :
  find p (l1 ++ l2) = match find p l1 with Some x => Some x | None => find p l2 end.
Proof. induction l1 as [|x l1 IH]; cbn [app find]; [reflexivity|]. destruct (p x); [reflexivity | exact IH]. Qed.

Lemma find_map {A B} (p : B -> bool) (q : A -> bool) (g : A -> B) l :
  (forall x, p (g x) = q x) -> find p (map g l) = option_map g (find q l).
Proof. intros H. induction l as [|x l IH]; cbn [map find]; [reflexivity|]. rewrite H. destruct (q x); [reflexivity | exact IH]. Qed.

Lemma find_all {A} (p : A -> bool) l : (forall x, In x l -> p x = true) -> find p l = hd_error l.
Proof. destruct l as [|x l]; intros H; cbn [find]; [reflexivity|]. now rewrite (H x (or_introl eq_refl)). Qed.

Lemma find_none_in {A} (p : A -> bool) l : (forall x, In x l -> p x = false) -> find p l = None.
Proof.
  induction l as [|x l IH]; intros H; cbn [find]; [reflexivity|].
  rewrite (H x (or_introl eq_refl)). apply IH. intros y Hy. apply H. right. exact Hy.
Qed.

Lemma find_sorted {A} (R : A -> A -> Prop) p : forall l, StronglySorted R l ->
  match find p l with
  | Some r => In r l /\ p r = true /\ forall k, In k l -> p k = true -> k = r \/ R r k
  | None => forall k, In k l -> p k = false
  end.
Proof.
  induction 1 as [|x l _ IH Hx]; cbn [find]; [intros k []|].
  destruct (p x) eqn:Px.
  - split; [left; reflexivity|]. split; [exact Px|].
    intros k [<-|Hk] _; [left; reflexivity | right; revert k Hk; apply Forall_forall, Hx].
  - destruct (find p l) as [r|].
    + destruct IH as (Hr & Pr & Hmin). split; [right; exact Hr|]. split; [exact Pr|].
      intros k [<-|Hk] Pk; [congruence | exact (Hmin k Hk Pk)].
    + intros k [<-|Hk]; [exact Px | exact (IH k Hk)].
Qed.

(** [ins] is a sorted insertion, whatever the order, and whether or not it drops a [z] it finds at the head *)
Lemma insert_in {A} (ins : A -> list A -> list A) z :
  ins z [] = [z] ->
  (forall x r, ins z (x :: r) = z :: x :: r \/ (z = x /\ ins z (x :: r) = x :: r) \/ ins z (x :: r) = x :: ins z r) ->
  forall s y, In y (ins z s) <-> y = z \/ In y s.
Proof.
  intros H0 Hs. induction s as [|x r IH]; intros y.
  - rewrite H0. cbn [In]. intuition.
  - destruct (Hs x r) as [E|[[-> E]|E]]; rewrite E; cbn [In]; [| |rewrite IH]; intuition.
Qed.

Lemma fold_insert_in {A} (ins : A -> list A -> list A) :
  (forall z s y, In y (ins z s) <-> y = z \/ In y s) ->
  forall l b y, In y (fold_right ins b l) <-> In y l \/ In y b.
Proof.
  intros H l b y. induction l as [|z l IH]; cbn [fold_right In]; [tauto|]. rewrite H, IH. intuition.
Qed.

(** as in [insert_in], without the case that drops [z] *)
Lemma insert_perm {A} (ins : A -> list A -> list A) z :
  ins z [] = [z] ->
  (forall x r, ins z (x :: r) = z :: x :: r \/ ins z (x :: r) = x :: ins z r) ->
  forall s, Permutation (ins z s) (z :: s).
Proof.
  intros H0 Hs. induction s as [|x r IH]; [rewrite H0; apply Permutation_refl|].
  destruct (Hs x r) as [E|E]; rewrite E; [apply Permutation_refl|].
  eapply Permutation_trans; [apply perm_skip; exact IH|apply perm_swap].
Qed.

Lemma fold_insert_perm {A} (ins : A -> list A -> list A) :
  (forall z s, Permutation (ins z s) (z :: s)) -> forall l, Permutation (fold_right ins [] l) l.
Proof.
  intros H. induction l as [|z l IH]; cbn [fold_right]; [apply Permutation_refl|].
  eapply Permutation_trans; [apply H|apply perm_skip; exact IH].
Qed.

Lemma existsb_false {A} (p : A -> bool) l : existsb p l = false <-> forall x, In x l -> p x = false.
Proof.
  split.
  - intros H x Hx. destruct (p x) eqn:E; [|reflexivity].
    rewrite <- H. symmetry. apply existsb_exists. exists x. split; assumption.
  - intros H. destruct (existsb p l) eqn:E; [|reflexivity].
    apply existsb_exists in E as (x & Hx & Px). rewrite (H x Hx) in Px. discriminate.
Qed.

Lemma forallb_rev {A} (p : A -> bool) l : forallb p l = true -> forallb p (rev l) = true.
Proof. rewrite !forallb_forall. intros H x Hx. apply H, in_rev, Hx. Qed.

(** a membership test written with a decidable equality, whichever way the model spells it *)
Lemma mem_In {A} (eqb : A -> A -> bool) (mem : A -> list A -> bool) :
  (forall a b, eqb a b = true <-> a = b) ->
  (forall x, mem x [] = false) -> (forall x y r, mem x (y :: r) = eqb x y || mem x r) ->
  forall x l, mem x l = true <-> In x l.
Proof.
  intros E H0 H1 x. induction l as [|y r IH]; rewrite ?H0, ?H1; cbn [In]; [split; [discriminate|tauto]|].
  rewrite orb_true_iff, IH, E. split; intros [H|H]; auto.
Qed.

Lemma existsb_eqb_In {A} (eqb : A -> A -> bool) : (forall a b, eqb a b = true <-> a = b) ->
  forall x l, existsb (eqb x) l = true <-> In x l.
Proof. intros E. apply (mem_In eqb _ E); reflexivity. Qed.

Lemma Forall2_map_l {A B} (f : A -> B) (P : B -> A -> Prop) l :
  (forall x, In x l -> P (f x) x) -> Forall2 P (map f l) l.
Proof.
  induction l as [|x l IH]; intros H; cbn [map]; constructor; [apply H; left; reflexivity|].
  apply IH. intros y Hy. apply H. right. exact Hy.
Qed.

Lemma combine_map_map {I A B} (f : I -> A) (g : I -> B) l :
  combine (map f l) (map g l) = map (fun x => (f x, g x)) l.
Proof. induction l as [|x l IH]; [reflexivity|]. cbn [map combine]. rewrite IH. reflexivity. Qed.

Lemma map_snd_combine {A B} (a : list A) (b : list B) : length b <= length a -> map snd (combine a b) = b.
Proof.
  revert b. induction a as [|x a IH]; intros [|y b] H; cbn [length combine map] in *; try reflexivity; [lia|].
  f_equal. apply IH. lia.
Qed.

Lemma Forall2_imp {A B} (R S : A -> B -> Prop) l1 l2 :
  (forall a b, R a b -> S a b) -> Forall2 R l1 l2 -> Forall2 S l1 l2.
Proof. intros H F. induction F; constructor; auto. Qed.

Lemma Forall2_firstn {A B} (R : A -> B -> Prop) n : forall l1 l2,
  Forall2 R l1 l2 -> Forall2 R (firstn n l1) (firstn n l2).
Proof. induction n; intros l1 l2 H; cbn; [constructor|]. inversion H; subst; constructor; auto. Qed.

Lemma Forall2_skipn {A B} (R : A -> B -> Prop) n : forall l1 l2,
  Forall2 R l1 l2 -> Forall2 R (skipn n l1) (skipn n l2).
Proof. induction n; intros l1 l2 H; cbn; [assumption|]. inversion H; subst; [constructor|auto]. Qed.

Lemma firstn_In {A} n : forall (l : list A) x, In x (firstn n l) -> In x l.
Proof. induction n; intros [|y l] x H; cbn in *; try contradiction. destruct H; [left|right]; auto. Qed.

Lemma firstn_NoDup {A} n (l : list A) : NoDup l -> NoDup (firstn n l).
Proof. intros Hn. rewrite <- (firstn_skipn n l) in Hn. apply nodup_app in Hn. apply Hn. Qed.

Lemma firstn_S_hd {A} k (s t : list A) : firstn (S k) s = firstn (S k) t -> hd_error s = hd_error t.
Proof. destruct s, t; cbn; congruence. Qed.

Lemma firstn_S_tl {A} k (s t : list A) : firstn (S k) s = firstn (S k) t -> firstn k (tl s) = firstn k (tl t).
Proof. destruct s, t; cbn; congruence. Qed.

Lemma firstn_S_weaken {A} k (s t : list A) : firstn (S k) s = firstn (S k) t -> firstn k s = firstn k t.
Proof.
  intros H.
  replace (firstn k s) with (firstn k (firstn (S k) s)) by (rewrite firstn_firstn; f_equal; lia).
  replace (firstn k t) with (firstn k (firstn (S k) t)) by (rewrite firstn_firstn; f_equal; lia).
  now rewrite H.
Qed.

Lemma fold_right_min_max l d1 d2 x :
  (d1 <= x <= d2)%Z \/ In x l -> (fold_right Z.min d1 l <= x <= fold_right Z.max d2 l)%Z.
Proof.
  induction l as [|y l IH]; cbn [fold_right In]; [intros [H|[]]; exact H|].
  intros [H|[<-|H]]; [specialize (IH (or_introl H)) | | specialize (IH (or_intror H))]; lia.
Qed.

Lemma fold_left_min_max l : forall d1 d2 x,
  (d1 <= x <= d2)%Z \/ In x l -> (fold_left Z.min l d1 <= x <= fold_left Z.max l d2)%Z.
Proof.
  induction l as [|y l IH]; intros d1 d2 x; cbn [fold_left In]; [intros [H|[]]; exact H|].
  intros H. apply IH. destruct H as [H|[<-|H]]; [left; lia | left; lia | right; exact H].
Qed.

Lemma fold_left_map {A B C} (f : A -> B -> A) (g : C -> B) l : forall a,
  fold_left f (map g l) a = fold_left (fun a x => f a (g x)) l a.
Proof. induction l as [|x l IH]; intros a; cbn [map fold_left]; [reflexivity | apply IH]. Qed.
