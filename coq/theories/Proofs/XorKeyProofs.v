(** Proofs about Model/XorKey.v (C08 part B): builder and probe derive the same key,
    and — given only the contract of the binary-fuse filter — a zone that holds the
    probed value is a candidate.  The zone-level index is a zone map of filters
    ([build_zone_filters_fill]); candidates come from [ZoneSelProofs.zone_map_sound]. *)
From Coq Require Import ZArith List.
From Snel Require Import Gen.Params Model.ZoneSel Model.XorKey Proofs.ZoneSelProofs.
Import ListNotations.
Open Scope N_scope.

Lemma dedup_keys_in : forall l x, In x (dedup_keys l) <-> In x l.
Proof.
  induction l as [|y r IH]; intros x; cbn [dedup_keys]; [reflexivity|].
  destruct (existsb (N.eqb y) r) eqn:E.
  - rewrite IH. cbn. split; [tauto|]. intros [<-|H]; [|assumption].
    apply existsb_exists in E. destruct E as [z [Hz Heq]]. apply N.eqb_eq in Heq. now subst.
  - cbn [In]. rewrite IH. reflexivity.
Qed.

Lemma zone_strings_in : forall cells c s,
  In (Some c) cells -> value_to_string c = Some s -> In s (zone_strings cells).
Proof.
  intros cells c s Hin Hs. unfold zone_strings. apply in_flat_map.
  exists (Some c). split; [assumption|]. rewrite Hs. now left.
Qed.

Lemma zone_keys_in : forall cells c s,
  In (Some c) cells -> value_to_string c = Some s -> In (stable_hash64 s) (zone_keys cells).
Proof.
  intros cells c s Hin Hs. unfold zone_keys. apply dedup_keys_in, in_map.
  eapply zone_strings_in; eassumption.
Qed.

(** on the kinds the probe supports, the field-level builder's string
    ([Event::scalar_to_string]) is the probe's string ([value_to_string]) *)
Lemma scalar_to_string_agrees : forall c s, value_to_string c = Some s -> scalar_to_string c = s.
Proof. intros c s. destruct c; cbn; congruence. Qed.

Lemma field_keys_in : forall zones zid cells c s,
  In (zid, cells) zones -> In (Some c) cells -> value_to_string c = Some s ->
  In (stable_hash64 s) (field_keys zones).
Proof.
  intros zones zid cells c s Hz Hc Hs. unfold field_keys. apply dedup_keys_in, in_map.
  unfold field_strings. apply in_flat_map. exists (zid, cells). split; [assumption|].
  cbn [snd]. assert (Hk : zone_has_key cells = true).
  { unfold zone_has_key. apply existsb_exists. exists (Some c). split; [assumption|reflexivity]. }
  rewrite Hk. apply in_map_iff. exists (Some c). split; [|assumption].
  cbn [get_field_value]. now apply scalar_to_string_agrees.
Qed.

Corollary xor_key_same_value : forall c s, value_to_string c = Some s -> probe_key c = Some (stable_hash64 s).
Proof. intros c s H. unfold probe_key. now rewrite H. Qed.

Theorem xor_key_agree : forall zones zid cells c l s,
  In (zid, cells) zones -> In (Some c) cells ->
  value_to_string c = Some s -> value_to_string l = Some s ->
  exists k, probe_key l = Some k /\ In k (zone_keys cells) /\ In k (field_keys zones).
Proof.
  intros zones zid cells c l s Hz Hc Hs Hl. exists (stable_hash64 s).
  split; [exact (xor_key_same_value l s Hl)|].
  split; [eapply zone_keys_in; eassumption|eapply field_keys_in; eassumption].
Qed.

Example xor_cross_kind_keys :
  probe_key (SInt 5) = probe_key (SUtf8 [53]) /\ probe_key (STs 5) = probe_key (SInt 5) /\
  probe_key (SBool true) = probe_key (SUtf8 [116; 114; 117; 101]) /\
  probe_key (SFloat [50]) = probe_key (SInt 2).
Proof. repeat split. Qed.

Section Fuse.
  Variable fuse : Type.
  Variable fbuild : list N -> option fuse.
  Variable fcontains : fuse -> N -> bool.
  (** the ONLY assumption about the binary-fuse filter *)
  Hypothesis fuse_contract : forall ks f k, fbuild ks = Some f -> In k ks -> fcontains f k = true.

  Definition zone_filter (cells : list (option scalar)) : option fuse :=
    match zone_strings cells with [] => None | _ => fbuild (zone_keys cells) end.

  Lemma build_zone_filters_fill : forall zones acc,
    build_zone_filters fuse fbuild zones acc = am_fill zone_filter zones acc.
  Proof.
    induction zones as [|[z cells] r IH]; intros acc; [reflexivity|].
    rewrite am_fill_cons. unfold zone_filter. cbn [build_zone_filters].
    destruct (zone_strings cells); [apply IH|]. destruct (fbuild (zone_keys cells)); apply IH.
  Qed.

  Lemma zone_filter_sound : forall zones zid cells l k inflight all,
    NoDup (map fst zones) -> In (zid, cells) zones ->
    probe_key l = Some k -> In k (zone_keys cells) -> fbuild (zone_keys cells) <> None ->
    In zid (select_zxf fuse fcontains (build_for_field fuse fbuild zones) inflight all OEq l).
  Proof.
    intros zones zid cells l k inflight all Hnd Hin Hp Hk Hf.
    destruct (fbuild (zone_keys cells)) as [f|] eqn:Ef; [|congruence].
    assert (Hzf : zone_filter cells = Some f).
    { revert Hk. unfold zone_filter, zone_keys at 1. destruct (zone_strings cells); [intros []|intros _; exact Ef]. }
    pose proof (zone_map_sound zone_filter (fun f => fcontains f k) zones [] zid cells f Hnd Hin Hzf (fuse_contract _ _ _ Ef Hk)) as Hz.
    unfold select_zxf, apply_zone_index_only, build_for_field. cbn [op_answered negb]. rewrite build_zone_filters_fill.
    (* [Hz] names a candidate, so the map is not empty and the index file was written *)
    destruct (am_fill zone_filter zones []) as [|e r] eqn:Eb; [destruct Hz|].
    rewrite select_some by apply bypass_eq. unfold zones_maybe_containing. rewrite Hp. exact Hz.
  Qed.

  Lemma field_filter_sound : forall zones l k f all,
    probe_key l = Some k -> In k (field_keys zones) -> build_field_filter fuse fbuild zones = Some f ->
    select_xf fuse fcontains (Some f) all OEq l = all.
  Proof.
    intros zones l k f all Hp Hk Hf. unfold build_field_filter in Hf.
    destruct (field_keys zones) as [|k0 ks] eqn:E; [contradiction|].
    unfold select_xf, apply_presence_only, contains_value. cbn [op_answered negb].
    rewrite Hp, (fuse_contract _ _ _ Hf Hk). reflexivity.
  Qed.

  (** The filters know keys, not values: values enter through [xor_key_agree] only. *)
  Theorem xor_zone_sound : forall zones zid cells c l s inflight all,
    NoDup (map fst zones) -> In (zid, cells) zones -> In (Some c) cells ->
    value_to_string c = Some s -> value_to_string l = Some s ->
    fbuild (zone_keys cells) <> None ->
    In zid (select_zxf fuse fcontains (build_for_field fuse fbuild zones) inflight all OEq l).
  Proof.
    intros zones zid cells c l s inflight all Hnd Hin Hc Hs Hl.
    destruct (xor_key_agree zones zid cells c l s Hin Hc Hs Hl) as (k & Hp & Hk & _).
    now apply (zone_filter_sound zones zid cells l k).
  Qed.

  Theorem xor_field_sound : forall zones zid cells c l s f all,
    In (zid, cells) zones -> In (Some c) cells ->
    value_to_string c = Some s -> value_to_string l = Some s ->
    build_field_filter fuse fbuild zones = Some f ->
    select_xf fuse fcontains (Some f) all OEq l = all.
  Proof.
    intros zones zid cells c l s f all Hin Hc Hs Hl.
    destruct (xor_key_agree zones zid cells c l s Hin Hc Hs Hl) as (k & Hp & _ & Hk).
    now apply (field_filter_sound zones l k).
  Qed.

  (** A zone whose filter construction failed can never be a candidate (latent: the
      failure is not deterministically reachable, notes/C08B.md). *)
  Theorem xor_failed_construction_loses_zone : forall zones zid cells l,
    NoDup (map fst zones) -> In (zid, cells) zones ->
    fbuild (zone_keys cells) = None ->
    forall fs, build_for_field fuse fbuild zones = Some fs ->
    ~ In zid (zones_maybe_containing fuse fcontains fs l).
  Proof.
    intros zones zid cells l Hnd Hin Hf fs Hb Hz.
    assert (Hnone : am_get zid (build_zone_filters fuse fbuild zones []) = None).
    { rewrite build_zone_filters_fill, (am_fill_get zone_filter zones [] zid cells Hnd Hin). unfold zone_filter.
      rewrite Hf. now destruct (zone_strings cells). }
    unfold build_for_field in Hb.
    destruct (build_zone_filters fuse fbuild zones []) as [|e r] eqn:Eb; [discriminate|].
    injection Hb as <-. unfold zones_maybe_containing in Hz.
    destruct (probe_key l) as [k|]; [|contradiction].
    apply zs_of_list_in, in_map_iff in Hz. destruct Hz as [[z f] [Hz1 Hz2]]. cbn [fst] in Hz1. subst z.
    apply filter_In in Hz2. destruct Hz2 as [Hz2 _].
    exact (am_in_get _ _ _ Hz2 Hnone).
  Qed.

  (** Any operator other than [=]: the selector takes every zone of the segment without consulting the xor
      structures, in flight or not (sneldb commit f801704; in Gen/Params.v the two flags below). *)
  Lemma zxf_noneq_bypass_flag : zidx_sel_zxf_noneq_bypass = true. Proof. reflexivity. Qed.
  Lemma xf_noneq_bypass_flag : zidx_sel_xf_noneq_bypass = true. Proof. reflexivity. Qed.

  Lemma xor_non_eq_all_zones : forall ix inflight all op l,
    op <> OEq -> select_zxf fuse fcontains ix inflight all op l = all.
  Proof.
    intros ix inflight all op l Hop. unfold select_zxf.
    apply select_bypass, (bypass_on SZoneXor op zxf_noneq_bypass_flag Hop).
  Qed.
  Lemma xor_presence_non_eq_all_zones : forall f all op l,
    op <> OEq -> select_xf fuse fcontains f all op l = all.
  Proof.
    intros f all op l Hop. unfold select_xf.
    apply select_bypass, (bypass_on SXorPresence op xf_noneq_bypass_flag Hop).
  Qed.

  (** [=] through the filter contract, any other operator because all zones of the segment ([all]) are scanned. *)
  Theorem xor_sound_all_operators : forall zones zid cells c l s op inflight all,
    In zid all ->
    NoDup (map fst zones) -> In (zid, cells) zones -> In (Some c) cells ->
    value_to_string c = Some s -> value_to_string l = Some s ->
    fbuild (zone_keys cells) <> None ->
    In zid (select_zxf fuse fcontains (build_for_field fuse fbuild zones) inflight all op l).
  Proof.
    intros zones zid cells c l s op inflight all Hall Hnd Hin Hc Hs Hl Hf.
    destruct (cmp_op_eqb op OEq) eqn:E.
    - destruct op; try discriminate. eapply xor_zone_sound; eassumption.
    - rewrite xor_non_eq_all_zones; [assumption|]. intros ->. discriminate.
  Qed.
End Fuse.

(** the witness of class [XorNonEqOperator] (known/C08.json, status fixed) keeps its zone, for every filter
    implementation *)
Example xor_neq_witness_passes :
  forall (fuse : Type) (fbuild : list N -> option fuse) (fcontains : fuse -> N -> bool),
    select_zxf fuse fcontains (build_for_field fuse fbuild [(0, [Some (SInt 2)])]) false [0] ONeq (SInt 1) = [0].
Proof. intros. apply xor_non_eq_all_zones. discriminate. Qed.

Example xor_sound_hyps_ok :
  let zones := [(0, [Some (SInt 5); None]); (1, [Some (SUtf8 [53]); Some SNull]); (2, [None; Some SNull])] in
  (forall ks f k, exact_build ks = Some f -> In k ks -> exact_contains f k = true) /\
  NoDup (map fst zones) /\ exact_build (zone_keys [Some (SInt 5); None]) <> None /\
  select_zxf _ exact_contains (build_for_field _ exact_build zones) false [0; 1; 2] OEq (SInt 5) = [0; 1].
Proof.
  cbn zeta. split.
  - intros ks f k [= <-] Hin. unfold exact_contains. apply existsb_exists. exists k. split; [assumption|apply N.eqb_refl].
  - split; [repeat constructor; cbn; intuition discriminate|].
    split; [discriminate|]. vm_compute. reflexivity.
Qed.
