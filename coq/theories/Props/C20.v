(** C20 — every response encoding carries the same rows and values.
    This file contains only the property theorems, each closed by [exact], with [Print Assumptions]
    beneath.  Model: Model/Render.v ([write_json], [write_arrow], [json_cell], [arrow_cell],
    [render_error], [http_status_of_error], [known_class] are the functions that are extracted and
    run against the real QueryResponseWriter / ShowResponseWriter / JsonRenderer / UnixRenderer /
    ArrowStreamEncoder); proofs and the specification-level definitions used below ([wf_batches],
    [arrow_row_of], [row_outside_known]): Proofs/RenderProofs.v.

    [wf_batches cols bs]: every row has one cell per column (enforced by [ColumnBatch::new]).

    KnownClass (decidable, in the model): [known_class lt v] with the eight classes of [kclass]
    for cells, [http_known s msg] for the error clause. *)
From Coq Require Import NArith ZArith List Bool.
From Snel Require Import Base.Bytes Gen.Params Model.Render Proofs.RenderProofs.
Import ListNotations.
Open Scope N_scope.

(** The row count announced in the end frame equals the number of rows carried by the batch / row
    frames (batch size 0 = one frame per row). *)
Theorem C20_row_count_matches : forall cfg cols bs,
  json_announced (write_json cfg cols bs) = Some (N.of_nat (length (json_rows (write_json cfg cols bs)))).
Proof. exact row_count_matches. Qed.
Print Assumptions C20_row_count_matches.

(** The QUERY writer hands to every renderer exactly LIMIT (OFFSET (rows with the first occurrence
    of each event id)), independent of how the stream is cut into batches. *)
Theorem C20_writer_spec : forall cfg cols bs,
  w_kind cfg = WQuery ->
  accepted_rows cfg cols bs = writer_spec cfg cols bs.
Proof. exact writer_spec_query. Qed.
Print Assumptions C20_writer_spec.

(** All encoders receive the same accepted rows in the same order, and the same column names: the
    JSON / text frames carry their [to_json] images, each Arrow record batch carries them through
    the whole-batch or the row-index conversion. *)
Theorem C20_writer_same_rows : forall cfg cols bs,
  wf_batches cols bs ->
  json_names (write_json cfg cols bs) = map c_name cols /\
  arrow_names (write_arrow cfg cols bs) = map c_name cols /\
  json_rows (write_json cfg cols bs) = map json_row (accepted_rows cfg cols bs) /\
  Forall2 (arrow_row_of cols) (arrow_rows (write_arrow cfg cols bs)) (accepted_rows cfg cols bs).
Proof. exact writer_same_rows. Qed.
Print Assumptions C20_writer_same_rows.

(** A cell whose runtime kind matches the declared column type, and which is not a string holding
    an array/object text, a string holding a u64 above i64::MAX, or a non-finite float, decodes to
    the same value from JSON, text and both Arrow conversions (numbers numerically, nulls as nulls,
    strings byte-identical). *)
Theorem C20_cells_agree_typed : forall lt v,
  kind_matches (arrow_type_schema lt) v = true -> reparsed_or_nonfinite v = false ->
  cell_all_agree lt v = true.
Proof. exact cells_agree_typed. Qed.
Print Assumptions C20_cells_agree_typed.

(** The agreement claim at full strength is FALSE of the model (and of the code): one single-cell
    witness for each of seven of the eight classes (none for NonTimestampInTimestampColumn) —
    "18446744073709551615" in an Integer column (JSON number, Arrow null), the
    string "[1,2]" in a String column (JSON array, Arrow string), NaN in a Float column (JSON null),
    1.5 in an Integer column, 2^53 + 1 in a Float column (f64 cannot hold it), the integer 1 in a
    Boolean / String column. *)
Theorem C20_agree_refuted :
  cell_all_agree s_integer (SUtf8 s_u64max None (Some 4895412794951729152)) = false /\
  json_cell (SUtf8 s_u64max None (Some 4895412794951729152)) = DInt 18446744073709551615 /\
  arrow_cell PWhole s_integer (SUtf8 s_u64max None (Some 4895412794951729152)) = DNull /\
  cell_all_agree s_string (SUtf8 [91;49;44;50;93] (Some [91;49;44;50;93]) None) = false /\
  cell_all_agree s_float (SFloat nan_bits [78;97;78]) = false /\
  cell_all_agree s_integer (SFloat 4609434218613702656 [49;46;53]) = false /\
  cell_all_agree s_float (SInt 9007199254740993) = false /\
  cell_all_agree s_boolean (SInt 1) = false /\
  cell_all_agree s_string (SInt 1) = false.
Proof. exact agree_refuted. Qed.
Print Assumptions C20_agree_refuted.

(** ... also as a whole response (one Integer column, one row). *)
Theorem C20_responses_agree_refuted :
  exists cfg cols bs, wf_batches cols bs /\ responses_agree cfg cols bs = false.
Proof. exact responses_agree_refuted. Qed.
Print Assumptions C20_responses_agree_refuted.

(** The two Arrow conversions disagree with each other (which one is taken depends on whether every
    row of the batch was accepted): "42" in an Integer column is 42 / null, "true" in a Boolean
    column is true / null.  (What the name calls refuted is their agreement; the theorem exhibits the
    disagreement.) *)
Theorem C20_arrow_paths_disagree_refuted :
  cell_agree (arrow_cell PWhole s_integer (SUtf8 [52;50] None (Some 4631107791820423168)))
             (arrow_cell PRow s_integer (SUtf8 [52;50] None (Some 4631107791820423168))) = false /\
  arrow_cell PWhole s_integer (SUtf8 [52;50] None (Some 4631107791820423168)) = DInt 42 /\
  arrow_cell PRow s_integer (SUtf8 [52;50] None (Some 4631107791820423168)) = DNull /\
  arrow_cell PWhole s_boolean (SUtf8 [116;114;117;101] None None) = DBool true /\
  arrow_cell PRow s_boolean (SUtf8 [116;114;117;101] None None) = DNull.
Proof. exact arrow_paths_disagree. Qed.
Print Assumptions C20_arrow_paths_disagree_refuted.

(** The two conversions agree on every Int64 cell of a Float column: both write [z as f64] (sneldb
    fba8206: the whole-batch builder takes integer cells as the row-index builder does). *)
Theorem C20_arrow_paths_agree_int_in_float : forall lt z,
  arrow_type_schema lt = AFloat64 ->
  arrow_cell PWhole lt (SInt z) = arrow_cell PRow lt (SInt z) /\
  arrow_cell PWhole lt (SInt z) = DFloat (f64_of_Z z).
Proof. exact arrow_paths_agree_int_in_float. Qed.
Print Assumptions C20_arrow_paths_agree_int_in_float.

(** The known classes are exact (of the Int64 cells of a Float column, NonFloatInFloatColumn holds those
    that f64 does not hold exactly): a cell decodes alike from every encoding if and only if it is
    outside all eight classes. *)
Theorem C20_known_class_exact : forall lt v,
  known_class lt v = None <-> cell_all_agree lt v = true.
Proof. exact known_class_exact. Qed.
Print Assumptions C20_known_class_exact.

(** The strongest true form of the property: if no cell of an emitted row lies in a known class,
    the JSON (= text) stream and the Arrow stream decode to the same column names, the same number
    of rows, pairwise agreeing cells, and the announced row count is the number of rows. *)
Theorem C20_agree_outside_known : forall cfg cols bs,
  wf_batches cols bs ->
  Forall (row_outside_known cols) (accepted_rows cfg cols bs) ->
  responses_agree cfg cols bs = true.
Proof. exact agree_outside_known. Qed.
Print Assumptions C20_agree_outside_known.

(** Error responses: the status a reader finds in the body is the same in the three encodings.  Only the
    text conjunct reads the rendered bytes (the leading number is parsed back, whatever the message); for
    the JSON and the Arrow-fallback body [body_status] is by definition the member the renderer writes,
    the JSON reader not being modelled, so those two conjuncts hold by [reflexivity]. *)
Theorem C20_error_status_same_body : forall s msg,
  body_status EJson s msg = Some (status_code s) /\
  body_status EText s msg = Some (status_code s) /\
  body_status EArrow s msg = Some (status_code s).
Proof. exact error_status_same_body. Qed.
Print Assumptions C20_error_status_same_body.

(** The text rendering of an error of any length is answered with the error's own HTTP status (sneldb
    c214409: the dispatcher reads the three leading digits, [render_http_text_header]). *)
Theorem C20_http_text_status_correct : forall s msg, http_status_of_error EText s msg = status_code s.
Proof. exact http_text_status_correct. Qed.
Print Assumptions C20_http_text_status_correct.

(** ... and so are the JSON rendering and the Arrow renderer's JSON fallback as long as the body stays
    below the full-parse limit (the word "status" is looked for in all of the parsed part,
    [render_http_sniff_window = None]). *)
Theorem C20_http_status_correct_outside_known : forall s msg,
  N.of_nat (length (render_error EJson s msg)) < render_http_parse_full_below ->
  N.of_nat (length (render_error EArrow s msg)) < render_http_parse_full_below ->
  http_status_of_error EJson s msg = status_code s /\
  http_status_of_error EText s msg = status_code s /\
  http_status_of_error EArrow s msg = status_code s.
Proof. exact http_status_correct_outside_known. Qed.
Print Assumptions C20_http_status_correct_outside_known.

(** The claim "same status in every encoding" is FALSE for long messages: a 400 with a
    460-byte message has a JSON / Arrow body above 500 bytes, of which only the first 200 are
    parsed (HTTP 200), while its text rendering is answered with 400. *)
Theorem C20_http_status_same_refuted :
  http_status_same StBadRequest long_msg = false /\
  http_status_of_error EJson StBadRequest long_msg = 200 /\
  http_status_of_error EArrow StBadRequest long_msg = 200 /\
  http_status_of_error EText StBadRequest long_msg = 400 /\
  http_known StBadRequest long_msg = true.
Proof. exact http_status_same_refuted. Qed.
Print Assumptions C20_http_status_same_refuted.

(** Outside the known class (an error whose JSON / Arrow body reaches the full-parse limit) the three
    encodings are answered with the same status. *)
Theorem C20_http_status_outside_known : forall s msg,
  http_known s msg = false -> http_status_same s msg = true.
Proof. exact http_status_outside_known. Qed.
Print Assumptions C20_http_status_outside_known.
