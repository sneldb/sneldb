(** C07 — stored values come back unchanged from every storage tier.
    This file contains only the property theorems, each closed by [exact], with [Print Assumptions]
    beneath.  Models: Model/{Float64,RustText,JsonV7,ValueTiers}.v; proofs:
    Proofs/{ValueTextProofs,ValueTiersProofs,ValueProjProofs}.v.

    [returned t l cp v]: the JSON cell QUERY/REPLAY return for a payload entry [v] (None = key absent) of a
    field of declared type [t] in layout [l] = (recovered from the WAL?, in memory | in a segment compacted
    n times); [cp] = some row of the zone carries the key.  [expected v] = the stored value (null for an
    absent key); [json_eqb] compares numbers numerically (floats among themselves bit-wise). *)
From Coq Require Import ZArith NArith List Bool.
From Snel Require Import Base.Bytes Model.Float64 Model.RustText Model.JsonV7 Model.ValueTiers.
From Snel Require Import Proofs.ValueTiersProofs Proofs.ValueProjProofs.
Import ListNotations.
Open Scope Z_scope.

(** The round trip is FALSE of the code: one conforming witness per mechanism —
    the string "[1]" from memory (to_json re-parses it), the string "123" after FLUSH (EventBuilder
    re-types it), null in an optional string after FLUSH (var-bytes columns have no null bitmap),
    9007199254740993 in a float field after FLUSH.  (A float after WAL recovery is no witness: the WAL line
    is exact, C07_wal_exact.) *)
Theorem C07_roundtrip_refuted :
  fails Utf8ReparsedOnRender TStr L_mem true (Some (JStr [91; 49; 93]%N)) /\
  fails StringRetyped TStr L_seg true (Some (JStr [49; 50; 51]%N)) /\
  fails NullStringBecomesEmpty (TOpt TStr) L_seg true (Some JNull) /\
  fails IntegerInFloatFieldRounded TF64 L_seg true (Some (JU64 9007199254740993)).
Proof. exact roundtrip_refuted. Qed.
Print Assumptions C07_roundtrip_refuted.

(** Outside the four classes every conforming value of every definable field type comes back equal to
    what was stored, in every layout. *)
Theorem C07_roundtrip_outside_known : forall t l cp v,
  definable t = true -> conforming t v = true -> col_consistent cp v = true ->
  known t l cp v = false ->
  json_eqb (returned t l cp v) (expected v) = true.
Proof. exact roundtrip_outside_known. Qed.
Print Assumptions C07_roundtrip_outside_known.

(** its hypotheses are satisfiable in all six layouts (u64::MAX, i64::MIN, floats, non-ASCII strings, "NaN",
    enum variants, times, nulls, absent keys) *)
Theorem C07_roundtrip_outside_known_example :
  forallb (fun l => forallb (fun tv =>
     definable (fst tv) && conforming (fst tv) (snd tv) && col_consistent true (snd tv) &&
     negb (known (fst tv) l true (snd tv)) &&
     json_eqb (returned (fst tv) l true (snd tv)) (expected (snd tv))) sample_inputs) L_all = true.
Proof. exact roundtrip_outside_known_example. Qed.
Print Assumptions C07_roundtrip_outside_known_example.

(** The classes are tight: every conforming input of a class really comes back changed, in every layout.
    (The hypothesis on the render-time class is not used by the proof: a string that to_json re-parses comes
    back changed from a segment as well.) *)
Theorem C07_known_classes_fail : forall k t l cp v,
  definable t = true -> conforming t v = true -> col_consistent cp v = true ->
  in_class k t l cp v = true ->
  (k = Utf8ReparsedOnRender -> in_memory l = true) ->
  json_eqb (returned t l cp v) (expected v) = false.
Proof. exact known_classes_fail. Qed.
Print Assumptions C07_known_classes_fail.

(** Tiers disagree inside the classes ... *)
Theorem C07_tiers_agree_refuted :
  json_eqb (returned TStr L_mem true (Some (JStr [49; 50; 51]%N))) (returned TStr L_seg true (Some (JStr [49; 50; 51]%N))) = false /\
  json_eqb (returned (TOpt TStr) L_mem true (Some JNull)) (returned (TOpt TStr) L_seg true (Some JNull)) = false /\
  json_eqb (returned TF64 L_mem true (Some (JU64 9007199254740993))) (returned TF64 L_seg true (Some (JU64 9007199254740993))) = false.
Proof. exact tiers_agree_refuted. Qed.
Print Assumptions C07_tiers_agree_refuted.

(** ... and agree outside the three tier-dependent ones (strings that to_json re-parses are returned
    parsed, but identically, before flush, after flush, after compaction and after restart). *)
Theorem C07_tiers_agree_outside_known : forall t l1 l2 cp1 cp2 v,
  definable t = true -> conforming t v = true ->
  col_consistent cp1 v = true -> col_consistent cp2 v = true ->
  tier_known t l1 cp1 v = false -> tier_known t l2 cp2 v = false ->
  json_eqb (returned t l1 cp1 v) (returned t l2 cp2 v) = true.
Proof. exact tiers_agree_outside_known. Qed.
Print Assumptions C07_tiers_agree_outside_known.

(** A zone column holding any mix of values, nulls and absent keys is read back cell by cell ... *)
Theorem C07_zone_pointwise : forall t l vs,
  returned_zone t l vs = map (returned t l (zone_col_present vs)) vs.
Proof. exact zone_pointwise. Qed.
Print Assumptions C07_zone_pointwise.

(** ... so every cell of the zone outside the classes comes back as stored. *)
Theorem C07_zone_roundtrip : forall t l vs,
  definable t = true ->
  Forall (fun v => conforming t v = true /\ known t l (zone_col_present vs) v = false) vs ->
  Forall2 (fun r v => json_eqb r (expected v) = true) (returned_zone t l vs) vs.
Proof. exact zone_roundtrip. Qed.
Print Assumptions C07_zone_roundtrip.

(** Compaction re-writes a flushed cell to itself, for every physical type and every scalar. *)
Theorem C07_compaction_fixpoint : forall n p s, iter_compact n p (write_cell p s) = write_cell p s.
Proof. exact iter_compact_fix. Qed.
Print Assumptions C07_compaction_fixpoint.

(** Which var-bytes cells EventBuilder re-types: exactly those whose text, after Unicode trimming, is
    true/false/null or reads as a u64, an i64 or a FINITE float in Rust's grammar; the only candidates that
    survive unchanged are canonical unsigned integers above i64::MAX. *)
Theorem C07_string_retyped_characterised : forall s,
  (retype_candidate s = false -> add_payload_field s = SUtf8 s) /\
  (retype_candidate s = true ->
     add_payload_field s <> SUtf8 s \/
     exists u, parse_u64 (utrim s) = Some u /\ i64_max < u /\ s = dec_of_Z u).
Proof. exact string_retyped_characterised. Qed.
Print Assumptions C07_string_retyped_characterised.

(** RETURN (compute_return_projection), for a flow whose rows are filled in the order of the batch schema
    (the segment flow; the memtable flow without RETURN): every cell holds the value of the column it is
    named after; only core columns and requested schema fields are returned; core columns are never
    dropped; requested schema fields are returned; without RETURN every column is returned. *)
Theorem C07_projection : forall (A : Type) (d : A) cols ret fields (ev : bytes -> A),
  (forall name val, In (name, val) (flow_row d cols cols ret fields ev) -> val = ev name /\ In name cols) /\
  (forall fs name val, ret = Some fs -> fs <> [] -> In (name, val) (flow_row d cols cols ret fields ev) ->
     is_core name = true \/ (In name fs /\ mem_bytes name fields = true)) /\
  (forall c, In c core_fields -> In c cols -> In (c, ev c) (flow_row d cols cols ret fields ev)) /\
  (forall fs f, ret = Some fs -> In f fs -> mem_bytes f fields = true -> In f cols ->
     In (f, ev f) (flow_row d cols cols ret fields ev)) /\
  (forall f, (ret = None \/ ret = Some []) -> In f cols -> In (f, ev f) (flow_row d cols cols ret fields ev)).
Proof. exact projection_exact. Qed.
Print Assumptions C07_projection.

Theorem C07_projection_example :
  flow_row 0%Z (selection_columns [] [f_b; f_a]) (selection_columns [] [f_b; f_a]) (Some [f_a; f_b]) [f_a; f_b] ev_ab
  = [(nth 0 core_fields [], 0%Z); (nth 1 core_fields [], 0%Z); (nth 2 core_fields [], 0%Z); (nth 3 core_fields [], 0%Z);
     (f_a, 1%Z); (f_b, 2%Z)].
Proof. exact projection_example. Qed.
Print Assumptions C07_projection_example.

(** The requested names are appended in RETURN order (sneldb f2ae870, [value_return_order_stable]; [o1], [o2]
    stand for the iteration orders of a HashSet, which [appended_order] reads only with that flag off): the
    memtable flow under ANY RETURN list returns every cell under the column it is named after, only core
    columns and requested schema fields, never drops a core column and returns every requested schema field. *)
Theorem C07_memtable_flow_exact : forall (A : Type) (d : A) fc ret fields o1 o2 (ev : bytes -> A),
  (forall name val, In (name, val) (memtable_flow_row d fc ret fields o1 o2 ev) -> val = ev name) /\
  (forall name val, ret <> [] -> In (name, val) (memtable_flow_row d fc ret fields o1 o2 ev) ->
     is_core name = true \/ (In name ret /\ mem_bytes name fields = true)) /\
  (forall c, In c core_fields -> In (c, ev c) (memtable_flow_row d fc ret fields o1 o2 ev)) /\
  (forall f, In f ret -> mem_bytes f fields = true -> In (f, ev f) (memtable_flow_row d fc ret fields o1 o2 ev)).
Proof. exact memtable_flow_exact. Qed.
Print Assumptions C07_memtable_flow_exact.

(** With serde_json's float_roundtrip reader (sneldb 32b7370, class FloatWalReparsedInexact of known/C07.json)
    the WAL line is exact for every payload scalar, so a WAL-recovering restart never changes what any layout
    returns.  For floats this is how the model defines [wal_float] under the flag
    [value_serde_float_roundtrip]: that ryu's shortest digits read back as the same double is assumed
    (Model/ValueTiers.v) and tied to the code by the value_wal probe only; the two theorems restate that
    modelling decision for every scalar and layout. *)
Theorem C07_wal_exact : forall s,
  (forall b, s = SFloat b -> f64_is_finite b = true) -> wal_scalar s = s.
Proof. exact wal_exact. Qed.
Print Assumptions C07_wal_exact.

Theorem C07_restart_invisible : forall t seg cp v,
  conforming t v = true ->
  returned t {| via_wal := true; in_seg := seg |} cp v = returned t {| via_wal := false; in_seg := seg |} cp v.
Proof. exact restart_invisible. Qed.
Print Assumptions C07_restart_invisible.

(** Two closed instances of the theorems above: the float 446.19296929045356 comes back exactly after WAL
    recovery, while the reader without float_roundtrip ([wal_float_legacy], kept in the model for comparison)
    changes its last bit; and the RETURN [a, b] row is the same under two different set orders. *)
Theorem C07_former_witnesses_pass :
  (returned TF64 L_wal true (Some (JF64 4646557125919078934)) = JF64 4646557125919078934 /\
   wal_float_legacy 4646557125919078934 = SFloat 4646557125919078935) /\
  memtable_flow_row 0%Z [] [f_a; f_b] [f_a; f_b] [f_a; f_b] [f_b; f_a] ev_ab
  = [(nth 0 core_fields [], 0%Z); (nth 1 core_fields [], 0%Z); (nth 2 core_fields [], 0%Z); (nth 3 core_fields [], 0%Z);
     (f_a, 1%Z); (f_b, 2%Z)].
Proof. exact (conj wal_float_former_witness memtable_flow_former_witness). Qed.
Print Assumptions C07_former_witnesses_pass.

(** EventSink (which no QUERY or REPLAY path of sneldb constructs: only its unit test does) and
    ConditionEvaluator (QUERY / REPLAY) materialise every payload cell identically: EventSink's extra
    [get_i64_at] attempt on var-bytes cells gives what add_payload_field gives. *)
Theorem C07_sink_agrees : forall c, read_cell_sink c = read_cell c.
Proof. exact read_cell_sink_agrees. Qed.
Print Assumptions C07_sink_agrees.

(** The core string fields are values too.  context_id and event_type come back as the stored text from
    every layout unless to_json re-parses the text (class Utf8ReparsedOnRender: a context id such as
    "9999999999999999999" or "[1]" is returned as a number / an array, identically in every tier). *)
Theorem C07_core_roundtrip_outside_known : forall l s, utf8_reparsed s = false -> returned_core l s = JStr s.
Proof. exact core_roundtrip_outside_known. Qed.
Print Assumptions C07_core_roundtrip_outside_known.

Theorem C07_core_known_fails : forall l s, utf8_reparsed s = true -> json_eqb (returned_core l s) (JStr s) = false.
Proof. exact core_known_fails. Qed.
Print Assumptions C07_core_known_fails.

Theorem C07_core_refuted :
  returned_core L_mem (dec_of_Z 9999999999999999999) = JU64 9999999999999999999 /\
  returned_core L_cmp (dec_of_Z 9999999999999999999) = JU64 9999999999999999999 /\
  returned_core L_seg [91; 49; 93]%N = JArr [JU64 1].
Proof. exact core_refuted. Qed.
Print Assumptions C07_core_refuted.

(** [core_write], [core_compact] and [core_read] are the identity in the model (the flusher, the compactor and
    [add_field] keep these texts verbatim), so this theorem and C07_for_selects_exact restate that modelling
    decision; they are not derived from a model of the codec. *)
Theorem C07_core_tiers_agree : forall l1 l2 s, returned_core l1 s = returned_core l2 s.
Proof. exact core_tiers_agree. Qed.
Print Assumptions C07_core_tiers_agree.

(** Two contexts that differ only in spelling stay two contexts: FOR q returns an event iff it was stored
    under exactly q, in every layout. *)
Theorem C07_for_selects_exact : forall l q ctx, for_selects l q ctx = true <-> ctx = q.
Proof. exact for_selects_exact. Qed.
Print Assumptions C07_for_selects_exact.

(** The integer-first materialisation (EventSink), by the cases of its definition: a core text that reads as
    an i64 comes back in the canonical decimal spelling ("00123" -> "123", "+7" -> "7", "-0" -> "0"), any
    other text as it is.  The statement does not say where the two readers differ: for "123" both readers
    give "123". *)
Theorem C07_core_sink_characterised : forall s,
  (parse_i64 s = None -> core_read_sink s = core_read s) /\
  (forall z, parse_i64 s = Some z -> core_read_sink s = dec_of_Z z).
Proof. exact core_sink_characterised. Qed.
Print Assumptions C07_core_sink_characterised.

(** WHERE + RETURN.  The loaded columns are the core fields, then the WHERE columns, then the remaining RETURN
    fields; in both flows the value under name n in the projection is the stored value of field n. *)
Theorem C07_where_return_exact : forall (A : Type) (d : A) fc ret fields o1 o2 (ev : bytes -> A),
  (forall name val,
     In (name, val) (flow_row d (selection_columns_ret fc ret fields o1) (selection_columns_ret fc ret fields o1)
                              (Some ret) fields ev) -> val = ev name) /\
  (forall name val, In (name, val) (memtable_flow_row d fc ret fields o1 o2 ev) -> val = ev name).
Proof. exact where_return_exact. Qed.
Print Assumptions C07_where_return_exact.

Theorem C07_where_return_example :
  selection_columns_ret [f_b] [f_a; f_b] [f_a; f_b] [] =
    [nth 0 core_fields []; nth 1 core_fields []; nth 2 core_fields []; nth 3 core_fields []; f_b; f_a] /\
  memtable_flow_row 0%Z [f_b] [f_a; f_b] [f_a; f_b] [] [] ev_ab
  = [(nth 0 core_fields [], 0%Z); (nth 1 core_fields [], 0%Z); (nth 2 core_fields [], 0%Z); (nth 3 core_fields [], 0%Z);
     (f_a, 1%Z); (f_b, 2%Z)].
Proof. exact where_return_example. Qed.
Print Assumptions C07_where_return_example.
