(** C06 — STORE accepts exactly the payloads that conform to the defined schema.
    This file contains only the property theorems, each closed by [exact], with
    [Print Assumptions] beneath.  Models: Model/Json.v, Schema.v, SchemaReg.v, Validate.v
    (and Model/Time.v for time strings); specification and proofs: Proofs/ValidateProofs.v.

    [Conforms FT reg cmd] (Proofs/ValidateProofs.v) is the declarative statement of the
    property: event type and context not blank; the type is defined in [reg]; the payload
    is a JSON object; every entry's key is a field of the schema and its value has the
    field's declared type ([HasType]); every field that is not [Optional] is present.
    [FT] is the set of float bit patterns that count as a time; the theorems use
    [FloatInRange] (floor representable as i64 seconds), the property's reading.

    HOW THE CODE READS THE PROPERTY'S WORDS (every place where [Conforms] had to choose;
    1-9 are readings; 10-12 are three guards of sneldb, each read from the Rust text into a flag of
    Gen/Params.v, with which the theorems below hold without any excluded class):

     1. "context id is non-empty"  -> not BLANK: [context_id.trim().is_empty()] rejects ids made
        only of Unicode White_Space characters (" ", "\t", U+00A0, U+3000 ...).  Same test on
        the event type.  [Blank] lists the 25 UTF-8 encodings explicitly.
     2. "value of the declared type", float field ("f64", "float", "double", "number"):
        EVERY JSON number, integers included (an integer literal of any size is a valid float;
        values beyond 2^53 lose precision later - C07's subject).
     3. integer field ("i64", "int64", "int", "integer"): an integer literal in [-2^63, 2^63-1];
        a number written with a fraction or an exponent is a float and is REJECTED, also when
        integral ("1.0", "1e2", "-0").
     4. "u64"/"uint64": an integer literal in [0, 2^64-1]; negatives and floats rejected.
     5. optional field ("T | null" in either order): absent, null, or a T.  A field whose spec
        is not optional must be present and is never null.
     6. enum field: a JSON string equal byte for byte (case-sensitive, no trimming) to a variant.
     7. "a parseable time" (datetime / timestamp / date fields - both kinds behave alike, a date
        field accepts a time of day and is not truncated to midnight): a string that C16's
        parser accepts after Unicode trimming (RFC 3339, YYYY-MM-DD, or a decimal integer
        string of magnitude < 10^19), or an integer literal of magnitude < 10^19
        (so 10^19 .. 2^64-1 are rejected), or a float whose floor fits i64 (see 10).  Booleans, null, arrays,
        objects are rejected.
     8. "flat": not a separate test - no declared type admits an array or an object, so
        conformance implies flatness ([C06_conforms_flat_exact_keys]).
     9. DEFINE: a primitive spec that is not an alias (or "alias | null") silently declares a
        required STRING field ("foo", "foo | null", " int", "null"); "int | float" declares int
        (first non-null part).  Enum variants are taken as given (duplicates, empty strings).
        These are properties of [schema_of_cmd], which the theorems quantify over.
    10. a float in a time-typed slot: [normalize_json_value] rejects floats outside [-2^63, 2^63)
        (sneldb 8f02d15, class FloatTimeSaturates of known/C06.json, [time_float_range_checked = true];
        without the guard [f.floor() as i64] saturates and 1e300 is stored as 9223372036854775807).  So
        [C06_accept_iff_conforms] is stated with the property's reading [FloatInRange] for every STORE.
    11. the STORE grammar skips string literals when it delimits the payload by counting braces
        (sneldb fced25a, class BraceInString; [store_brace_scan_ignores_strings = false]).
    12. the tokenizer that pre-validates every command line takes '+' as a symbol, so numbers written
        like 1e+16 pass (sneldb b3737c8, class PlusExponent; [tokenizer_rejects_plus = false]).  Both flags
        name the defect: see Proofs/ValidateProofs.v at [brace_scan_flag].  With 11 and 12 the command line
        is transparent: [C06_text_front_transparent], [C06_text_accept_iff_conforms].

    Hypotheses: [wf_reg] / [wf_payload] say that registry, schemas and payload object are
    maps (unique keys), which [HashMap] and [serde_json::Map] guarantee; every registry built
    by DEFINE satisfies [wf_reg] ([C06_reachable_wf]). *)
From Coq Require Import ZArith NArith List.
From Snel Require Import Base.Bytes Gen.Params Model.Json Model.Schema Model.SchemaReg Model.Validate Proofs.ValidateProofs.
Import ListNotations.

(** The handler accepts a STORE iff it conforms - under the property's own reading of times
    ([FloatInRange]), no excluded class. *)
Theorem C06_accept_iff_conforms : forall reg cmd,
  wf_reg reg -> wf_payload (sc_payload cmd) ->
  (store_ok reg cmd = true <-> Conforms FloatInRange reg cmd).
Proof. exact accept_iff_conforms. Qed.
Print Assumptions C06_accept_iff_conforms.

(** A conforming STORE carries a flat object whose keys are fields and cover the required ones. *)
Theorem C06_conforms_flat_exact_keys : forall FT reg cmd, Conforms FT reg cmd ->
  exists sc obj, In (sc_type cmd, sc) reg /\ sc_payload cmd = JObj obj /\
    (forall k v, In (k, v) obj -> scalar v /\ exists ft, In (k, ft) sc) /\
    (forall k ft, In (k, ft) sc -> ~ Optional ft -> exists v, In (k, v) obj).
Proof. exact conforms_flat_exact_keys. Qed.
Print Assumptions C06_conforms_flat_exact_keys.

(** A rejected STORE leaves registry and events exactly as they were (hence every later read). *)
Theorem C06_reject_no_trace : forall st cmd,
  store_ok (st_reg st) cmd = false -> step_store st cmd = st.
Proof. exact reject_no_trace. Qed.
Print Assumptions C06_reject_no_trace.

(** An accepted STORE appends exactly one event, visible under its type and no other. *)
Theorem C06_accept_one_event : forall st cmd,
  store_ok (st_reg st) cmd = true ->
  exists p,
    let ev := {| ev_type := sc_type cmd; ev_ctx := sc_ctx cmd; ev_payload := p |} in
    store_check (st_reg st) cmd = Accepted p /\
    st_reg (step_store st cmd) = st_reg st /\
    st_events (step_store st cmd) = st_events st ++ [ev] /\
    visible (step_store st cmd) (sc_type cmd) = visible st (sc_type cmd) ++ [ev] /\
    (forall et, et <> sc_type cmd -> visible (step_store st cmd) et = visible st et).
Proof. exact accept_one_event. Qed.
Print Assumptions C06_accept_one_event.

(** A DEFINE answered with an error changes nothing: same state, same schemas, same verdict
    on every later STORE. *)
Theorem C06_define_error_keeps_schema : forall st et cs e,
  define (st_reg st) et cs = DefErr e ->
  step_define st et cs = st /\
  (forall et', reg_get (st_reg (step_define st et cs)) et' = reg_get (st_reg st) et') /\
  (forall cmd, store_check (st_reg (step_define st et cs)) cmd = store_check (st_reg st) cmd).
Proof. exact define_error_keeps_schema. Qed.
Print Assumptions C06_define_error_keeps_schema.

(** A DEFINE of an existing type IS answered with an error. *)
Theorem C06_define_existing_rejected : forall st et cs sc,
  reg_get (st_reg st) et = Some sc ->
  define (st_reg st) et cs = DefErr AlreadyDefined /\
  step_define st et cs = st /\
  (forall cmd, store_check (st_reg (step_define st et cs)) cmd = store_check (st_reg st) cmd).
Proof. exact define_existing_rejected. Qed.
Print Assumptions C06_define_existing_rejected.

(** Exactly when a DEFINE is answered with an error. *)
Theorem C06_define_error_iff : forall reg et cs e,
  define reg et cs = DefErr e <->
  ((exists sc, reg_get reg et = Some sc) /\ e = AlreadyDefined) \/
  (reg_get reg et = None /\ cs = [] /\ e = EmptySchema).
Proof. exact define_error_iff. Qed.
Print Assumptions C06_define_error_iff.

(** Schemas are append-only over any sequence of DEFINEs, successful or not. *)
Theorem C06_define_append_only : forall (ds : list (bytes * cmd_schema)) reg et sc,
  reg_get reg et = Some sc ->
  reg_get (fold_left (fun r d => define_reg r (fst d) (snd d)) ds reg) et = Some sc.
Proof. exact define_history_keeps. Qed.
Print Assumptions C06_define_append_only.

(** A successful DEFINE adds the converted schema under its type and touches no other type. *)
Theorem C06_define_ok_appends : forall reg et cs r',
  define reg et cs = DefOk r' ->
  reg_get reg et = None /\ cs <> [] /\
  reg_get r' et = Some (schema_of_cmd cs) /\
  (forall et', et' <> et -> reg_get r' et' = reg_get reg et').
Proof. exact define_ok_appends. Qed.
Print Assumptions C06_define_ok_appends.

(** Registries built by DEFINE commands with unique field names are well formed. *)
Theorem C06_reachable_wf : forall reg, Reachable reg -> wf_reg reg.
Proof. exact reachable_wf. Qed.
Print Assumptions C06_reachable_wf.

(** The command line: every line gets the handler's verdict, whatever braces its strings carry and however
    its numbers are spelled (the hypothesis on the payload is not used: a payload that is no object, which
    is all the front refuses, the handler refuses too) ... *)
Theorem C06_text_front_transparent : forall reg t obj,
  sc_payload (tx_cmd t) = JObj obj -> store_text_ok reg t = store_ok reg (tx_cmd t).
Proof. exact text_front_transparent. Qed.
Print Assumptions C06_text_front_transparent.

(** ... hence the command line accepts exactly the conforming STOREs, with no excluded class. *)
Theorem C06_text_accept_iff_conforms : forall reg t,
  wf_reg reg -> wf_payload (sc_payload (tx_cmd t)) ->
  (store_text_ok reg t = true <-> Conforms FloatInRange reg (tx_cmd t)).
Proof. exact text_accept_iff_conforms. Qed.
Print Assumptions C06_text_accept_iff_conforms.

(** One closed input per guard (10-12 of the header): {"ts":1e300} is rejected; {"s":"}","f":1} and
    {"s":"x","f":1e+16} are accepted on the command line. *)
Theorem C06_former_witnesses_repaired :
  store_ok w_reg_time w_cmd_1e300 = false /\
  store_text_ok w_reg_text w_text_brace = true /\
  store_text_ok w_reg_text w_text_plus = true.
Proof. exact former_witnesses_repaired. Qed.
Print Assumptions C06_former_witnesses_repaired.

(** A command line that is rejected - by the parser front or by the handler - leaves no trace. *)
Theorem C06_text_reject_no_trace : forall st t,
  store_text_ok (st_reg st) t = false -> step_store_text st t = st.
Proof. exact text_reject_no_trace. Qed.
Print Assumptions C06_text_reject_no_trace.

(** The white-space test of the handler is the declarative [Blank]. *)
Theorem C06_blank_spec : forall s, is_blank s = true <-> Blank s.
Proof. exact is_blank_spec. Qed.
Print Assumptions C06_blank_spec.

(** Every alias of the regenerated table resolves to its type - as written, in upper case, as
    "alias | null" and as "null | alias" (a finite sweep over the table). *)
Theorem C06_alias_resolution : forallb alias_ok schema_alias_table = true /\ (1 <= length schema_alias_table)%nat.
Proof. exact alias_resolution. Qed.
Print Assumptions C06_alias_resolution.

(** Alias lookup ignores ASCII letter case. *)
Theorem C06_alias_case_insensitive : forall s s',
  map to_lower s = map to_lower s' -> from_primitive_str s = from_primitive_str s'.
Proof. exact alias_case_insensitive. Qed.
Print Assumptions C06_alias_case_insensitive.

(** Reading 9: a spec that is not a type silently declares a required string field. *)
Theorem C06_unknown_spec_is_string : forall s,
  from_spec_with_nullable s = None -> field_of_spec (SPrim s) = FPrim TString.
Proof. exact unknown_spec_is_string. Qed.
Print Assumptions C06_unknown_spec_is_string.

(** PERSISTENCE.  The schema in force after a restart is part of the property: [define_p]
    appends a record to the schema file only for an accepted DEFINE, [restart_p] replays the
    file (last record of a type wins).  For EVERY history of DEFINEs and restarts the replayed
    state is the state the process had, so every STORE is judged after the restart as before. *)
Theorem C06_restart_same_registry : forall ops,
  restart_p (run_p ops) = run_p ops /\
  (forall cmd, store_check (ps_reg (restart_p (run_p ops))) cmd = store_check (ps_reg (run_p ops)) cmd).
Proof. exact restart_same_registry. Qed.
Print Assumptions C06_restart_same_registry.

(** A DEFINE answered with an error leaves no trace in memory, in the file, or after a restart. *)
Theorem C06_rejected_define_no_trace : forall ps et cs e,
  define (ps_reg ps) et cs = DefErr e ->
  fst (define_p ps et cs) = ps /\ snd (define_p ps et cs) = Some e /\
  restart_p (fst (define_p ps et cs)) = restart_p ps.
Proof. exact rejected_define_no_trace_p. Qed.
Print Assumptions C06_rejected_define_no_trace.

(** The first accepted schema of a type stays in force through later DEFINEs and restarts. *)
Theorem C06_accepted_schema_survives : forall ops ops' et sc,
  reg_get (ps_reg (run_p ops)) et = Some sc ->
  reg_get (ps_reg (run_p (ops ++ ops'))) et = Some sc.
Proof. exact accepted_schema_survives. Qed.
Print Assumptions C06_accepted_schema_survives.

(** Replay of a file whose event types are unique is the identity (what the invariant gives). *)
Theorem C06_replay_unique : forall l, keys_unique l = true -> replay l = l.
Proof. exact replay_unique. Qed.
Print Assumptions C06_replay_unique.
