(** C16 — a time value denotes the same instant on every path.
    This file contains only the property theorems, each closed by [exact],
    with [Print Assumptions] beneath. Models: Model/Time.v, Model/TimePrint.v (printers), Model/TimeSites.v (call sites),
    Base/Civil.v, and for the PER buckets at the end Model/Bucket.v, Model/BucketTz.v, Model/BucketZone.v; the
    proofs are in the Proofs files imported.  The known classes named below are those of known/C16.json. *)
From Coq Require Import ZArith.
From Coq Require Import NArith List Bool.
From Snel Require Import Base.Bytes Base.Civil Gen.Params Model.Time Model.TimePrint Model.TimeSites
                         Proofs.TimeProofs Proofs.CivilProofs Proofs.TimeIsoProofs Proofs.TimeSitesProofs.
Import ListNotations.
Open Scope Z_scope.

(** Integer spellings (seconds / ms / µs / ns inside their digit bands) of the
    instant [t + sub-second remainder] all normalise to [t] = floor of the instant,
    for negative instants too. *)
Theorem C16_unit_spellings_agree : forall t rms rus rns,
  0 <= rms < 1000 -> 0 <= rus < 1000000 -> 0 <= rns < 1000000000 ->
  (Z.abs t < 10 ^ 11 -> normalize_integer_epoch t = Some t) /\
  (10 ^ 11 <= Z.abs (t * 1000 + rms) < 10 ^ 14 ->
     normalize_integer_epoch (t * 1000 + rms) = Some t) /\
  (10 ^ 14 <= Z.abs (t * 1000000 + rus) < 10 ^ 16 ->
     normalize_integer_epoch (t * 1000000 + rus) = Some t) /\
  (10 ^ 16 <= Z.abs (t * 1000000000 + rns) < 10 ^ 19 ->
     normalize_integer_epoch (t * 1000000000 + rns) = Some t).
Proof. exact unit_spellings_agree. Qed.
Print Assumptions C16_unit_spellings_agree.

(** Magnitudes of 20 digits or more are rejected, never mis-scaled. *)
Theorem C16_out_of_range_rejected : forall n,
  10 ^ 19 <= Z.abs n -> normalize_integer_epoch n = None.
Proof. exact normalize_reject. Qed.
Print Assumptions C16_out_of_range_rejected.

(** Hinnant's calendar algorithms are mutually inverse on all of Z. *)
Theorem C16_civil_roundtrip : forall z,
  let '(y, m, d) := civil_from_days z in days_from_civil y m d = z.
Proof. exact civil_roundtrip. Qed.
Print Assumptions C16_civil_roundtrip.

Theorem C16_civil_from_days_valid : forall z,
  let '(y, m, d) := civil_from_days z in valid_ymd y m d = true.
Proof. exact civil_from_days_valid. Qed.
Print Assumptions C16_civil_from_days_valid.

Theorem C16_civil_of_days_from_civil : forall y m d,
  valid_ymd y m d = true -> civil_from_days (days_from_civil y m d) = (y, m, d).
Proof. exact civil_of_days_from_civil. Qed.
Print Assumptions C16_civil_of_days_from_civil.

(** The model of chrono's RFC 3339 parser inverts the printer: four-digit years, second 60 = leap-second
    spelling, fraction absent when empty, separator T / t / space, offset |off| <= 23:59
    written Z / z / +HH:MM / -HH:MM / U+2212 HH:MM. *)
Theorem C16_parse_print_rfc3339_gen : forall y m d h mi s frac sep off tz,
  0 <= y <= 9999 -> valid_ymd y m d = true ->
  0 <= h < 24 -> 0 <= mi < 60 -> 0 <= s <= 60 ->
  forallb is_digit frac = true -> sep_ok sep = true ->
  Z.abs off <= 1439 -> tz_ok off tz ->
  parse_rfc3339 (print_rfc3339_gen y m d h mi s frac sep off tz)
  = Some (days_from_civil y m d * 86400 + h * 3600 + mi * 60 + Z.min s 59 - off * 60).
Proof. exact parse_print_rfc3339_gen. Qed.
Print Assumptions C16_parse_print_rfc3339_gen.

Theorem C16_parse_print_rfc3339 : forall y m d h mi s frac sep off (zulu : bool),
  0 <= y <= 9999 -> valid_ymd y m d = true ->
  0 <= h < 24 -> 0 <= mi < 60 -> 0 <= s <= 60 ->
  forallb is_digit frac = true -> sep_ok sep = true ->
  Z.abs off <= 1439 -> (zulu = true -> off = 0) ->
  parse_rfc3339 (print_rfc3339 y m d h mi s frac sep off zulu)
  = Some (days_from_civil y m d * 86400 + h * 3600 + mi * 60 + Z.min s 59 - off * 60).
Proof. exact parse_print_rfc3339. Qed.
Print Assumptions C16_parse_print_rfc3339.

(** All ISO spellings of one instant [t] (whole seconds; the sub-second digits are
    [frac]) denote [t] = floor of the instant.  [t] ranges over 0000-01-02T00:00:00Z .. 9999-12-30T23:59:59Z
    (the four-digit years with a day of margin for the offset), negative instants included. *)
Theorem C16_iso_spellings_agree : forall t frac sep off tz,
  iso_t_lo <= t <= iso_t_hi ->
  forallb is_digit frac = true -> sep_ok sep = true ->
  Z.abs off <= 1439 -> tz_ok off tz ->
  parse_rfc3339 (print_instant_gen t frac sep off tz) = Some t.
Proof. exact iso_spellings_agree. Qed.
Print Assumptions C16_iso_spellings_agree.

(** ... and through the entry point [parse_str_to_epoch_seconds] (RFC 3339 is tried
    first), with ASCII white space around the literal. *)
Theorem C16_iso_string_agree : forall t frac sep off tz ws1 ws2,
  iso_t_lo <= t <= iso_t_hi ->
  forallb is_digit frac = true -> sep_ok sep = true ->
  Z.abs off <= 1439 -> tz_ok off tz ->
  forallb is_ascii_ws ws1 = true -> forallb is_ascii_ws ws2 = true ->
  parse_str_to_epoch_seconds (ws1 ++ print_instant_gen t frac sep off tz ++ ws2) = Some t.
Proof. exact iso_string_agree. Qed.
Print Assumptions C16_iso_string_agree.

(** The ISO spelling and the in-band integer spellings (s / ms / us / ns) of the same
    instant normalise to the same second. *)
Theorem C16_iso_and_integer_agree : forall t frac sep off tz ws1 ws2 rms rus rns,
  iso_t_lo <= t <= iso_t_hi ->
  forallb is_digit frac = true -> sep_ok sep = true ->
  Z.abs off <= 1439 -> tz_ok off tz ->
  forallb is_ascii_ws ws1 = true -> forallb is_ascii_ws ws2 = true ->
  0 <= rms < 1000 -> 0 <= rus < 1000000 -> 0 <= rns < 1000000000 ->
  let iso := parse_str_to_epoch_seconds (ws1 ++ print_instant_gen t frac sep off tz ++ ws2) in
  iso = Some t /\
  (Z.abs t < 10 ^ 11 -> normalize_integer_epoch t = iso) /\
  (10 ^ 11 <= Z.abs (t * 1000 + rms) < 10 ^ 14 ->
     normalize_integer_epoch (t * 1000 + rms) = iso) /\
  (10 ^ 14 <= Z.abs (t * 1000000 + rus) < 10 ^ 16 ->
     normalize_integer_epoch (t * 1000000 + rus) = iso) /\
  (10 ^ 16 <= Z.abs (t * 1000000000 + rns) < 10 ^ 19 ->
     normalize_integer_epoch (t * 1000000000 + rns) = iso).
Proof. exact iso_and_integer_agree. Qed.
Print Assumptions C16_iso_and_integer_agree.

(** Date-only spelling YYYY-MM-DD = midnight UTC of that day. *)
Theorem C16_parse_print_date : forall y m d,
  0 <= y <= 9999 -> valid_ymd y m d = true ->
  parse_date_only (print_date y m d) = Some (days_from_civil y m d * 86400).
Proof. exact parse_print_date. Qed.
Print Assumptions C16_parse_print_date.

Theorem C16_date_string_agree : forall y m d,
  0 <= y <= 9999 -> valid_ymd y m d = true ->
  parse_str_to_epoch_seconds (print_date y m d) = Some (days_from_civil y m d * 86400).
Proof. exact date_string_agree. Qed.
Print Assumptions C16_date_string_agree.

(** For every string literal, the payload normaliser, the WHERE row filter, the SINCE row
    filter, the planner's literal rewriting and the zone pruner (raw string and rewritten
    integer) read exactly the same second, instants before 1970 included; the materialised-query
    SINCE comparison clamps it at 0 (its watermark is unsigned).  A literal no parser accepts is
    an error for the payload, a string condition for WHERE, ignored for SINCE, left alone by
    the planner and [i64::MIN] ("restricts nothing") for the pruner: it neither clamps at 0 nor
    falls back to u64 (classes NegativeInstantClampedByPruner and UnparsableSinceU64WrapsNegative,
    fixed by sneldb commit db7c428). *)
Theorem C16_sites_agree : forall (s : bytes) (ft : ftype),
  temporal_ft ft ->
  match parse_str_to_epoch_seconds s with
  | Some z =>
      site_payload ft (Some (TStr s)) = PNum z
      /\ site_where (TStr s) = CNum z
      /\ site_since_row s = SinceNum z
      /\ site_filter ft (TStr s) = SInt z
      /\ pruner_ts (site_since_filter s) = z
      /\ pruner_ts (site_filter ft (TStr s)) = z
      /\ parse_since_epoch s = Some (Z.max z 0)
  | None =>
      site_payload ft (Some (TStr s)) = PErr
      /\ site_where (TStr s) = CStr
      /\ site_since_row s = SinceIgnored
      /\ site_filter ft (TStr s) = SUtf8 s
      /\ pruner_ts (SUtf8 s) = - 2 ^ 63
  end.
Proof. exact sites_agree. Qed.
Print Assumptions C16_sites_agree.

(** The materialiser's `parse::<u64>()` fall-back only ever takes 20-digit numbers. *)
Theorem C16_matspec_u64_fallback_range : forall s u,
  parse_str_to_epoch_seconds s = None -> parse_since_epoch s = Some u -> 10 ^ 19 <= u <= u64_max.
Proof. exact matspec_u64_fallback_range. Qed.
Print Assumptions C16_matspec_u64_fallback_range.

(** The zone pruner, over the artifacts the temporal builder writes, keeps every zone that
    holds an event whose stored instant satisfies the comparison (=, >, >=, <, <=): for every
    literal second from i64::MIN up to 2^32 and every zone whose stamps are below 2^32 —
    literals and stamps before 1970 included.  The only exclusion is the u32 truncation of
    bucket ids (class CalendarBucketWrapsAfter2106). *)
Theorem C16_prune_sound_outside_known : forall flag op v zones z t,
  - 2 ^ 63 <= v < u32_mod ->
  In z zones -> zmax z < u32_mod ->
  In t (z_ts z) -> cmp_holds op t v ->
  exists ids, prune flag op (SInt v) zones = Some ids /\ In (z_id z) ids.
Proof. exact prune_sound. Qed.
Print Assumptions C16_prune_sound_outside_known.

Theorem C16_prune_sound_literal : forall flag op s v zones z t,
  parse_str_to_epoch_seconds s = Some v ->
  - 2 ^ 63 <= v < u32_mod ->
  In z zones -> zmax z < u32_mod ->
  In t (z_ts z) -> cmp_holds op t v ->
  exists ids, prune flag op (SUtf8 s) zones = Some ids /\ In (z_id z) ids.
Proof. exact prune_sound_literal. Qed.
Print Assumptions C16_prune_sound_literal.

(** A SINCE literal that no parser accepts is ignored by the row filter and rules out no zone
    (no bound on the stamps). *)
Theorem C16_unparsable_since_keeps_all : forall flag s zones z,
  parse_str_to_epoch_seconds s = None ->
  In z zones -> - 2 ^ 63 <= zmax z ->
  site_since_row s = SinceIgnored /\
  exists ids, prune flag OGte (site_since_filter s) zones = Some ids /\ In (z_id z) ids.
Proof. exact unparsable_since_keeps_all. Qed.
Print Assumptions C16_unparsable_since_keeps_all.

(** The field selector on a temporal filter (pruner answer, or all zones when the pruner has
    none for `!=`) keeps every zone holding a match, for the six operators [=, !=, >, >=, <, <=]
    ([cmp_holds_sel] is [False] of [IN], so the statement says nothing about it) ... *)
Theorem C16_select_sound : forall flag op v zones z t,
  - 2 ^ 63 <= v < u32_mod ->
  In z zones -> zmax z < u32_mod ->
  In t (z_ts z) -> cmp_holds_sel op t v ->
  In (z_id z) (select_zones flag op (SInt v) zones).
Proof. exact select_sound. Qed.
Print Assumptions C16_select_sound.

(** ... and `!=` rules out no zone at all
    (class TemporalNeqPrunesAllZones, fixed by sneldb commit f801704). *)
Theorem C16_select_neq_keeps_all : forall flag sv zones z,
  In z zones -> In (z_id z) (select_zones flag ONeq sv zones).
Proof. exact select_neq_keeps_all. Qed.
Print Assumptions C16_select_neq_keeps_all.

(** Class CalendarBucketWrapsAfter2106: bucket ids truncated to u32 (a zone of 2106 is lost by
    `t >= 1980-01-01`). *)
Theorem C16_bucket_wrap_refuted :
  prune false OGte (SInt 315532800) [mkZone 3 [4295399296; 4295399297]] = Some []
  /\ cmp_holds OGte 4295399296 315532800.
Proof. exact bucket_wrap_refuted. Qed.
Print Assumptions C16_bucket_wrap_refuted.

(** A number serde_json keeps as f64 is stored as the floor of the written value or rejected —
    never as a saturated second count (sneldb commit 8f02d15). *)
Theorem C16_json_float_floor_or_rejected : forall m e z,
  normalize_json_number (JDec m e) = Some z -> z = floor_dec m e /\ i64_min <= z <= i64_max.
Proof. exact json_float_floor_or_rejected. Qed.
Print Assumptions C16_json_float_floor_or_rejected.

(** A JSON integer literal of any size in a time field is normalised like the same digits as a
    string, or rejected; never stored as another second
    (class JsonIntegerBelowI64ReadAsFloatSeconds, status fixed). *)
Theorem C16_json_integer_never_misread : forall z,
  normalize_json_number (jnum_of_integer z) = normalize_integer_epoch z
  \/ normalize_json_number (jnum_of_integer z) = None.
Proof. exact json_integer_never_misread. Qed.
Print Assumptions C16_json_integer_never_misread.

(** A numeric string reaches [normalize_integer_epoch] whatever its value (the RFC 3339
    and date-only branches reject every optionally signed digit string). *)
Theorem C16_decimal_string_is_integer : forall n,
  parse_str_to_epoch_seconds (dec_of_Z n) = normalize_integer_epoch n.
Proof. exact decimal_string_is_integer. Qed.
Print Assumptions C16_decimal_string_is_integer.

(** All STRING spellings of one instant agree: the ISO spelling (padded or not) and the decimal strings
    of its s / ms / us / ns counts (inside their digit bands) all go to [Some t] through
    [parse_str_to_epoch_seconds]. *)
Theorem C16_all_string_spellings_agree : forall t frac sep off tz ws1 ws2 rms rus rns,
  iso_t_lo <= t <= iso_t_hi ->
  forallb is_digit frac = true -> sep_ok sep = true ->
  Z.abs off <= 1439 -> tz_ok off tz ->
  forallb is_ascii_ws ws1 = true -> forallb is_ascii_ws ws2 = true ->
  0 <= rms < 1000 -> 0 <= rus < 1000000 -> 0 <= rns < 1000000000 ->
  parse_str_to_epoch_seconds (ws1 ++ print_instant_gen t frac sep off tz ++ ws2) = Some t /\
  (Z.abs t < 10 ^ 11 -> parse_str_to_epoch_seconds (dec_of_Z t) = Some t) /\
  (10 ^ 11 <= Z.abs (t * 1000 + rms) < 10 ^ 14 ->
     parse_str_to_epoch_seconds (dec_of_Z (t * 1000 + rms)) = Some t) /\
  (10 ^ 14 <= Z.abs (t * 1000000 + rus) < 10 ^ 16 ->
     parse_str_to_epoch_seconds (dec_of_Z (t * 1000000 + rus)) = Some t) /\
  (10 ^ 16 <= Z.abs (t * 1000000000 + rns) < 10 ^ 19 ->
     parse_str_to_epoch_seconds (dec_of_Z (t * 1000000000 + rns)) = Some t).
Proof. exact all_string_spellings_agree. Qed.
Print Assumptions C16_all_string_spellings_agree.

(** ** PER buckets under a configured time zone with a fixed UTC offset *)
From Snel Require Import Model.Bucket Model.BucketTz Proofs.BucketProofs Proofs.BucketTzProofs.

(** the bucket contains the instant ... *)
Theorem C16_bucket_tz_contains : forall ws off secs g, 0 <= ws <= 6 ->
  calendar_bucket_secs_off ws off secs g <= secs < calendar_next_secs_off ws off secs g.
Proof. exact bucket_off_contains. Qed.
Print Assumptions C16_bucket_tz_contains.

(** ... and starts on the boundary of the LOCAL calendar (hour / day / week start / first of month /
    1 January in wall-clock time of the configured offset). *)
Theorem C16_bucket_tz_on_local_boundary : forall ws off secs g, 0 <= ws <= 6 ->
  on_boundary ws g (calendar_bucket_secs_off ws off secs g + off).
Proof. exact bucket_off_on_local_boundary. Qed.
Print Assumptions C16_bucket_tz_on_local_boundary.

(** ** PER buckets in a zone whose offset changes (daylight saving), and sequences of rows.
    Neither theorem below speaks of a zone that has a transition: what the model answers next to one is
    shown on the closed example [BucketZoneProofs.us_eastern_2024] and tested by the probe [agg_bseq]. *)
From Snel Require Import Model.BucketZone Proofs.BucketZoneProofs.

(** a zone without transitions is the fixed-offset model above *)
Theorem C16_bucket_zone_fixed : forall strict ws off secs g,
  bucket_zone_with strict ws (off, nil) secs g = Some (calendar_bucket_secs_off ws off secs g).
Proof. exact bucket_zone_fixed. Qed.
Print Assumptions C16_bucket_zone_fixed.

(** the bucket of a row of a sequence is the bucket of its instant alone (no dependence on the rows
    bucketed before it).  [bucket_zone_seq] is [map] of the per-row function while the regenerated flag
    [sink_bucket_is_pure] is [true]; the content of the theorem is that flag. *)
Theorem C16_bucket_zone_seq_pointwise : forall ws zn g pre secs post,
  nth_error (bucket_zone_seq ws zn g (pre ++ secs :: post)) (length pre) = Some (bucket_zone ws zn secs g).
Proof. exact bucket_zone_seq_pointwise. Qed.
Print Assumptions C16_bucket_zone_seq_pointwise.
