(** C19 — WAL files are deleted only after a complete, lossless archive exists.
    This file contains only the property theorems, each closed by [exact], with
    [Print Assumptions] beneath.  Model: Model/WalArchive.v ([cleanup_up_to], [archive_logs_up_to],
    [archive_log], [recover_all], [run_history] are the functions that are extracted and run against
    the real WalCleaner / WalArchiver / WalArchiveRecovery); proofs and the specification-level
    definitions used below ([names], [root_lookup], [wal_wf], [line_wf], [expected_recovery]):
    Proofs/WalArchiveProofs.v.

    Quantification: all WAL directory contents, all keep ids, all states of the archive directory (missing,
    not a directory, directories squatting on archive names, undecodable files), all fault oracles [fl]
    (per-log early/late write failure, per-file deletion failure) and both ways of building the cleaner
    ([cleaner_dir w] is the directory it works on).

    Three behaviours of the code (sneldb 1c3fa90: only canonical log names are scanned; db8e58e: the archive
    pass reads the cleaner's own directory; 06752f6: recovery sorts archives by numeric id) are switched by
    flags regenerated from the Rust text, and the proofs need these values.  The theorems about deleted logs
    and about recovery hold without any exclusion; the only KnownClass is [name_reused] (ArchiveNameReused). *)
From Coq Require Import NArith List Bool.
From Snel Require Import Base.Bytes Gen.Params Model.WalArchive Proofs.WalArchiveProofs.
Import ListNotations.
Open Scope N_scope.

(** Conservative mode: if archiving any eligible file fails, no log file is deleted. *)
Theorem C19_no_delete_on_any_failure : forall fl w keep w' res,
  cleanup_up_to true fl w keep = (w', res) ->
  existsb is_none res = true ->
  w_wal w' = w_wal w /\ w_cwal w' = w_cwal w.
Proof. exact no_delete_on_any_failure. Qed.
Print Assumptions C19_no_delete_on_any_failure.

(** ... and every fault pattern of the statement does make the pass report a failure: the archive path
    is not a directory, an eligible log is a directory / contains a non-UTF-8 line, the environment fails
    the write (early or late), or a directory occupies the archive file name. *)
Theorem C19_fault_patterns_fail : forall fl w keep w' res o id,
  cleanup_up_to true fl w keep = (w', res) ->
  In (log_name id, o) (cleaner_dir w) -> parse_log_name (log_name id) = Some id -> walarch_eligible id keep = true ->
  (w_root w = RNotDir
   \/ lookup (log_name id) (cleaner_dir w) = Some WDir
   \/ (exists ls, lookup (log_name id) (cleaner_dir w) = Some (WFile ls) /\ parse_lines ls = None)
   \/ f_io fl id <> IoOk
   \/ (exists ls es, lookup (log_name id) (cleaner_dir w) = Some (WFile ls) /\ parse_lines ls = Some es /\
                     root_lookup (afile_name (make_archive id es)) (w_root w) = Some ADirEnt)) ->
  existsb is_none res = true.
Proof. exact fault_patterns_fail. Qed.
Print Assumptions C19_fault_patterns_fail.

(** Partial success: every archive the pass reported as written is in place afterwards, with the
    header and entries of the log it was made from — whether or not another file failed. *)
Theorem C19_partial_failure_keeps_archives : forall fl w keep w' res nm,
  cleanup_up_to true fl w keep = (w', res) -> In (Some nm) res ->
  exists id ls es, lookup (log_name id) (cleaner_dir w) = Some (WFile ls) /\ parse_lines ls = Some es /\
                   nm = afile_name (make_archive id es) /\
                   root_lookup nm (w_root w') = Some (AFile (make_archive id es)).
Proof. exact partial_failure_keeps_archives. Qed.
Print Assumptions C19_partial_failure_keeps_archives.

(** Every log file that is gone after a conservative cleanup has, in the archive directory, the archive
    made from exactly its parseable entries, in order, under its id.  Foreign file
    names and cleaners built by [with_wal_dir] are covered. *)
Theorem C19_deleted_implies_archived : forall fl w keep w' res n ls,
  NoDup (names (cleaner_dir w)) ->
  cleanup_up_to true fl w keep = (w', res) ->
  In (n, WFile ls) (cleaner_dir w) -> lookup n (cleaner_dir w') = None ->
  exists id es, n = log_name id /\ parse_log_name n = Some id /\ parse_lines ls = Some es /\
    root_lookup (afile_name (make_archive id es)) (w_root w') = Some (AFile (make_archive id es)).
Proof. exact deleted_implies_archived. Qed.
Print Assumptions C19_deleted_implies_archived.

(** A file whose name is not the canonical name of an eligible id ("wal-1.log", "wal-+00001.log",
    "notes.txt", …) is never removed, in either mode. *)
Theorem C19_foreign_names_untouched : forall c fl w keep w' res n o,
  cleanup_up_to c fl w keep = (w', res) ->
  In (n, o) (cleaner_dir w) ->
  (forall id, parse_log_name n = Some id -> walarch_eligible id keep = true -> n <> log_name id) ->
  In (n, o) (cleaner_dir w').
Proof. exact foreign_names_untouched. Qed.
Print Assumptions C19_foreign_names_untouched.

(** The archive encoding (MessagePack of ScalarValue, read back through serde_json::Value) is the
    identity on every entry read from a log line: event type, context, timestamp, id and each payload
    value come back unchanged.  ([line_wf]: a JSON float is finite, a timestamp is a u64.) *)
Theorem C19_archive_roundtrip_lossless : forall id ls es,
  Forall line_wf ls -> parse_lines ls = Some es ->
  a_entries (make_archive id es) = es.
Proof. exact archive_roundtrip_lossless. Qed.
Print Assumptions C19_archive_roundtrip_lossless.

(** Recovery after a conservative cleanup that reported no failure returns exactly the entries of the
    archived logs, each log's entries in line order, logs in id order — for ids of any width — provided the
    archive directory held no other "*.zst" entry. *)
Theorem C19_recover_roundtrip : forall fl w keep w' res,
  NoDup (names (cleaner_dir w)) -> wal_wf (cleaner_dir w) ->
  w_root w <> RNotDir -> (forall n o, In (n, o) (dir_of (w_root w)) -> has_ext n = false) ->
  cleanup_up_to true fl w keep = (w', res) ->
  existsb is_none res = false ->
  recover_all (w_root w') = Some (expected_recovery (cleaner_dir w) keep).
Proof. exact recover_roundtrip. Qed.
Print Assumptions C19_recover_roundtrip.

(** Archive names are NOT unique across cleanups: a log id reused after the WAL directory
    was emptied, covering the same second range, is written over the earlier archive; the entries of the
    log deleted by the first cleanup are in no archive afterwards. *)
Theorem C19_archive_names_unique_refuted :
  exists root r1 r2 n ls es,
    NoDup (names (r_wal r1)) /\ wal_wf (r_wal r1) /\
    NoDup (names (r_wal r2)) /\ wal_wf (r_wal r2) /\
    In (n, WFile ls) (r_wal r1) /\ parse_lines ls = Some es /\ es <> [] /\
    lookup n (snd (fst (run_round root r1))) = None /\
    existsb is_none (snd (run_round (fst (fst (run_round root r1))) r2)) = false /\
    forall nm f, root_lookup nm (run_history root [r1; r2]) = Some (AFile f) -> a_entries f <> es.
Proof. exact archive_names_unique_refuted. Qed.
Print Assumptions C19_archive_names_unique_refuted.

(** Within one pass the archive name determines the log id (no two logs of a pass share a name) … *)
Theorem C19_archive_name_determines_id : forall id es id' es',
  afile_name (make_archive id es) = afile_name (make_archive id' es') -> id = id'.
Proof. exact afile_name_inj_id. Qed.
Print Assumptions C19_archive_name_determines_id.

(** … and a cleanup (either mode, any faults) leaves every object of the archive directory alone
    whose name is not the archive name of a log it processes. *)
Theorem C19_archive_kept_outside_known : forall c fl w keep w' res nm,
  cleanup_up_to c fl w keep = (w', res) ->
  name_reused nm (cleaner_dir w) keep = false ->
  root_lookup nm (w_root w') = root_lookup nm (w_root w).
Proof. exact archive_kept_outside_known. Qed.
Print Assumptions C19_archive_kept_outside_known.

(** Histories: a log deleted by some cleanup still has its archive after any number of later cleanups,
    provided none of them archives a log under the same archive file name. *)
Theorem C19_history_deleted_stay_archived : forall root r h root1 wal1 res n ls,
  NoDup (names (r_wal r)) ->
  run_round root r = (root1, wal1, res) ->
  In (n, WFile ls) (r_wal r) -> lookup n wal1 = None ->
  exists id es, n = log_name id /\ parse_lines ls = Some es /\
    (Forall (fun r' => name_reused (afile_name (make_archive id es)) (r_wal r') (r_keep r') = false) h ->
     root_lookup (afile_name (make_archive id es)) (run_history root1 h) = Some (AFile (make_archive id es))).
Proof. exact history_deleted_stay_archived. Qed.
Print Assumptions C19_history_deleted_stay_archived.

(** What is a log entry.  [file_lines cls content] is the reader's view of a file: [split_lines] models
    [BufReader::lines()] on the bytes ([cls] classifies a raw line), [replay_entries] is what
    [WalRecovery] restores from those lines.  A last line without a trailing newline is a line … *)
Theorem C19_last_line_without_newline_is_a_line : forall cls pre l,
  (pre = [] \/ exists b, pre = b ++ [10]) -> no_nl l -> l <> [] ->
  file_lines cls (pre ++ l) = file_lines cls pre ++ [cls l].
Proof. exact last_line_without_newline. Qed.
Print Assumptions C19_last_line_without_newline_is_a_line.

(** … "\r\n" terminates a line like "\n" … *)
Theorem C19_crlf_terminated_line : forall cls pre l,
  (pre = [] \/ exists b, pre = b ++ [10]) -> no_nl l ->
  file_lines cls (pre ++ l ++ [13; 10]) = file_lines cls pre ++ [cls l].
Proof. exact crlf_terminated_line. Qed.
Print Assumptions C19_crlf_terminated_line.

(** … and the archive is complete with respect to replay: a log file that is gone after a conservative
    cleanup has an archive whose entries are exactly those WAL replay would have restored from the file,
    in order (any line shapes: blank, foreign, torn, unterminated). *)
Theorem C19_archive_complete_for_replay : forall fl w keep w' res n ls,
  NoDup (names (cleaner_dir w)) -> Forall line_wf ls ->
  cleanup_up_to true fl w keep = (w', res) ->
  In (n, WFile ls) (cleaner_dir w) -> lookup n (cleaner_dir w') = None ->
  exists id f, n = log_name id /\ a_log_id f = id /\
               root_lookup (afile_name f) (w_root w') = Some (AFile f) /\
               a_entries f = replay_entries ls.
Proof. exact archive_complete_for_replay. Qed.
Print Assumptions C19_archive_complete_for_replay.

(** In particular a complete entry left without its newline by a crash between the writer's two writes
    is in the archive of a deleted log. *)
Theorem C19_unterminated_last_entry_archived : forall fl w keep w' res n cls pre l j,
  NoDup (names (cleaner_dir w)) -> Forall line_wf (file_lines cls (pre ++ l)) ->
  (pre = [] \/ exists b, pre = b ++ [10]) -> no_nl l -> l <> [] -> cls l = LEntry j ->
  cleanup_up_to true fl w keep = (w', res) ->
  In (n, WFile (file_lines cls (pre ++ l))) (cleaner_dir w) -> lookup n (cleaner_dir w') = None ->
  exists f, root_lookup (afile_name f) (w_root w') = Some (AFile f) /\
            a_entries f = replay_entries (file_lines cls pre) ++ [entry_of_json j].
Proof. exact unterminated_last_entry_archived. Qed.
Print Assumptions C19_unterminated_last_entry_archived.

(** The archive pass of a conservative cleanup attempts EVERY eligible file: the Rust text of
    [archive_logs_up_to] has the shape "one [archive_log] per directory entry the scan accepts, results
    returned uncut" (the first conjunct: [walarch_archives_every_eligible] is regenerated from the source and
    occurs in no model definition), and the model returns one result per entry the deletion pass can hit
    ([scan_hits]) - so "no failure among the results" covers every file deleted. *)
Theorem C19_results_cover_every_eligible : forall fl w keep w' res,
  walarch_archives_every_eligible = true /\
  (cleanup_up_to true fl w keep = (w', res) -> length res = length (scan_hits keep (cleaner_dir w))).
Proof. exact results_cover_every_eligible. Qed.
Print Assumptions C19_results_cover_every_eligible.
