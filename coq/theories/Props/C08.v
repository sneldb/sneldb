(** C08 — pruning structures never rule out a zone that holds a matching row.
    Part B (enum bitmaps, temporal calendar + per-zone index, xor-filter keys), then part A (the
    succinct range filter), then part C (the context index).  Only property theorems, each closed by
    [exact], with [Print Assumptions] beneath.  The known classes named below are those of known/C08.json. *)

(** Part B.  Models: Model/ZoneSel.v, EnumBitmap.v, Temporal.v, XorKey.v; proofs:
    Proofs/EnumBitmapProofs.v, TemporalProofs.v, XorKeyProofs.v.
    [select_*] is what a query scans ([FieldSelector::select_for_segment], regenerated
    from the Rust text): all zones of the segment ([all]) when the strategy does not serve
    the operator, else the pruner's answer, else the fallback for a [None]
    (sneldb commits f801704 and 01eee7e for the fallbacks, db7c428 for pre-1970 instants). *)
From Coq Require Import NArith ZArith List.
From Snel Require Import Base.Bytes Model.ZoneSel Model.EnumBitmap Model.Temporal Model.XorKey.
From Snel Require Import Proofs.EnumBitmapProofs Proofs.TemporalProofs Proofs.XorKeyProofs.
Import ListNotations.

(** [=] with a declared literal: every zone that holds the literal is a candidate, whenever the index
    could be built. *)
Theorem C08b_enum_eq_sound : forall variants zones ix zid vals lit all,
  EnumBitmap.build_all variants zones = Some ix ->
  NoDup (map fst zones) ->
  In (zid, vals) zones ->
  In lit variants ->
  (exists v, In v vals /\ EnumBitmap.row_matches OEq v lit = true) ->
  In zid (select_enum (Some ix) all OEq lit).
Proof. exact enum_eq_sound. Qed.
Print Assumptions C08b_enum_eq_sound.

(** [!=] with a declared literal: every zone that holds another declared variant is a candidate. *)
Theorem C08b_enum_neq_sound : forall variants zones ix zid vals lit all,
  EnumBitmap.build_all variants zones = Some ix ->
  NoDup (map fst zones) ->
  In (zid, vals) zones ->
  In lit variants ->
  (exists v, In v vals /\ In v variants /\ EnumBitmap.row_matches ONeq v lit = true) ->
  In zid (select_enum (Some ix) all ONeq lit).
Proof. exact enum_neq_sound. Qed.
Print Assumptions C08b_enum_neq_sound.

(** [!=] with a literal that is not a declared variant scans every zone of the segment, with or
    without a loadable index (class EnumNeqUndeclaredLiteral, fixed by sneldb commit f801704). *)
Theorem C08b_enum_neq_undeclared_sound : forall ix variants lit all zid,
  (match ix with Some x => e_variants x = variants | None => True end) ->
  ~ In lit variants ->
  In zid all ->
  In zid (select_enum ix all ONeq lit).
Proof. exact enum_neq_undeclared_sound. Qed.
Print Assumptions C08b_enum_neq_undeclared_sound.

(** An operator other than [=] / [!=] on an enum column scans every zone of the segment, with or
    without a loadable index (class EnumRangeOp, fixed by sneldb commit 01eee7e). *)
Theorem C08b_enum_unserved_op_all_zones : forall ix all op lit,
  op <> OEq -> op <> ONeq -> select_enum ix all op lit = all.
Proof. exact enum_unserved_op_all_zones. Qed.
Print Assumptions C08b_enum_unserved_op_all_zones.

(** [rows_per_zone] is truncated to 16 bits: with a first zone of 65536 rows every
    bitmap is empty and the first declared value of any zone makes the builder panic
    (known class EnumZoneLongerThanBitmap; latent, depends on the configured zone size). *)
Theorem C08b_enum_rows_per_zone_wrap_refuted :
  exists n, (0 < n)%N /\ rows_per_zone_of n = 0%N /\
    forall variants v r, In v variants -> add_zone_values variants (rows_per_zone_of n) (v :: r) = None.
Proof. exact enum_rows_per_zone_wrap_refuted. Qed.
Print Assumptions C08b_enum_rows_per_zone_wrap_refuted.

(** ... and the index CAN be built for every flush whose first zone is the longest and
    has fewer than 2^16 rows (what the zone planner produces), so the hypotheses above are met. *)
Theorem C08b_enum_build_ok : forall variants z0 vals0 rest,
  (N.of_nat (length vals0) < 2 ^ Snel.Gen.Params.zidx_rpz_bits)%N ->
  (forall zid vals, In (zid, vals) rest -> (length vals <= length vals0)%nat) ->
  EnumBitmap.build_all variants ((z0, vals0) :: rest) <> None.
Proof. exact enum_build_ok. Qed.
Print Assumptions C08b_enum_build_ok.

(** For columns that hold only declared variants (STORE validation, C06), EVERY operator is
    sound for EVERY literal, declared or not: once the index is built, no known class excludes
    anything at selector level. *)
Theorem C08b_enum_sound_all_operators : forall variants zones ix zid vals op lit all,
  EnumBitmap.build_all variants zones = Some ix ->
  NoDup (map fst zones) ->
  In (zid, vals) zones ->
  In zid all ->
  (forall v, In v vals -> In v variants) ->
  (exists v, In v vals /\ EnumBitmap.row_matches op v lit = true) ->
  In zid (select_enum (Some ix) all op lit).
Proof. exact enum_sound_all_operators. Qed.
Print Assumptions C08b_enum_sound_all_operators.

Open Scope Z_scope.

(** A zone holding a row that satisfies the probe is a candidate, provided the day buckets (clamped
    at 0) of that row and of the probe start below 2^32; values and probes of either sign (classes
    TemporalNegativeValueInZone and TemporalNegativeProbeGt, fixed by sneldb commit db7c428).
    [mode] and [is_ts] are free.  The model's builders are [build_fixed] (the built-in [timestamp]
    column, [mode = zidx_cal_mode_ts = 0]: the zone must hold no negative value) and [build_cells]
    (payload datetime fields, [mode = zidx_cal_mode_field = 1]); no theorem instantiates the
    temporal statements of this file to them, that step is left to the reader. *)
Theorem C08b_temporal_sound : forall mode is_ts zones zid vals t op l v all,
  NoDup (map fst zones) -> In (zid, vals) zones -> In t vals ->
  (mode = 0%N -> forall u, In u vals -> 0 <= u) ->
  lit_value l = Some (LVInt v) ->
  day_in_u32 v -> day_in_u32 t ->
  In op [OEq; OGt; OGte; OLt; OLte] ->
  Temporal.row_matches op t (LVInt v) = true ->
  In zid (select_temporal is_ts (Temporal.build mode zones) all op l).
Proof. exact temporal_sound. Qed.
Print Assumptions C08b_temporal_sound.

(** The per-zone index contains every instant it was built from.  This is the specification of
    [ZoneTemporalIndex::contains_ts] that the calendar-then-index equality probe relies on (the
    model has no fence component: a fence-window refinement must still satisfy this statement).
    The model's [contains_ts] is membership in the key list; the code searches the keys by
    bisection, which agrees with membership only while the keys are strictly increasing, that is
    while the zone's instants span less than 2^63 ([TemporalProofs.keys_sorted], which no theorem
    joins to this one).  For the code the statement therefore speaks of zones of such a span. *)
Theorem C08b_temporal_index_contains_every_instant : forall ts t,
  In t ts -> contains_ts (from_timestamps ts) t = true.
Proof. exact ft_contains. Qed.
Print Assumptions C08b_temporal_index_contains_every_instant.

(** [=] is sound for every magnitude and sign (truncated bucket ids only collide, never reorder). *)
Theorem C08b_temporal_eq_sound_any_magnitude : forall mode is_ts zones zid vals t l v all,
  NoDup (map fst zones) -> In (zid, vals) zones -> In t vals ->
  (mode = 0%N -> forall u, In u vals -> 0 <= u) ->
  lit_value l = Some (LVInt v) ->
  Temporal.row_matches OEq t (LVInt v) = true ->
  In zid (select_temporal is_ts (Temporal.build mode zones) all OEq l).
Proof. exact temporal_eq_sound_any_magnitude. Qed.
Print Assumptions C08b_temporal_eq_sound_any_magnitude.

(** [!=] and [IN] on a temporal field scan every zone of the segment (class TemporalNeq, fixed by
    sneldb commit f801704). *)
Theorem C08b_temporal_neq_all_zones : forall is_ts ix all op l,
  op = ONeq \/ op = OIn ->
  select_temporal is_ts ix all op l = all.
Proof. exact temporal_neq_all_zones. Qed.
Print Assumptions C08b_temporal_neq_all_zones.

(** FALSE of the code: bucket ids are truncated to u32 but compared by order; a probe in
    the year 2106 or later misses present-day zones (known class TemporalBeyondU32). *)
Theorem C08b_temporal_u32_wrap_refuted :
  exists zones zid vals t l v,
    NoDup (map fst zones) /\ In (zid, vals) zones /\ In t vals /\ (forall u, In u vals -> 0 <= u) /\
    lit_value l = Some (LVInt v) /\ 0 <= v /\ Temporal.row_matches OLte t (LVInt v) = true /\
    ~ In zid (select_temporal false (Temporal.build 1 zones) [zid] OLte l).
Proof. exact temporal_u32_wrap_refuted. Qed.
Print Assumptions C08b_temporal_u32_wrap_refuted.

(** FALSE of the code: a Float64 literal is probed as 0 (known class TemporalNonIntegerLiteral). *)
Theorem C08b_temporal_float_literal_refuted :
  exists zones zid vals t l n d,
    NoDup (map fst zones) /\ In (zid, vals) zones /\ In t vals /\ (forall u, In u vals -> 0 <= u) /\
    lit_value l = Some (LVRat n d) /\ Temporal.row_matches OLt t (LVRat n d) = true /\
    ~ In zid (select_temporal false (Temporal.build 1 zones) [zid] OLt l).
Proof. exact temporal_float_literal_refuted. Qed.
Print Assumptions C08b_temporal_float_literal_refuted.

(** A zone holding a matching row is a candidate ([!=] and [IN] included) unless [temporal_known] holds
    of that row, the operator and the literal: a Float64 literal (TemporalNonIntegerLiteral), or a range
    operator with a day bucket beyond u32 (TemporalBeyondU32). *)
Theorem C08b_temporal_outside_known : forall mode is_ts zones zid vals t op l lv all,
  NoDup (map fst zones) -> In (zid, vals) zones -> In t vals -> In zid all ->
  (mode = 0%N -> forall u, In u vals -> 0 <= u) ->
  lit_value l = Some lv ->
  temporal_known t op l = false ->
  Temporal.row_matches op t lv = true ->
  In zid (select_temporal is_ts (Temporal.build mode zones) all op l).
Proof. exact temporal_outside_known. Qed.
Print Assumptions C08b_temporal_outside_known.

Open Scope N_scope.

(** Builder and probe derive the same key: for a cell and a literal with the same
    canonical string (in particular the same value), the probe's key is among the keys
    the zone-level builder inserts for the cell's zone and among the keys the
    field-level builder inserts. *)
Theorem C08b_xor_key_agree : forall zones zid cells c l s,
  In (zid, cells) zones -> In (Some c) cells ->
  value_to_string c = Some s -> value_to_string l = Some s ->
  exists k, probe_key l = Some k /\ In k (zone_keys cells) /\ In k (field_keys zones).
Proof. exact xor_key_agree. Qed.
Print Assumptions C08b_xor_key_agree.

(** Given ONLY the contract "a filter built from key list S contains every key of S",
    the zone-level index reports every zone that holds the probed value and whose
    filter was constructed — for every abstract filter implementation. *)
Theorem C08b_xor_zone_sound :
  forall (fuse : Type) (fbuild : list N -> option fuse) (fcontains : fuse -> N -> bool),
  (forall ks f k, fbuild ks = Some f -> In k ks -> fcontains f k = true) ->
  forall zones zid cells c l s inflight all,
    NoDup (map fst zones) -> In (zid, cells) zones -> In (Some c) cells ->
    value_to_string c = Some s -> value_to_string l = Some s ->
    fbuild (zone_keys cells) <> None ->
    In zid (select_zxf fuse fcontains (build_for_field fuse fbuild zones) inflight all OEq l).
Proof. exact xor_zone_sound. Qed.
Print Assumptions C08b_xor_zone_sound.

(** ... and the field-level presence filter admits all zones of the segment. *)
Theorem C08b_xor_field_sound :
  forall (fuse : Type) (fbuild : list N -> option fuse) (fcontains : fuse -> N -> bool),
  (forall ks f k, fbuild ks = Some f -> In k ks -> fcontains f k = true) ->
  forall zones zid cells c l s f all,
    In (zid, cells) zones -> In (Some c) cells ->
    value_to_string c = Some s -> value_to_string l = Some s ->
    build_field_filter fuse fbuild zones = Some f ->
    select_xf fuse fcontains (Some f) all OEq l = all.
Proof. exact xor_field_sound. Qed.
Print Assumptions C08b_xor_field_sound.

(** For an operator other than [=] the zone xor index and the presence filter are not
    consulted; every zone of the segment is scanned, for every filter implementation, in flight
    or not (class XorNonEqOperator, fixed by sneldb commit f801704). *)
Theorem C08b_xor_non_eq_all_zones :
  forall (fuse : Type) (fcontains : fuse -> N -> bool) ix inflight all op l,
    op <> OEq -> select_zxf fuse fcontains ix inflight all op l = all.
Proof. exact xor_non_eq_all_zones. Qed.
Print Assumptions C08b_xor_non_eq_all_zones.

Theorem C08b_xor_presence_non_eq_all_zones :
  forall (fuse : Type) (fcontains : fuse -> N -> bool) f all op l,
    op <> OEq -> select_xf fuse fcontains f all op l = all.
Proof. exact xor_presence_non_eq_all_zones. Qed.
Print Assumptions C08b_xor_presence_non_eq_all_zones.

(** EVERY operator is sound for the zone xor index; no known class excludes anything. *)
Theorem C08b_xor_sound_all_operators :
  forall (fuse : Type) (fbuild : list N -> option fuse) (fcontains : fuse -> N -> bool),
  (forall ks f k, fbuild ks = Some f -> In k ks -> fcontains f k = true) ->
  forall zones zid cells c l s op inflight all,
    In zid all ->
    NoDup (map fst zones) -> In (zid, cells) zones -> In (Some c) cells ->
    value_to_string c = Some s -> value_to_string l = Some s ->
    fbuild (zone_keys cells) <> None ->
    In zid (select_zxf fuse fcontains (build_for_field fuse fbuild zones) inflight all op l).
Proof. exact xor_sound_all_operators. Qed.
Print Assumptions C08b_xor_sound_all_operators.

(** Latent: a zone whose BinaryFuse8 construction failed is skipped by the builder and can
    then never be a candidate of [=] (construction failure is not deterministically reachable). *)
Theorem C08b_xor_failed_construction_loses_zone :
  forall (fuse : Type) (fbuild : list N -> option fuse) (fcontains : fuse -> N -> bool),
  forall zones zid cells l,
    NoDup (map fst zones) -> In (zid, cells) zones ->
    fbuild (zone_keys cells) = None ->
    forall fs, build_for_field fuse fbuild zones = Some fs ->
    ~ In zid (zones_maybe_containing fuse fcontains fs l).
Proof. exact xor_failed_construction_loses_zone. Qed.
Print Assumptions C08b_xor_failed_construction_loses_zone.

(** Part A: the succinct range filter.  Models: Model/SurfEnc.v, Model/Trie.v, Model/ZoneSurf.v;
    proofs: Proofs/SurfLexProofs.v, SurfEncProofs.v, SurfTrieProofs.v, SurfZoneProofs.v.
    From the import of Model.ZoneSurf below, [OEq] .. [OIn] are [ZoneSurf.cmp_op] and no longer
    [ZoneSel.cmp_op]: a statement of part B does not typecheck beyond this point.

    Doubles are their 64-bit patterns; [f_val b] is the real value of the pattern scaled by
    2^1074 (exact in Z); numbers of values ([num_of]) are scaled the same way. *)
From Coq Require Import ZArith NArith List.
From Snel Require Import Base.Bytes Gen.Params Model.SurfEnc Model.Trie Model.ZoneSurf.
From Snel Require Import Proofs.SurfLexProofs Proofs.SurfEncProofs Proofs.SurfTrieProofs Proofs.SurfZoneProofs.
Import ListNotations.
Open Scope N_scope.

(** big-endian 8-byte strings compare lexicographically as the numbers compare *)
Theorem C08_be8_order : forall a b, a < 2 ^ 64 -> b < 2 ^ 64 ->
  bytes_cmp (be8 a) (be8 b) = N.compare a b.
Proof. exact be8_lex. Qed.
Print Assumptions C08_be8_order.

(** i64 lane (sign flip) *)
Theorem C08_enc_i64_mono : forall x y,
  (- 2 ^ 63 <= x < 2 ^ 63)%Z -> (- 2 ^ 63 <= y < 2 ^ 63)%Z ->
  bytes_cmp (enc_i64 x) (enc_i64 y) = Z.compare x y.
Proof. exact enc_i64_mono. Qed.
Print Assumptions C08_enc_i64_mono.

(** raw u64 lane *)
Theorem C08_enc_u64_mono : forall a b, a < 2 ^ 64 -> b < 2 ^ 64 ->
  bytes_cmp (enc_u64 a) (enc_u64 b) = N.compare a b.
Proof. exact enc_u64_mono. Qed.
Print Assumptions C08_enc_u64_mono.

(** f64 lane (bit trick): keys compare as the sign-magnitude (IEEE totalOrder) order of the
    bit patterns, NaNs and infinities included *)
Theorem C08_enc_f64_mono : forall a b, a < 2 ^ 64 -> b < 2 ^ 64 ->
  bytes_cmp (enc_f64 a) (enc_f64 b) = f64_total_cmp a b.
Proof. exact enc_f64_mono. Qed.
Print Assumptions C08_enc_f64_mono.

(** ... and a smaller real value has the smaller pattern; for non-zero doubles the keys compare
    exactly as the values (-0 and +0 are two patterns of one value) *)
Theorem C08_f64_bits_order_is_value_order : forall a b, a < 2 ^ 64 -> b < 2 ^ 64 ->
  ((f_val a < f_val b)%Z -> f64_total_cmp a b = Lt) /\
  (f_mag_scaled a <> 0 -> f_mag_scaled b <> 0 ->
   bytes_cmp (enc_f64 a) (enc_f64 b) = Z.compare (f_val a) (f_val b)).
Proof. exact f64_bits_order_is_value_order. Qed.
Print Assumptions C08_f64_bits_order_is_value_order.

(** two well-formed, unsaturated values routed by [encode_value] to the same lane get 8-byte
    keys that compare exactly as the numbers the values denote *)
Theorem C08_same_lane_key_order : forall v p l,
  sval_wf v = true -> sval_wf p = true ->
  saturates v = false -> saturates p = false ->
  lane_of v = Some l -> lane_of p = Some l ->
  exists kv kp a b,
    encode_value v = Some kv /\ encode_value p = Some kp /\
    num_of v = Some a /\ num_of p = Some b /\
    length kv = 8%nat /\ length kp = 8%nat /\
    bytes_cmp kv kp = Z.compare a b.
Proof. exact same_lane_key_order. Qed.
Print Assumptions C08_same_lane_key_order.

(** once the numeric-consistency gate passed, every key inserted into a zone's trie has
    length 8 *)
Theorem C08_surf_keys_len8 : forall zs id rows k,
  gate zs = true -> In (id, rows) zs ->
  In k (key_dedup (key_sort (present_keys rows))) -> length k = 8%nat.
Proof. exact surf_keys_len8. Qed.
Print Assumptions C08_surf_keys_len8.

(** the trie built from a key list is well formed and holds exactly those keys *)
Theorem C08_trie_build_keys : forall ks,
  wf_t (t_build ks) /\ forall k, In k (keys_t (t_build ks)) <-> In k ks.
Proof. exact t_build_spec. Qed.
Print Assumptions C08_trie_build_keys.

(** [find_first_key_geq]: the least key >= target; [None] iff every key is smaller *)
Theorem C08_trie_first_geq_spec : forall ks target,
  match find_first_key_geq (t_build ks) target with
  | Some r => In r ks /\ ble target r /\ forall k, In k ks -> ble target k -> ble r k
  | None => forall k, In k ks -> blt k target
  end.
Proof. exact first_geq_spec. Qed.
Print Assumptions C08_trie_first_geq_spec.

(** [find_last_key_leq] for keys of the target's length: the greatest key <= target *)
Theorem C08_trie_last_leq_spec_uniform : forall ks target,
  (forall k, In k ks -> length k = length target) ->
  match find_last_key_leq (t_build ks) target with
  | Some r => In r ks /\ ble r target /\ forall k, In k ks -> ble k target -> ble k r
  | None => forall k, In k ks -> blt target k
  end.
Proof. exact last_leq_spec_uniform. Qed.
Print Assumptions C08_trie_last_leq_spec_uniform.

(** [may_overlap_ge] (inclusive and exclusive) is exact for every key list *)
Theorem C08_trie_may_overlap_ge_exact : forall ks lower (incl : bool),
  may_overlap_ge (t_build ks) lower incl = true <->
  exists k, In k ks /\ (if incl then ble lower k else blt lower k).
Proof. exact may_overlap_ge_exact. Qed.
Print Assumptions C08_trie_may_overlap_ge_exact.

(** [may_overlap_le] is exact for keys of the bound's length *)
Theorem C08_trie_may_overlap_le_exact_uniform : forall ks upper (incl : bool),
  (forall k, In k ks -> length k = length upper) ->
  (may_overlap_le (t_build ks) upper incl = true <->
   exists k, In k ks /\ (if incl then ble k upper else blt k upper)).
Proof. exact may_overlap_le_exact_uniform. Qed.
Print Assumptions C08_trie_may_overlap_le_exact_uniform.

(** [may_overlap_le] has no false negative unless some key is a proper prefix of the bound *)
Theorem C08_trie_may_overlap_le_sound_outside_known : forall ks upper (incl : bool),
  ~ SurfTrieProperPrefixKey ks upper ->
  (exists k, In k ks /\ (if incl then ble k upper else blt k upper)) ->
  may_overlap_le (t_build ks) upper incl = true.
Proof. exact may_overlap_le_sound_outside_known. Qed.
Print Assumptions C08_trie_may_overlap_le_sound_outside_known.

(** ... and with such a key it has one: keys "a","abz", target "aba".  Latent: the builder
    inserts 8-byte keys only, and a probe that denotes a number has an 8-byte key too (a probe
    without a number may have a longer key, but [sat] is false of it), so
    [C08_surf_sound_outside_known] meets keys of the target's length only. *)
Theorem C08_trie_last_leq_prefix_refuted :
  exists ks target k,
    In k ks /\ ble k target /\
    find_last_key_leq (t_build ks) target = None /\
    may_overlap_le (t_build ks) target true = false.
Proof. exact last_leq_prefix_refuted. Qed.
Print Assumptions C08_trie_last_leq_prefix_refuted.

(** When the pruner answers [Some res], every zone holding a row that satisfies the probe is in [res]
    — unless the row falls in a known class:
    a double equal to 2^63 or >= 2^64 is involved (SurfSaturatedFloat) / row and literal are
    encoded in different lanes (SurfCrossLane).  A third class, the zone's first event lacks the
    field (SurfFirstRowLacksField), is answered by [known_class] only while
    [surf_keys_from_first_event] is [true]; Gen/Params.v has [false] (sneldb commit 8af8f84 takes
    the field set from every event), so on this tree it excludes no row that has a value.
    ([None] = the caller scans all zones.) *)
Theorem C08_surf_sound_outside_known : forall zs op p res id rows v,
  prune zs op p = Some res ->
  In (id, rows) zs -> In (Some v) rows ->
  sval_wf v = true -> sval_wf p = true ->
  sat op v p = true ->
  known_class rows v p = None ->
  In id res.
Proof. exact surf_sound_outside_known. Qed.
Print Assumptions C08_surf_sound_outside_known.

(** values and probe in one lane and every row has the field: full soundness *)
Theorem C08_surf_sound_same_lane : forall zs op p l res,
  (forall id rows r, In (id, rows) zs -> In r rows ->
     exists v, r = Some v /\ sval_wf v = true /\ saturates v = false /\ lane_of v = Some l) ->
  sval_wf p = true -> saturates p = false -> lane_of p = Some l ->
  prune zs op p = Some res ->
  forall id rows v, In (id, rows) zs -> In (Some v) rows -> sat op v p = true -> In id res.
Proof. exact surf_sound_same_lane. Qed.
Print Assumptions C08_surf_sound_same_lane.

(** The unrestricted statement is false of the model: witnesses of the two live classes. *)
Theorem C08_surf_sound_refuted_float_lanes :
  false_negative [(0, [Some (VFloat 4611686018427387904)])] OGte (VFloat 4610334938539176755) SurfCrossLane.
Proof. exact surf_refuted_float_lanes. Qed.
Print Assumptions C08_surf_sound_refuted_float_lanes.

Theorem C08_surf_sound_refuted_u64_lane :
  false_negative [(0, [Some (VStr str_2p63_5 None)])] OGt (VInt 10) SurfCrossLane.
Proof. exact surf_refuted_u64_lane. Qed.
Print Assumptions C08_surf_sound_refuted_u64_lane.

Theorem C08_surf_sound_refuted_int_vs_fraction :
  false_negative [(0, [Some (VInt 2)])] OGt (VFloat 4609434218613702656) SurfCrossLane.
Proof. exact surf_refuted_int_vs_fraction. Qed.
Print Assumptions C08_surf_sound_refuted_int_vs_fraction.

Theorem C08_surf_sound_refuted_saturation :
  false_negative [(0, [Some (VFloat 4899916394579099648)])] OGt (VFloat 4895412794951729152) SurfSaturatedFloat.
Proof. exact surf_refuted_saturation. Qed.
Print Assumptions C08_surf_sound_refuted_saturation.

(** Stated under the flag, which is [false] on this tree: the premise cannot be met and the proof
    checks no witness.  With [true] it is the witness of SurfFirstRowLacksField. *)
Theorem C08_surf_sound_refuted_first_row :
  surf_keys_from_first_event = true ->
  false_negative [(0, [None; Some (VInt 5)]); (1, [Some (VInt 0)])] OGt (VInt 1) SurfFirstRowLacksField.
Proof. exact surf_refuted_first_row. Qed.
Print Assumptions C08_surf_sound_refuted_first_row.

(** Part C: the context index ([ZoneIndex]: event type -> context id -> zone ids, filled by
    [ZoneWriter::write_all] on flush and compaction, asked by [find_candidate_zones] for
    `FOR <context>` / `context_id = ...`).  Model: Model/CtxIndex.v; proofs: Proofs/CtxIndexProofs.v.
    [zone_holds zps et c z]: some zone plan of the list has id [z], event type [et] and a row of
    context [c] (the brute-force scan). *)
From Snel Require Model.CtxIndex Proofs.CtxIndexProofs.

(** A probe by context reports every zone holding a row of the context. *)
Theorem C08c_ctx_probe_sound : forall zps et c z,
  CtxIndex.zone_holds zps et c z -> In z (CtxIndex.find (CtxIndex.build zps) et (Some c)).
Proof. exact CtxIndexProofs.ctx_probe_sound. Qed.
Print Assumptions C08c_ctx_probe_sound.

(** A probe without a context reports every zone holding any row of the event type. *)
Theorem C08c_ctx_probe_none_sound : forall zps et c z,
  CtxIndex.zone_holds zps et c z -> In z (CtxIndex.find (CtxIndex.build zps) et None).
Proof. exact CtxIndexProofs.ctx_probe_none_sound. Qed.
Print Assumptions C08c_ctx_probe_none_sound.

(** The modelled index is exact: a zone is reported for a context iff it holds a row of it. *)
Theorem C08c_ctx_probe_exact : forall zps et c z,
  In z (CtxIndex.find (CtxIndex.build zps) et (Some c)) <-> CtxIndex.zone_holds zps et c z.
Proof. exact CtxIndexProofs.ctx_probe_exact. Qed.
Print Assumptions C08c_ctx_probe_exact.
