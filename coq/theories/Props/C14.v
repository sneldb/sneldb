(** C14 — SHOW of a remembered query equals the live query, each event once.
    Only the property theorems, each closed by [exact] ([C14_any_arrival_order]: by the four lemmas it puts
    together), with [Print Assumptions] beneath.
    Model: Model/Materialize.v ([step], [run], [remember_frames], [show_frames], [show_output],
    [frames_mark], [classes_of] are the functions that are extracted and run against the real engine);
    proofs and specification-level definitions ([reach], [good_op], [no_known], [shows_ok], [is_answer],
    [live], [witness_of]): Proofs/MaterializeProofs.v.

    Quantification: all layouts (shards, segments, zones, file times), all sequences of new quiescent layouts
    (STORE, FLUSH, compaction and restart are "the next layout holds at least the events of the previous one"),
    all queries with FOR / WHERE / SINCE on the core timestamp, all arrival orders of the batches of every
    REMEMBER and SHOW, any number of remembered queries and SHOWs.

    KnownClass (decidable, computed by [classes_of] in the state an operation is applied to):
    [PayloadTimeField], [LimitNotReapplied], [EventNotAboveMark], [RawStreamDuplicates],
    [SegmentOlderThanEvent], [InterruptedRefresh]. *)
From Coq Require Import NArith List Bool Permutation.
From Snel Require Import Model.Materialize Proofs.MaterializeProofs.
Import ListNotations.
Open Scope N_scope.

(** In a state reached through operations none of which falls into a known class, every SHOW returns exactly
    the events the live query selects at that moment, each once (whatever the arrival order of its own delta). *)
Theorem C14_show_eq_query_reach : forall st name ch st' out nf m c,
  reach st ->
  step st (OShow name ch) = (st', ObsShow out nf m c) ->
  exists en, lookup name (st_entries st) = Some en /\
    Permutation out (sel (n_q en) (st_layout st)) /\ NoDup (map e_k out).
Proof. exact show_eq_query_reach. Qed.
Print Assumptions C14_show_eq_query_reach.

(** The arrival order of the batches gives no class ([MarkOfLastFrame] of [known_class] never occurs, the mark
    being the maximum over the frames): the mark dominates every stored row whatever the order of the frames … *)
Theorem C14_mark_dominates_every_row : forall fs f e,
  In f fs -> In e f -> mle (ekey e) (frames_mark fs) = true.
Proof. exact frames_mark_ge_row. Qed.
Print Assumptions C14_mark_dominates_every_row.

(** … a SHOW never falls into a known class, and a REMEMBER only through its query (payload time field, LIMIT):
    for a query on the core timestamp without LIMIT, REMEMBER and SHOW are good operations for EVERY admissible
    arrival order of their batches. *)
Theorem C14_any_arrival_order : forall st name q ch,
  (forall c, In c (classes_of st (ORemember name q ch)) ->
     (c = PayloadTimeField /\ q_tf q = TPayload) \/ (c = LimitNotReapplied /\ q_limit q <> None)) /\
  (q_tf q = TCore -> q_limit q = None -> good_op st (ORemember name q ch)) /\
  good_op st (OShow name ch) /\
  (forall c, In c (classes_of st (OShowFail name ch)) -> c = InterruptedRefresh).
Proof.
  intros st name q ch. split; [apply remember_classes|]. split; [apply remember_good|].
  split; [apply show_good|apply showfail_classes].
Qed.
Print Assumptions C14_any_arrival_order.

(** [w_lastframe], the memtable batch stored before the segment batch: no class, admissible, every SHOW an answer *)
Theorem C14_former_MarkOfLastFrame_witness_exact :
  classes_along init w_lastframe = [] /\ ~ In ObsBadChoice (run init w_lastframe) /\ shows_ok_b init w_lastframe = true
  /\ no_known init w_lastframe.
Proof. exact former_lastframe_witness_now_exact. Qed.
Print Assumptions C14_former_MarkOfLastFrame_witness_exact.

(** The invariant behind it: the stored frames of every remembered query are exactly the matching events at
    or below its mark. *)
Theorem C14_stored_below_mark : forall st, reach st ->
  layout_ok (st_layout st) /\
  forall name en, In (name, en) (st_entries st) ->
    core_q (n_q en) /\
    Permutation (concat (n_frames en))
      (filter (below (n_q en) (frames_mark (n_frames en))) (content (st_layout st))) /\
    mle (n_cat en) (frames_mark (n_frames en)) = true.
Proof. exact reach_inv. Qed.
Print Assumptions C14_stored_below_mark.

(** The clock condition of the property: if every new event carries a second not below and an id above those of
    every event already stored (one shard, or a millisecond clock advancing between applied STOREs, and a wall
    clock that does not step back), no event is late for any remembered query — the class [EventNotAboveMark]
    cannot occur. *)
Theorem C14_monotone_clock_suffices : forall st l,
  Inv st -> zero_id l = false ->
  (forall e, In e (content l) -> ~ In e (content (st_layout st)) ->
     forall e0, In e0 (content (st_layout st)) -> e_ts e0 <= e_ts e /\ e_id e0 < e_id e) ->
  some_late st l = false.
Proof. exact monotone_clock_not_late. Qed.
Print Assumptions C14_monotone_clock_suffices.

(** Repeating SHOW with no new data returns the same rows, appends no frame and leaves the mark. *)
Theorem C14_show_idempotent : forall st name ch1 ch2 st1 out1 nf1 m1 c1 st2 out2 nf2 m2 c2,
  reach st ->
  step st (OShow name ch1) = (st1, ObsShow out1 nf1 m1 c1) ->
  step st1 (OShow name ch2) = (st2, ObsShow out2 nf2 m2 c2) ->
  Permutation out2 out1 /\ nf2 = [] /\ m2 = m1 /\ c2 = c1.
Proof. exact show_idempotent. Qed.
Print Assumptions C14_show_idempotent.

(** Faults during SHOW.  SHOW persists in two steps: delta frames are appended to the store while the response
    streams, the catalog entry (with its own copy of the mark) is rewritten only after the response was written.
    [OShowFail]: the client hung up (or the process died) in between — any duplicate-free selection of the delta
    batches has been appended, the catalog entry is untouched ([C14_failed_show_state]).  Outside the known
    classes the invariant survives (the catalog mark never runs ahead of the store's, the next SHOW filters
    against the store's mark), so after a failed SHOW and any further good operations — STOREs, FLUSH,
    compaction, restart, more failed SHOWs — every SHOW again returns exactly the live selection, each event
    once. *)
Theorem C14_failed_show_then_show_exact : forall st name ch1 st1 ap m1 c1 ops st2 name2 ch2 st3 out nf m c,
  reach st -> good_op st (OShowFail name ch1) ->
  step st (OShowFail name ch1) = (st1, ObsShowFailed ap m1 c1) ->
  no_known st1 ops -> st2 = fold_left (fun s o => fst (step s o)) ops st1 ->
  step st2 (OShow name2 ch2) = (st3, ObsShow out nf m c) ->
  exists en, lookup name2 (st_entries st2) = Some en /\
    Permutation out (sel (n_q en) (st_layout st2)) /\ NoDup (map e_k out).
Proof. exact failed_show_then_show_exact. Qed.
Print Assumptions C14_failed_show_then_show_exact.

Theorem C14_failed_show_state : forall st name ch st' ap m c en,
  lookup name (st_entries st) = Some en ->
  step st (OShowFail name ch) = (st', ObsShowFailed ap m c) ->
  c = n_cat en /\ m = frames_mark (n_frames en ++ ap) /\
  lookup name (st_entries st') = Some (mkEntry (n_q en) (n_frames en ++ ap) (n_cat en)).
Proof. exact failed_show_state. Qed.
Print Assumptions C14_failed_show_state.

(** … but NOT for every interruption: if the aborted refresh appended a batch and left out one holding a row
    that is not above the appended batch's mark, that row is never delivered again. *)
Theorem C14_refuted_InterruptedRefresh : witness_of InterruptedRefresh w_interrupted.
Proof. exact show_eq_query_refuted_interrupted. Qed.
Print Assumptions C14_refuted_InterruptedRefresh.

(** the hypotheses are satisfiable: three failed SHOWs (nothing appended / whole delta appended / the older of two
    batches appended), catalog mark behind the store's mark, every later SHOW exact *)
Theorem C14_failed_show_example : no_known init ex_fail_ops /\
  map (fun o => match o with
                | ObsShow out _ m c => (map e_k out, m, c)
                | ObsShowFailed ap m c => (map e_k (concat ap), m, c)
                | _ => ([], (0, 0), (0, 0)) end) (run init ex_fail_ops)
  = [ ([], (0, 0), (0, 0)); ([], (0, 0), (0, 0)); ([], (10, 100), (10, 100)); ([], (0, 0), (0, 0));
      ([2], (11, 200), (10, 100)); ([1; 2], (11, 200), (10, 100)); ([], (0, 0), (0, 0));
      ([3], (12, 300), (10, 100)); ([1; 2; 3; 4], (13, 400), (13, 400)); ([1; 2; 3; 4], (13, 400), (13, 400)) ].
Proof. exact (conj ex_fail_no_known ex_fail_outputs). Qed.
Print Assumptions C14_failed_show_example.

(** Several remembered queries side by side (names are compared exactly; the model identifies a view by a number).
    Frame property: an operation on view [a] leaves the entry of every other view [b] — query, store (frames, hence
    the store's mark) and catalog mark — unchanged; for all histories; and what an operation on [a] answers and does to
    [a] depends on the layout and on [a]'s own entry only. *)
Theorem C14_frame_property : forall st o b, op_view o <> Some b ->
  lookup b (st_entries (fst (step st o))) = lookup b (st_entries st).
Proof. exact frame_property. Qed.
Print Assumptions C14_frame_property.

Theorem C14_frame_property_history : forall ops st b,
  (forall o, In o ops -> op_view o <> Some b) ->
  lookup b (st_entries (run_state st ops)) = lookup b (st_entries st).
Proof. exact frame_property_history. Qed.
Print Assumptions C14_frame_property_history.

Theorem C14_view_independent : forall st st' o a,
  op_view o = Some a ->
  st_layout st = st_layout st' ->
  lookup a (st_entries st) = lookup a (st_entries st') ->
  snd (step st o) = snd (step st' o) /\
  lookup a (st_entries (fst (step st o))) = lookup a (st_entries (fst (step st' o))).
Proof. exact view_independent. Qed.
Print Assumptions C14_view_independent.

(** three views (two WHERE constants over one type, one over another type), a rejected REMEMBER, a failed SHOW: no
    class, every SHOW the live selection of its OWN query *)
Theorem C14_several_views_example : no_known init ex_views_ops /\
  map (fun o => match o with ObsShow out _ _ _ => map e_k out | ObsRejected => [99] | ObsShowFailed ap _ _ => 77 :: map e_k (concat ap) | _ => [] end)
      (run init ex_views_ops)
  = [[]; []; []; []; [99]; []; [1; 4]; [77; 5]; [2]; [3; 5]; [1; 4]].
Proof. exact (conj ex_views_no_known ex_views_outputs). Qed.
Print Assumptions C14_several_views_example.

(** REMEMBER under an existing name is rejected and changes nothing; under a fresh name it is not rejected. *)
Theorem C14_remember_dup_rejected : forall st name q ch en,
  lookup name (st_entries st) = Some en -> step st (ORemember name q ch) = (st, ObsRejected).
Proof. exact remember_dup_rejected. Qed.
Print Assumptions C14_remember_dup_rejected.

Theorem C14_remember_fresh_accepted : forall st name q ch,
  lookup name (st_entries st) = None -> snd (step st (ORemember name q ch)) <> ObsRejected.
Proof. exact remember_fresh_accepted. Qed.
Print Assumptions C14_remember_fresh_accepted.

(** The full property — every SHOW of every history is an answer of the live query — is FALSE of the model
    (and of the code; each witness below was replayed on the real engine, corpus/C14): *)
Theorem C14_show_eq_query_refuted : exists ops, side_ok init ops = true /\ ~ shows_ok init ops.
Proof. exact show_eq_query_refuted. Qed.
Print Assumptions C14_show_eq_query_refuted.

(** one witness per class, in which no other class occurs and every arrival order is admissible *)
Theorem C14_refuted_PayloadTimeField_dup : witness_of PayloadTimeField w_payload_dup.
Proof. exact show_eq_query_refuted_payload_dup. Qed.
Print Assumptions C14_refuted_PayloadTimeField_dup.
Theorem C14_refuted_PayloadTimeField_lost : witness_of PayloadTimeField w_payload_lost.
Proof. exact show_eq_query_refuted_payload_lost. Qed.
Print Assumptions C14_refuted_PayloadTimeField_lost.
Theorem C14_refuted_PayloadTimeField_hidden : witness_of PayloadTimeField w_payload_hidden.
Proof. exact show_eq_query_refuted_payload_hidden. Qed.
Print Assumptions C14_refuted_PayloadTimeField_hidden.
Theorem C14_refuted_EventNotAboveMark : witness_of EventNotAboveMark w_same_ms.
Proof. exact show_eq_query_refuted_same_ms. Qed.
Print Assumptions C14_refuted_EventNotAboveMark.
Theorem C14_refuted_EventNotAboveMark_component_max : witness_of EventNotAboveMark w_component_max.
Proof. exact show_eq_query_refuted_component_max. Qed.
Print Assumptions C14_refuted_EventNotAboveMark_component_max.
Theorem C14_refuted_LimitNotReapplied : witness_of LimitNotReapplied w_limit.
Proof. exact show_eq_query_refuted_limit. Qed.
Print Assumptions C14_refuted_LimitNotReapplied.
Theorem C14_refuted_RawStreamDuplicates : witness_of RawStreamDuplicates w_window.
Proof. exact show_eq_query_refuted_window. Qed.
Print Assumptions C14_refuted_RawStreamDuplicates.
Theorem C14_refuted_SegmentOlderThanEvent : witness_of SegmentOlderThanEvent w_mtime.
Proof. exact show_eq_query_refuted_mtime. Qed.
Print Assumptions C14_refuted_SegmentOlderThanEvent.

(** The strongest true statement: outside the known classes (and with events only ever added and event ids
    non-zero, which are C01/C03/C05/C18's business) every SHOW of every history is an answer. *)
Theorem C14_show_eq_query_outside_known : forall ops st,
  reach st -> no_known st ops -> shows_ok st ops.
Proof. exact show_eq_query_outside_known. Qed.
Print Assumptions C14_show_eq_query_outside_known.

(** no [KnownClass] means [classes_of] is empty: the first half of [good_op] (the other half is the two side
    conditions of a layout change) *)
Theorem C14_no_class_is_good : forall st o, (forall c, ~ KnownClass c st o) -> classes_of st o = [].
Proof. exact no_class_good. Qed.
Print Assumptions C14_no_class_is_good.

(** the hypotheses are satisfiable by a non-trivial history (two shards, flush, re-zoning, an event on the
    high-water second, WHERE / FOR / SINCE, a rejected second REMEMBER, four SHOWs) *)
Theorem C14_outside_known_example : no_known init ex_ops /\
  map (fun o => match o with ObsShow out _ _ _ => map e_k out | ObsRejected => [99] | _ => [] end) (run init ex_ops)
  = [[]; []; [99]; []; [1; 3]; []; [1; 3; 4]; [1; 3; 4]; []; [1; 3; 4; 6]].
Proof. exact (conj ex_no_known ex_outputs). Qed.
Print Assumptions C14_outside_known_example.
