(** C15 — sequence queries return exactly the linked, correctly ordered pairs.
    This file contains only the property theorems, each closed by [exact], with [Print Assumptions]
    beneath.  Model: Model/Sequence.v ([matcher] = ColumnarGrouper + SequenceWhereEvaluator +
    SequenceMatcher, [seq_query] = the per-type sub-queries with the pushed-down WHERE followed by
    [matcher]; both are extracted and run against the real code); proofs and the specification-level
    definitions used below ([linked], [ts_le], [time_le], [time_lt]): Proofs/SequenceProofs.v;
    [subseq] and the at-most-once theorems: Proofs/SequenceOnce.v.

    WHERE trees are over integer comparisons only.  [ts] is the u64 reading of the time field the code compares
    ([time_ok]: the time is present and non-negative, so that this reading orders like the integers).

    KnownClass (decidable, in the model; PRECEDED BY has none of its own):
    [negb (conjunctive_where fa fb wh ta tb)] (CrossTypeOrNot; with an un-prefixed comparison on a
    field only one schema declares: UnprefixedFieldAppliedToBothTypes, [has_unprefixed_one_sided]),
    [negb (time_ok e)] (TimeNotU64Ordered), [link_alias s s'] (LinkTextAliasesInteger), a link cell
    that is absent and therefore read as [null_text] (AbsentLinkGroupedAsNull).  [seq_query] takes each
    sub-query to be an exact row filter ([sub_query], Model/Sequence.v); where the engine's is not, a
    WHERE with a NOT over a flushed segment, the class is SubQueryNotComplement ([not_complement_loss]),
    which the harness decides and no theorem below mentions.  [linked a b] is
    equality of the link keys as the grouper reads them; the last two classes are exactly where that
    differs from equality of the stored link values.  [fa], [fb]: the fields the two schemas declare. *)
From Coq Require Import NArith ZArith List Bool Sorted.
From Snel Require Import Base.Bytes Model.Sequence Proofs.SequenceProofs Proofs.SequenceOnce.
Import ListNotations.
Open Scope N_scope.

(** Every returned pair is made of an a-row and a b-row given to the matcher that carry the same
    link key, stand in the right time relation ([>=] for FOLLOWED BY, strictly [<] for PRECEDED
    BY) and each satisfy the WHERE conditions addressed to their side. *)
Theorem C15_pairs_sound : forall lk wh ta tb limit la lb a b,
  In (a, b) (matcher lk wh ta tb limit la lb) ->
  In a la /\ In b lb /\ linked a b /\
  match lk with FollowedBy => ts a <= ts b | PrecededBy => ts b < ts a end /\
  where_row wh ta a = true /\ where_row wh tb b = true.
Proof. exact pairs_sound. Qed.
Print Assumptions C15_pairs_sound.

(** The FOLLOWED BY sweep on time-sorted lists, when WHERE accepts every pair of the two lists:
    an a-row is matched iff a b-row at the same time or later exists.  (Sortedness of the b-list is
    asked as in the PRECEDED BY twin below; this link does not need it.) *)
Theorem C15_followed_by_matched_iff : forall w la lb,
  Sorted ts_le la -> Sorted ts_le lb ->
  (forall a b, In a la -> In b lb -> w a b = true) ->
  forall a, In a la ->
  ((exists b, In (a, b) (followed_by w la lb)) <-> (exists b, In b lb /\ ts a <= ts b)).
Proof. exact followed_by_matched_iff. Qed.
Print Assumptions C15_followed_by_matched_iff.

(** The matcher in isolation is incomplete: a@1, b1@2 (fails [pb.y = 1]), b2@3 (passes) — the sweep
    spends [a] on b1 and never looks at b2. *)
Theorem C15_matcher_incomplete_refuted :
  let wh := Some (ECmp (Some t_pb) f_y OpEq 1) in
  let a := ev 0 7 1 f_x 0 in
  let b1 := ev 0 7 2 f_y 0 in
  let b2 := ev 1 7 3 f_y 1 in
  matcher FollowedBy wh t_pa t_pb None [a] [b1; b2] = [] /\
  linked a b2 /\ ts a <= ts b2 /\ where_row wh t_pa a = true /\ where_row wh t_pb b2 = true.
Proof. exact matcher_incomplete_refuted. Qed.
Print Assumptions C15_matcher_incomplete_refuted.

(** The push-down of WHERE into the two per-type sub-queries is exact on conjunctions of one-sided
    conditions (plus un-prefixed comparisons as conjuncts) ... *)
Theorem C15_pushdown_exact_for_conjunctions : forall fa fb e ta tb a b,
  bytes_eqb ta tb = false -> conjunctive fa fb e ta tb = true ->
  eval_pair fa fb e ta tb a b = where_row (Some e) ta a && where_row (Some e) tb b.
Proof. exact pushdown_exact_for_conjunctions. Qed.
Print Assumptions C15_pushdown_exact_for_conjunctions.

(** ... and wrong for an OR that spans both types: [pa.x = 1 OR pb.y = 2] holds of the pair
    (a with x = 1, b with y = 0), yet the b-row is filtered out and the query returns nothing. *)
Theorem C15_pushdown_refuted :
  let e := EOr (ECmp (Some t_pa) f_x OpEq 1) (ECmp (Some t_pb) f_y OpEq 2) in
  let a := ev 0 7 1 f_x 1 in
  let b := ev 0 7 2 f_y 0 in
  eval_pair [f_x] [f_y] e t_pa t_pb a b = true /\ where_row (Some e) t_pb b = false /\
  seq_query FollowedBy (Some e) t_pa t_pb None [a] [b] = [] /\ conjunctive [f_x] [f_y] e t_pa t_pb = false.
Proof. exact pushdown_refuted. Qed.
Print Assumptions C15_pushdown_refuted.

(** The property for FOLLOWED BY on the composed pipeline (sub-queries with the pushed-down WHERE,
    grouping by link key, sweep, no LIMIT): for a conjunctive WHERE and times the u64 reading
    orders correctly, an a-event is matched if and only if some b-event carries the same link value,
    is at the same time or later, and the pair satisfies the WHERE. *)
Theorem C15_matched_iff_exists_followed_by : forall fa fb wh ta tb sa sb,
  bytes_eqb ta tb = false -> conjunctive_where fa fb wh ta tb = true ->
  (forall e, In e (sa ++ sb) -> time_ok e = true) ->
  forall a, In a sa ->
  ((exists b, In (a, b) (seq_query FollowedBy wh ta tb None sa sb)) <->
   (exists b, In b sb /\ linked a b /\ time_le a b /\ spec_where fa fb wh ta tb a b = true)).
Proof. exact matched_iff_exists_followed_by. Qed.
Print Assumptions C15_matched_iff_exists_followed_by.

(** The property for PRECEDED BY on the composed pipeline, with no KnownClass of its own (the sweep
    advances the a pointer when no earlier b exists, sneldb 49473e7, class PrecededByBlockedByEarlyA of known/C15.json; [preceded_by_former_witness] is
    the input a@1, b@5, a@10 that depends on it): an a-event is matched if and only if some
    b-event carries the same link value, is strictly earlier, and the pair satisfies the WHERE. *)
Theorem C15_matched_iff_exists_preceded_by : forall fa fb wh ta tb sa sb,
  bytes_eqb ta tb = false -> conjunctive_where fa fb wh ta tb = true ->
  (forall e, In e (sa ++ sb) -> time_ok e = true) ->
  forall a, In a sa ->
  ((exists b, In (a, b) (seq_query PrecededBy wh ta tb None sa sb)) <->
   (exists b, In b sb /\ linked a b /\ time_lt b a /\ spec_where fa fb wh ta tb a b = true)).
Proof. exact matched_iff_exists_preceded_by. Qed.
Print Assumptions C15_matched_iff_exists_preceded_by.

(** The PRECEDED BY sweep on time-sorted lists, when WHERE accepts every pair of the two lists: an
    a-row is matched iff a strictly earlier b-row exists. *)
Theorem C15_preceded_by_matched_iff : forall w la lb,
  Sorted ts_le la -> Sorted ts_le lb ->
  (forall a b, In a la -> In b lb -> w a b = true) ->
  forall a, In a la ->
  ((exists b, In (a, b) (preceded_by w la lb)) <-> (exists b, In b lb /\ ts b < ts a)).
Proof. exact preceded_by_matched_iff. Qed.
Print Assumptions C15_preceded_by_matched_iff.

(** LIMIT bounds the number of matched sequences; the limited answer is a prefix of the unlimited. *)
Theorem C15_limit_bounds : forall lk wh ta tb n la lb,
  (length (matcher lk wh ta tb (Some n) la lb) <= N.to_nat n)%nat /\
  matcher lk wh ta tb (Some n) la lb = firstn (N.to_nat n) (matcher lk wh ta tb None la lb).
Proof. exact limit_bounds. Qed.
Print Assumptions C15_limit_bounds.

(** No a-event is matched twice: when the a-rows given to the matcher are pairwise different (rows
    carry their position), the a-components of the returned pairs are pairwise different. *)
Theorem C15_each_a_matched_at_most_once : forall lk wh ta tb limit la lb,
  NoDup la -> NoDup (map fst (matcher lk wh ta tb limit la lb)).
Proof. exact matched_once. Qed.
Print Assumptions C15_each_a_matched_at_most_once.

(** Within a link group the matched a-rows are reported in the order of the group's a-rows (time
    order), each at most once: the a-components are a subsequence of the group's a-list. *)
Theorem C15_group_matches_follow_a_rows : forall lk w g,
  subseq (map fst (match_group lk w g)) (g_a g).
Proof. exact group_matches_follow_a_rows. Qed.
Print Assumptions C15_group_matches_follow_a_rows.

(** Hence the number of returned sequences never exceeds the number of a-rows (stated, like the theorem
    it follows from, for pairwise different a-rows). *)
Theorem C15_matched_count_le_a_rows : forall lk wh ta tb limit la lb,
  NoDup la -> (length (matcher lk wh ta tb limit la lb) <= length la)%nat.
Proof. exact matched_count_le_a_rows. Qed.
Print Assumptions C15_matched_count_le_a_rows.
