(** C09 — aggregates equal a fold over the events the selection would return.
    Only the property theorems, each closed by [exact], with [Print Assumptions].
    Models: Model/Agg.v, Model/Bucket.v; proofs: Proofs/AggProofs.v (aggregators, partition, sink),
    Proofs/AggSpecProofs.v (typed meaning, COUNT UNIQUE), Proofs/AggPipelineProofs.v (the pipeline),
    Proofs/BucketProofs.v.  [cell_ok], [rows_ok] and the range part of [wf] describe the cells of
    well-typed batches; the theorems that name them hold without them. *)
From Coq Require Import ZArith NArith List Permutation.
From Snel Require Import Base.Bytes Base.Civil Model.Order Model.Bucket Model.Agg
     Proofs.AggProofs Proofs.AggPipelineProofs Proofs.AggSpecProofs Proofs.BucketProofs.
Import ListNotations.
Open Scope Z_scope.

(** [AggState::merge] is commutative, associative and has the initial state as unit
    (on the well-formed states of one metric kind). *)
Theorem C09_agg_merge_assoc_comm : forall k a b c, wf k a -> wf k b -> wf k c ->
  merge_state a b = merge_state b a
  /\ merge_state (merge_state a b) c = merge_state a (merge_state b c)
  /\ merge_state (agg_init k) a = a.
Proof. exact agg_merge_assoc_comm. Qed.
Print Assumptions C09_agg_merge_assoc_comm.

(** A row update is a merge with the one-cell state, so folding a concatenation of rows is
    merging the folds (a monoid homomorphism, exact at the aggregator level), and the order of
    the rows does not matter. *)
Theorem C09_agg_partition : forall k l1 l2, Forall cell_ok l1 -> Forall cell_ok l2 ->
  run k (l1 ++ l2) = merge_state (run k l1) (run k l2)
  /\ (forall l3, Permutation l1 l3 -> run k l1 = run k l3).
Proof. exact (fun k l1 l2 _ _ => conj (run_app k l1 l2) (run_perm k l1)). Qed.
Print Assumptions C09_agg_partition.

(** TOTAL is wrap64(Σ), and Σ itself when Σ fits in i64. *)
Theorem C09_total_is_wrapped_sum : forall l,
  run MTotal l = ASum (wrap_i64 (zsum (cell_ints l)))
  /\ (in_i64 (zsum (cell_ints l)) -> finalize (run MTotal l) = FInt (zsum (cell_ints l))).
Proof. exact (fun l => conj (total_is_wrapped_sum l) (total_exact_when_fits l)). Qed.
Print Assumptions C09_total_is_wrapped_sum.

(** On an integer column (Int64 cells and nulls) converted in one batch the metrics are the typed
    ones: rows, non-null values, wrap64 of the sum, (sum, count),
    least and greatest value (COUNT UNIQUE: see [C09_count_unique_texts]). *)
Theorem C09_int_column_metrics : forall vs, Forall int_or_null vs ->
  let cs := to_cells vs in
  let xs := ints_of vs in
  run MCountAll cs = ACount (wrap_i64 (Z.of_nat (length vs)))
  /\ run MCountField cs = ACount (wrap_i64 (Z.of_nat (length xs)))
  /\ run MTotal cs = ASum (wrap_i64 (zsum xs))
  /\ run MAvg cs = AAvg (wrap_i64 (zsum xs)) (wrap_i64 (Z.of_nat (length xs)))
  /\ run MMin cs = AMin (zmin_list xs) None
  /\ run MMax cs = AMax (zmax_list xs) None.
Proof. exact int_column_metrics. Qed.
Print Assumptions C09_int_column_metrics.

(** What the coordinator merges are snapshots: for MIN, a part that holds only nulls breaks the law. *)
Theorem C09_agg_partition_refuted :
  exists l1 l2, finalize (merge_state (wire (run MMin l1)) (wire (run MMin l2)))
                <> finalize (wire (run MMin (l1 ++ l2))).
Proof. exact agg_partition_min_refuted. Qed.
Print Assumptions C09_agg_partition_refuted.

(** Outside that class: for every split of a group's cells into parts (flows, segments,
    memory), folding the parts, snapshotting, sending and merging gives the same final metric as
    folding the whole list in one part and sending that ([part], which carries [wire] on this side
    too) — for every metric. *)
Theorem C09_agg_partition_outside_known : forall k p ps,
  Forall cell_ok p -> Forall (Forall cell_ok) ps ->
  ~ MinEmptyPartial k (p :: ps) ->
  finalize (merge_parts k p ps) = finalize (part k (p ++ concat ps)).
Proof. exact agg_partition_outside_known. Qed.
Print Assumptions C09_agg_partition_outside_known.

(** Every row lands in exactly one group, every group is the fold of exactly its rows. *)
Theorem C09_each_event_one_group : forall p rs,
  NoDup (map fst (sink_rows p rs))
  /\ (forall k, lookup k (sink_rows p rs) =
                match sel p k rs with
                | [] => None
                | l => Some (fold_left (upd_all (p_metrics p)) l (init_all (p_metrics p)))
                end)
  /\ (forall r, In r rs -> In r (sel p (row_key p r) rs)
                           /\ forall k, k <> row_key p r -> ~ In r (sel p k rs))
  /\ (forall r, In r rs -> In (row_key p r) (map fst (sink_rows p rs))).
Proof. exact each_event_one_group. Qed.
Print Assumptions C09_each_event_one_group.

(** The whole pipeline — a sink per flow, snapshots, partial rows, coordinator merge — over any
    split of the rows into flows: a group is reported iff some row has its key, and then every
    metric is the final value of the fold over exactly the rows with that key, sent as one part
    (outside the known MIN class).  "Reported" is the entry [lookup] finds, the only one under its key
    ([pipeline_nodup], Proofs/AggPipelineProofs.v).  The key is the one the coordinator reads off the partial rows ([wkey]): under PER
    a row without an integer time counts under bucket 0 ([spec_group]). *)
Theorem C09_pipeline_equals_fold : forall p parts k,
  Forall rows_ok parts ->
  ~ MinEmptyContribution p parts k ->
  option_map (map finalize) (lookup k (pipeline p parts)) = spec_group p k (concat parts).
Proof. exact pipeline_equals_fold. Qed.
Print Assumptions C09_pipeline_equals_fold.

(** The sink as it is run (batch by batch, columnar or row path) has a single possible output,
    the [flow_rows] of the theorems above, for EVERY plan: the columnar and the row path key the
    ungrouped aggregators alike (sneldb d49da47, class UngroupedMixedBatchPaths of known/C09.json; [prehash_flag]).
    Hence the function that is extracted and run against the implementation has exactly one
    outcome, the pipeline of [C09_pipeline_equals_fold] followed by the empty-group filter. *)
Theorem C09_flow_alts_single : forall p ng nf batches,
  flow_alts p ng nf batches = [flow_rows p ng nf batches].
Proof. exact flow_alts_single. Qed.
Print Assumptions C09_flow_alts_single.

Theorem C09_merged_groups_alts_single : forall p ng nf flows,
  merged_groups_alts p ng nf flows =
  [filter (fun e => keep_group p (fst e)) (pipeline p (map (rows_of_flow ng nf) flows))].
Proof. exact merged_groups_alts_single. Qed.
Print Assumptions C09_merged_groups_alts_single.

(** COUNT UNIQUE: for every way of cutting a column into batches, each converted on its own (typed
    i64 or text), the aggregator holds exactly the set of the values' texts, and the metric is its
    size (a typed integer counts as its decimal text, sneldb 6631182). *)
Theorem C09_count_unique_texts : forall (batches : list (list value)),
  exists s, run MCountUnique (concat (map to_cells batches)) = AUnique s /\ sset s
            /\ (forall x, In x s <-> In x (map cell_string (concat batches)))
            /\ finalize (run MCountUnique (concat (map to_cells batches))) = FInt (Z.of_nat (length s)).
Proof. exact count_unique_texts. Qed.
Print Assumptions C09_count_unique_texts.

(** LIMIT / OFFSET select whole groups (metrics untouched) out of a permutation of all groups. *)
Theorem C09_limit_caps_groups : forall (V : Type) p limit offset (groups : list (gkey * V)),
  let out := emit_groups p limit offset groups in
  (forall e, In e out -> In e groups)
  /\ (exists sorted, Permutation sorted groups
        /\ out = take_opt limit (match offset with Some o => dropN o | None => fun x => x end sorted))
  /\ (forall n, limit = Some n ->
        N.of_nat (length out) = N.min n (N.of_nat (length groups) - match offset with Some o => o | None => 0%N end)).
Proof. exact @limit_caps_groups. Qed.
Print Assumptions C09_limit_caps_groups.

(** Calendar buckets: bucket <= instant < next bucket ... *)
Theorem C09_bucket_contains : forall ws secs g, 0 <= ws <= 6 ->
  calendar_bucket_secs ws secs g <= secs < calendar_next_secs ws secs g.
Proof. exact bucket_contains. Qed.
Print Assumptions C09_bucket_contains.

(** ... the bucket start is on the hour / day / week-start / first-of-month / 1 January ... *)
Theorem C09_bucket_on_boundary : forall ws secs g, 0 <= ws <= 6 ->
  on_boundary ws g (calendar_bucket_secs ws secs g).
Proof. exact bucket_on_boundary. Qed.
Print Assumptions C09_bucket_on_boundary.

(** ... and the u64 function the sink calls is that computation for valid instants. *)
Theorem C09_calendar_bucket_of_exact : forall ws ts g, 0 <= ws <= 6 ->
  0 <= ts < two63 -> in_chrono_range ts = true -> 0 <= calendar_bucket_secs ws ts g ->
  calendar_bucket_of_opt ws ts g = Some (calendar_bucket_secs ws ts g).
Proof. exact calendar_bucket_of_exact. Qed.
Print Assumptions C09_calendar_bucket_of_exact.
