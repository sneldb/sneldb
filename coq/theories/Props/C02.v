(** C02 — a query returns exactly the matching events, wherever they are stored.
    Only the property theorems, each closed by [exact], with [Print Assumptions] beneath.
    Models: Model/{Value,Expr,Sem,Cond,Prune,Layout,Known}.v; proofs: Proofs/QueryProofs.v.

    [run_query sch ans L q] is what the model of the query path returns from layout [L] (memtable
    rows + segments of zones) when the pruning structure of segment [i] answers [ans i leaf];
    [sat_query sch q] is the specification (Model/Sem.v); [known_class] is the decidable description
    of the known failing inputs (Model/Known.v). *)
From Coq Require Import ZArith NArith List Bool Permutation.
From Snel Require Import Base.Bytes Model.Value Model.Expr Model.Sem Model.Cond Model.Prune Model.Layout
  Model.Known Proofs.QueryProofs.
Import ListNotations.

(** Zone collection over a NOT-free filter tree: if every leaf lists zone [z] whenever [z] holds a
    row satisfying that leaf, the AND/OR combination lists [z] whenever it holds a row satisfying the
    whole tree. *)
Theorem C02_collect_zones_sound_notfree : forall sch ans all g z (rows : list row),
  fg_not_free g = true ->
  (forall l, In l (fg_leaves g) ->
             (exists r, In r rows /\ leaf_sat sch l r = true) ->
             cmem z (leaf_zones sch ans all l) = true) ->
  (exists r, In r rows /\ fg_sat sch g r = true) ->
  cmem z (collect sch ans all false g) = true.
Proof. exact collect_zones_sound_notfree. Qed.
Print Assumptions C02_collect_zones_sound_notfree.

(** The zone complement used for NOT is not a superset: a zone holding a = 1 and a = 2, an exact
    leaf answer for [a = 1], and [NOT a = 1] — the zone is dropped although its second row matches.
    (Read the name as "collect_zones, NOT case: soundness refuted".) *)
Theorem C02_collect_zones_not_refuted :
  (forall l, In l (fg_leaves (FNot (FLeaf nf_leaf))) ->
             (exists r, In r nf_rows /\ leaf_sat nf_schema l r = true) ->
             cmem 0%N (leaf_zones nf_schema nf_ans [0%N] l) = true) /\
  (exists r, In r nf_rows /\ fg_sat nf_schema (FNot (FLeaf nf_leaf)) r = true) /\
  cmem 0%N (collect nf_schema nf_ans [0%N] false (FNot (FLeaf nf_leaf))) = false.
Proof. exact collect_zones_not_refuted. Qed.
Print Assumptions C02_collect_zones_not_refuted.

(** The property as stated is false of the model (hence of the code, see the replayed witnesses):
    a well-typed query over conforming rows and sound (ideal) pruning structures whose answer is not
    the multiset of matching events. *)
Theorem C02_exact_refuted : exists sch ans L q,
  conforming sch L = true /\ wt_query sch q = true /\ leaves_sound sch ans L q = true /\
  ~ Permutation (run_query sch ans L q) (filter (sat_query sch q) (events L)).
Proof. exact exact_refuted. Qed.
Print Assumptions C02_exact_refuted.

(** One closed witness per known class (well-typed query, conforming rows, [known_class] = the class,
    answer different from the matching events), plus a leaf answer that is not a superset. *)
Theorem C02_known_classes_witnessed :
  witness (Some NotComplement) (w_ideal w_seg) w_seg (qw (ENot (ECmp n_a CEq (LInt 1)))) /\
  witness (Some LiteralDropped) (w_ideal w_mem) w_mem (qw (ECmp n_a CGt (LFloat f_1_5 s_1_5))) /\
  witness (Some LiteralDropped) (w_ideal w_seg) w_seg (qw (ECmp n_a CGt (LFloat f_1_5 s_1_5))) /\
  witness (Some FloatColumnIn) (w_ideal w_f2) w_f2 (qw (EIn n_f [LInt 2])) /\
  witness (Some FloatThresholdRounded) (w_ideal w_f53) w_f53 (qw (ECmp n_f CLt (LInt 9007199254740993))) /\
  witness (Some U64NegativeThreshold) (w_ideal w_seg) w_seg (qw (ECmp n_u CGt (LInt (-1)))) /\
  witness (Some U64NegativeThreshold) (w_ideal w_seg) w_seg (qw (ECmp n_u CNe (LInt (-1)))) /\
  witness (Some U64AboveI64Max) (w_ideal w_big) w_big (qw (ECmp n_u CGt (LInt 0))) /\
  witness (Some NumericLookingString) (w_ideal w_mem) w_mem (qw (ECmp n_s CEq (LStr s_007))) /\
  witness (Some StringOrdering) (w_ideal w_mem) w_mem (qw (ECmp n_s CGt (LStr s_p))) /\
  witness (Some NullSpelling) (w_ideal w_mem) w_mem (qw (ECmp n_os CEq (LStr b_null))) /\
  witness (Some NeqOnOptionalText) (w_ideal w_mem) w_mem (qw (ECmp n_os CNe (LStr s_zzz))) /\
  witness (Some NeqOnOptionalText) (w_ideal w_seg) w_seg (qw (ECmp n_os CNe (LStr s_zzz))) /\
  (witness None (fun _ _ => Some []) w_seg (qw (ECmp n_a CEq (LInt 1))) /\
   leaves_sound w_sch (fun _ _ => Some []) w_seg (qw (ECmp n_a CEq (LInt 1))) = false).
Proof.
  exact (conj w_not (conj w_dropped (conj w_dropped_seg (conj w_float_in (conj w_float_round
        (conj w_u64neg (conj w_u64neg_ne (conj w_u64big (conj w_numstr (conj w_strord (conj w_nullsp
        (conj w_neq_opt (conj w_neq_opt_seg w_unsound))))))))))))).
Qed.
Print Assumptions C02_known_classes_witnessed.

(** Closed instances of [C02_exact_outside_known], one per class of known/C02.json with status fixed: a
    comparison on a float field, in memory and on a flushed zone (FloatColumn; both row filters compare a
    Float64 cell, sneldb 85f577c 6311f23), equality on a bool field after FLUSH (BoolColumn, 39dd6e5), [!=] on
    an int field and an unknown enum variant (NeqPruned, EnumUnknownVariant; an index that does not serve the
    operator falls back to all zones, f801704), a negative instant (TemporalNegativeLiteral, db7c428),
    candidate zones of which only some carry a uid (MixedZoneProvenance, d4c8eed).  Each is outside every
    class of [known_class] and answered exactly BY THE MODEL UNDER THE ANSWERS GIVEN: the first six take the
    ideal answers [w_ideal] (exactly the zones holding a satisfying row), so they show the row filters and the
    dispatch around the structures, not the structures.  In particular the flushed [f > 1] instance does not
    say that sneldb answers float ranges exactly after FLUSH: on the real SuRF answer [leaves_sound] is false
    for a range on a float field ([f <= 3] loses zones), the class SurfFloatLanes, status known, of
    known/C02.json, recorded under C08 (surf_sound refuted). *)
Theorem C02_repaired_findings_exact :
  exact_on (w_ideal w_mem) w_mem (qw (ECmp n_f CGt (LInt 1))) /\
  exact_on (w_ideal w_seg) w_seg (qw (ECmp n_f CGt (LInt 1))) /\
  exact_on (w_ideal w_seg) w_seg (qw (ECmp n_b CEq (LStr b_true))) /\
  exact_on (w_ideal w_seg) w_seg (qw (ECmp n_a CNe (LInt 1))) /\
  exact_on (w_ideal w_seg) w_seg (qw (ECmp n_e CNe (LStr s_zzz))) /\
  exact_on (w_ideal w_seg) w_seg (qw (ECmp n_d CGt (LInt (-5)))) /\
  exact_on w_mixed_ans w_two (qw (ECmp n_oi CGe (LInt 0))).
Proof. exact repaired_exact. Qed.
Print Assumptions C02_repaired_findings_exact.

(** Every candidate zone is read, whether or not it carries a uid (sneldb d4c8eed).  The statement is
    [query_hydrate_tagged_only = false] read through [mixed_provenance], which is that flag in a conjunction. *)
Theorem C02_mixed_provenance_gone : forall sch ans L q, mixed_provenance sch ans L q = false.
Proof. exact mixed_provenance_gone. Qed.
Print Assumptions C02_mixed_provenance_gone.

(** The strongest true statement.  For every query (FOR + WHERE with =, !=, <, <=, >, >=, IN, AND, OR) outside the
    classes of [known_class] whose leaves are supersets, QUERY returns exactly the stored events that satisfy
    the specification — as a list, in storage order.  [leaves_sound] is a hypothesis about [ans]: nothing here
    ties [ans] to the structures of C08, and where a structure of the code is not a superset (SuRF on a float
    range: SurfFloatLanes of known/C02.json) the theorem does not apply. *)
Theorem C02_exact_outside_known : forall sch ans L q,
  (forall ev, In ev (events L) -> row_conforms sch (ev_row ev) = true) ->
  known_class sch (events L) q = None ->
  leaves_sound sch ans L q = true ->
  run_query sch ans L q = filter (sat_query sch q) (events L).
Proof. exact exact_outside_known. Qed.
Print Assumptions C02_exact_outside_known.

(** Layout independence there: two layouts holding the same multiset of events give the same
    multiset of answers (memory, flushed, compacted, recovered: only the layout differs). *)
Theorem C02_layout_independent : forall sch ans1 ans2 L1 L2 q,
  Permutation (events L1) (events L2) ->
  (forall ev, In ev (events L1) -> row_conforms sch (ev_row ev) = true) ->
  known_class sch (events L1) q = None ->
  leaves_sound sch ans1 L1 q = true ->
  leaves_sound sch ans2 L2 q = true ->
  Permutation (run_query sch ans1 L1 q) (run_query sch ans2 L2 q).
Proof. exact layout_independent. Qed.
Print Assumptions C02_layout_independent.

(** The hypotheses are satisfiable on a layout with rows in memory and in two segments, a zone that
    mixes matching and non-matching rows, ideal structures, and a compound predicate with FOR, AND,
    OR, IN, an unknown enum variant, a negative number on a u64 field, a float comparison, a bool
    equality and [!=] on an int and an enum field (4 of 6 rows match). *)
Theorem C02_outside_known_example :
  (forall ev, In ev (events ex_L) -> row_conforms w_sch (ev_row ev) = true) /\
  known_class w_sch (events ex_L) ex_q = None /\
  leaves_sound w_sch (w_ideal ex_L) ex_L ex_q = true /\
  wt_query w_sch ex_q = true /\
  length (run_query w_sch (w_ideal ex_L) ex_L ex_q) = 4 /\ length (events ex_L) = 6.
Proof. exact outside_known_example. Qed.
Print Assumptions C02_outside_known_example.

(** … and so are those of layout independence (the same events kept in memory only). *)
Theorem C02_layout_independent_example :
  Permutation (events ex_L) (events ex_L_mem) /\
  leaves_sound w_sch (w_ideal ex_L_mem) ex_L_mem ex_q = true /\
  length (run_query w_sch (w_ideal ex_L_mem) ex_L_mem ex_q) = 4.
Proof. exact layout_independent_example. Qed.
Print Assumptions C02_layout_independent_example.
