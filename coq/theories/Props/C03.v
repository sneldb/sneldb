(** C03 — reads see every applied write exactly once at every stage of its flush.
    This file contains only the property theorems, each closed by [exact],
    with [Print Assumptions] beneath.  Model: Model/Shard.v (validated against
    the engine by trace validation); proofs: Proofs/ShardC03Proofs.v.

    Setting: [s := run (init c) ls] for any label list [ls] without
    [LCrash]/[LRestart] ([no_crash ls]), with [applied ls] the events of the [LStore]
    labels in order, under unique event ids [NoDup (map ek (applied ls))] (C18). *)
From Coq Require Import NArith List Bool Permutation.
From Snel Require Import Model.Shard Proofs.ShardC03Proofs.
Import ListNotations.
Open Scope N_scope.

(** A selection returns every applied event of the type exactly once, at every
    reachable state of a crash-free history. *)
Theorem C03_select_exact : forall c ls u,
  no_crash ls -> NoDup (map ek (applied ls)) ->
  Permutation (select (run (init c) ls) u) (of_uid u (applied ls)).
Proof. exact select_exact. Qed.
Print Assumptions C03_select_exact.

(** Read-your-writes: an applied event is returned by the selection of its type. *)
Theorem C03_read_your_writes : forall c ls e,
  no_crash ls -> NoDup (map ek (applied ls)) ->
  In e (applied ls) -> In e (select (run (init c) ls) (euid e)).
Proof. exact read_your_writes. Qed.
Print Assumptions C03_read_your_writes.

(** Known finding ReadDuringFlushDropsSegmentFlow (confirmed on the engine): while a
    segment carries the in-flight marker and has no files of the queried type, a
    possible outcome of the read is the in-memory rows only; an applied event of a
    complete, published segment is then missing. *)
Theorem C03_fragile_outcome_refuted :
  exists c ls u e,
    let s := run (init c) ls in
    no_crash ls /\ NoDup (map ek (applied ls)) /\
    ReadDuringFlushDropsSegmentFlow s u = true /\
    In e (applied ls) /\ euid e = u /\
    In (select_mem_only s u) (select_outcomes s u) /\ ~ In e (select_mem_only s u).
Proof. exact fragile_outcome_refuted. Qed.
Print Assumptions C03_fragile_outcome_refuted.

(** Outside that class the read has one possible outcome, and it is exact. *)
Theorem C03_outcomes_exact_outside_known : forall c ls u,
  no_crash ls -> NoDup (map ek (applied ls)) ->
  let s := run (init c) ls in
  ReadDuringFlushDropsSegmentFlow s u = false ->
  select_outcomes s u = [select s u] /\
  forall r, In r (select_outcomes s u) -> Permutation r (of_uid u (applied ls)).
Proof. exact outcomes_exact_outside_known. Qed.
Print Assumptions C03_outcomes_exact_outside_known.

(** COUNT differs from the number of selected events in one known class, CountDuringFlush: between
    FwPublish and FwClear the rotated events are in the passive copy and in the published segment and are
    counted twice.  (An event of another type in memory is not counted, sneldb commit dc170f4: [count]
    reads the regenerated flag [Params.agg_mem_filters_type], so the theorems below stop checking if the
    in-memory rows are aggregated without the type condition.) *)
Theorem C03_count_refuted :
  exists c ls u, let s := run (init c) ls in
     no_crash ls /\ NoDup (map ek (applied ls)) /\
     CountDuringFlush s = true /\
     jobs s = [mkJob 0 (applied ls) StPublished] /\
     count s u = 2 /\ len (select s u) = 1.
Proof. exact count_refuted. Qed.
Print Assumptions C03_count_refuted.

(** Outside that class (no row both in memory and in a scanned segment) COUNT equals the number of
    selected events, hence (by [C03_select_exact]) the number of applied events of the type - whatever
    other event types memory holds. *)
Theorem C03_count_exact_outside_known : forall c ls u,
  no_crash ls -> NoDup (map ek (applied ls)) ->
  let s := run (init c) ls in
  CountDuringFlush s = false ->
  count s u = len (select s u).
Proof. exact count_exact_outside_known. Qed.
Print Assumptions C03_count_exact_outside_known.

(** One event of type 1 in memory: COUNT for type 0 is 0. *)
Theorem C03_count_other_type_exact :
  let s := run (init 2) ls_count_a in
  no_crash ls_count_a /\ NoDup (map ek (applied ls_count_a)) /\ mem_rows s = [mkEv 0 0 1] /\
  CountDuringFlush s = false /\ count s 0 = 0 /\ select s 0 = [] /\ count s 1 = 1.
Proof. exact count_other_type_exact. Qed.
Print Assumptions C03_count_other_type_exact.

(** The class [CountDuringFlush] says exactly: some row is in memory and in a scanned segment. *)
Theorem C03_CountDuringFlush_spec : forall s,
  CountDuringFlush s = false <-> forall e, In e (mem_rows s) -> ~ In e (seg_rows s).
Proof. exact CountDuringFlush_false. Qed.
Print Assumptions C03_CountDuringFlush_spec.

(** Non-vacuity of the hypotheses: crash-free histories with unique ids and three
    rotations outside the known classes: [ls_ex] (one complete, one in flight, one queued) and
    [ls_ex_count] (one complete, two queued, one of them of an empty memtable). *)
Theorem C03_select_exact_example :
  let s := run (init 2) ls_ex in
  no_crash ls_ex /\ NoDup (map ek (applied ls_ex)) /\
  map jstage (jobs s) = [StBegun; StQueued] /\ live s = [0] /\ inflight s = [1] /\
  select s 0 = [mkEv 2 0 0; mkEv 4 0 0; mkEv 0 1 0] /\
  select s 1 = [mkEv 5 2 1; mkEv 3 1 1; mkEv 1 0 1].
Proof. exact select_exact_example. Qed.
Print Assumptions C03_select_exact_example.

Theorem C03_outcomes_exact_example :
  let s := run (init 2) ls_ex in
  no_crash ls_ex /\ NoDup (map ek (applied ls_ex)) /\ inflight s = [1] /\
  ReadDuringFlushDropsSegmentFlow s 0 = false /\ ReadDuringFlushDropsSegmentFlow s 1 = false.
Proof. exact outcomes_exact_example. Qed.
Print Assumptions C03_outcomes_exact_example.

Theorem C03_count_exact_example :
  let s := run (init 2) ls_ex_count in
  no_crash ls_ex_count /\ NoDup (map ek (applied ls_ex_count)) /\
  map jstage (jobs s) = [StQueued; StQueued] /\ live s = [0] /\
  CountDuringFlush s = false /\ count s 0 = 3 /\ count s 1 = 2 /\ len (mem_rows s) = 3.
Proof. exact count_exact_example. Qed.
Print Assumptions C03_count_exact_example.
