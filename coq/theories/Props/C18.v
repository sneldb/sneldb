(** C18 — event ids are unique and increase in append order within a shard.
    This file contains only the property theorems, each closed by [exact], with
    [Print Assumptions] beneath.  Model: Model/EventId.v; proofs: Proofs/EventIdProofs.v.
    [issued k g shard rs] = the ids returned by [k] consecutive calls of
    [EventIdGenerator::next(shard)] from state [g] when the clock returns the readings [rs] in
    order; [gen0] is the state of a new generator; [in_window r] says
    epoch <= r < epoch + 2^TIMESTAMP_BITS. *)
From Coq Require Import NArith List Sorted.
From Snel Require Import Gen.Params Model.EventId Proofs.EventIdProofs.
Import ListNotations.
Open Scope N_scope.

(** Side conditions on the constants regenerated from event_id.rs / context.rs /
    condition_evaluator.rs: TS+SHARD+SEQ = 64, SEQ < 16 (u16 sequence), SHARD <= width of the
    [as u16] cast, synthetic-id shift = 32. *)
Theorem C18_params_side_conditions :
  id_ts_bits + id_shard_bits + id_seq_bits = 64 /\ id_seq_bits < 16 /\
  id_shard_bits <= id_shard_cast_bits /\ id_synth_shift = 32.
Proof. exact (conj bits_sum (conj seq_bits_lt16 (conj shard_bits_le_cast synth_shift_32))). Qed.
Print Assumptions C18_params_side_conditions.

(** Within one generator lifetime the ids strictly increase, for every sequence of clock readings inside
    the window: repeated readings, readings that step backwards, more than 2^SEQUENCE_BITS calls per
    millisecond. *)
Theorem C18_ids_strictly_increasing : forall k shard rs,
  Forall (fun r => in_window r = true) rs ->
  StronglySorted N.lt (issued k gen0 shard rs).
Proof. exact ids_strictly_increasing. Qed.
Print Assumptions C18_ids_strictly_increasing.

(** Hence no id is issued twice in a lifetime. *)
Theorem C18_ids_unique_in_lifetime : forall k shard rs,
  Forall (fun r => in_window r = true) rs -> NoDup (issued k gen0 shard rs).
Proof. exact ids_unique_in_lifetime. Qed.
Print Assumptions C18_ids_unique_in_lifetime.

(** The packing loses nothing: millisecond, shard and sequence are determined by the id. *)
Theorem C18_pack_injective : forall m1 sh1 s1 m2 sh2 s2,
  id_epoch_ms <= m1 < id_epoch_ms + 2 ^ id_ts_bits ->
  id_epoch_ms <= m2 < id_epoch_ms + 2 ^ id_ts_bits ->
  sh1 < 2 ^ id_shard_bits -> sh2 < 2 ^ id_shard_bits ->
  s1 < 2 ^ id_seq_bits -> s2 < 2 ^ id_seq_bits ->
  pack m1 sh1 s1 = pack m2 sh2 s2 -> m1 = m2 /\ sh1 = sh2 /\ s1 = s2.
Proof. exact pack_injective. Qed.
Print Assumptions C18_pack_injective.

(** Two different shards (ids below 2^SHARD_ID_BITS) never issue the same id — whatever
    their clocks read and whatever state their generators are in. *)
Theorem C18_unique_across_shards : forall k1 k2 g1 g2 sh1 sh2 rs1 rs2 id,
  sh1 < 2 ^ id_shard_bits -> sh2 < 2 ^ id_shard_bits -> sh1 <> sh2 ->
  In id (issued k1 g1 sh1 rs1) -> In id (issued k2 g2 sh2 rs2) -> False.
Proof. exact unique_across_shards. Qed.
Print Assumptions C18_unique_across_shards.

(** WAL recovery gives back the stored (non-zero) ids unchanged and in order, without touching
    the generator or the clock. *)
Theorem C18_recovery_reproduces_ids : forall g shard rs stored,
  Forall (fun id => id <> 0) stored -> recover g shard rs stored = (stored, g, rs).
Proof. exact recovery_reproduces_ids. Qed.
Print Assumptions C18_recovery_reproduces_ids.

(** Ids issued while the clock is strictly after the epoch are non-zero, so the previous
    theorem applies to everything such a lifetime wrote. *)
Theorem C18_issued_nonzero : forall k shard rs,
  Forall (fun r => in_window r = true /\ r <> id_epoch_ms) rs ->
  Forall (fun id => id <> 0) (issued k gen0 shard rs).
Proof. exact issued_nonzero. Qed.
Print Assumptions C18_issued_nonzero.

(** Across a restart the property is FALSE of the code: the new lifetime's generator starts
    from (0,0); when the clock reads the millisecond the old lifetime last used, the same id is
    issued again (in-window readings, one STORE per lifetime). *)
Theorem C18_across_restart_refuted :
  exists shard k1 rs1 k2 rs2,
    Forall (fun r => in_window r = true) rs1 /\ Forall (fun r => in_window r = true) rs2 /\
    ~ NoDup (restart_history shard k1 rs1 k2 rs2).
Proof. exact across_restart_refuted. Qed.
Print Assumptions C18_across_restart_refuted.

(** ... and a clock that stepped back across the restart gives a smaller id. *)
Theorem C18_across_restart_order_refuted :
  exists shard k1 rs1 k2 rs2,
    Forall (fun r => in_window r = true) rs1 /\ Forall (fun r => in_window r = true) rs2 /\
    exists a b, restart_history shard k1 rs1 k2 rs2 = [a; b] /\ b < a.
Proof. exact across_restart_order_refuted. Qed.
Print Assumptions C18_across_restart_order_refuted.

(** Outside the known class [restart_clock_not_advanced] (first reading after the restart <= last
    millisecond used before it) the ids applied over both lifetimes strictly increase. *)
Theorem C18_across_restart_outside_known : forall shard k1 rs1 k2 rs2,
  Forall (fun r => in_window r = true) rs1 -> Forall (fun r => in_window r = true) rs2 ->
  (shard_component shard <> 0 \/ Forall (fun r => r <> id_epoch_ms) rs1) ->
  restart_clock_not_advanced (gen_after k1 gen0 shard rs1) rs2 = false ->
  StronglySorted N.lt (restart_history shard k1 rs1 k2 rs2).
Proof. exact across_restart_outside_known. Qed.
Print Assumptions C18_across_restart_outside_known.

(** User-visible consequence: responses skip rows whose id was already written.  With pairwise
    distinct ids every row is shown ... *)
Theorem C18_unique_ids_all_rows_visible : forall ids,
  NoDup ids -> dedup_ids [] (number_rows ids) = number_rows ids.
Proof. exact unique_ids_all_rows_visible. Qed.
Print Assumptions C18_unique_ids_all_rows_visible.

(** ... so outside the known class everything applied over both lifetimes is visible ... *)
Theorem C18_visible_after_restart_outside_known : forall shard k1 rs1 k2 rs2,
  Forall (fun r => in_window r = true) rs1 -> Forall (fun r => in_window r = true) rs2 ->
  (shard_component shard <> 0 \/ Forall (fun r => r <> id_epoch_ms) rs1) ->
  restart_clock_not_advanced (gen_after k1 gen0 shard rs1) rs2 = false ->
  visible_after_restart shard k1 rs1 k2 rs2 = number_rows (restart_history shard k1 rs1 k2 rs2).
Proof. exact visible_after_restart_outside_known. Qed.
Print Assumptions C18_visible_after_restart_outside_known.

(** ... while in the known class stored events vanish from the answer (4 applied, 2 shown). *)
Theorem C18_restart_drops_rows_refuted :
  exists shard k1 rs1 k2 rs2,
    Forall (fun r => in_window r = true) rs1 /\ Forall (fun r => in_window r = true) rs2 /\
    length (restart_history shard k1 rs1 k2 rs2) = 4%nat /\
    map fst (visible_after_restart shard k1 rs1 k2 rs2) = [0; 1].
Proof. exact restart_drops_rows_refuted. Qed.
Print Assumptions C18_restart_drops_rows_refuted.

(** Outside the window the within-lifetime statement is false as well: at or before the epoch
    [saturating_sub] collapses all milliseconds to timestamp component 0 ... *)
Theorem C18_before_epoch_refuted :
  exists shard rs, Forall (fun r => r <= id_epoch_ms) rs /\ ~ NoDup (issued 2 gen0 shard rs).
Proof. exact before_epoch_refuted. Qed.
Print Assumptions C18_before_epoch_refuted.

(** ... and 2^TIMESTAMP_BITS ms after the epoch the component wraps, so ids fall. *)
Theorem C18_beyond_window_refuted :
  exists shard rs, Forall (fun r => id_epoch_ms <= r) rs /\
    exists a b, issued 2 gen0 shard rs = [a; b] /\ b < a.
Proof. exact beyond_window_refuted. Qed.
Print Assumptions C18_beyond_window_refuted.

(** Shard ids that differ by 2^SHARD_ID_BITS produce identical ids. *)
Theorem C18_shard_tag_aliases : forall m shard s,
  pack m (shard + 2 ^ id_shard_bits) s = pack m shard s.
Proof. exact shard_tag_aliases. Qed.
Print Assumptions C18_shard_tag_aliases.

(** Synthetic row ids (id column missing, or stored id zero) do not depend on the segment:
    the same (zone,row) position of two segments yields the same id ... *)
Theorem C18_synthetic_collide : forall seg1 seg2 zone row st1 st2,
  seg1 <> seg2 -> row_id seg1 zone row true st1 = row_id seg2 zone row true st2.
Proof. exact synthetic_collide. Qed.
Print Assumptions C18_synthetic_collide.

(** ... while inside one segment they are distinct. *)
Theorem C18_synthetic_injective : forall z1 r1 z2 r2,
  z1 < 2 ^ 32 -> z2 < 2 ^ 32 -> r1 < 2 ^ 32 -> r2 < 2 ^ 32 ->
  synthetic_id z1 r1 = synthetic_id z2 r2 -> z1 = z2 /\ r1 = r2.
Proof. exact synthetic_injective. Qed.
Print Assumptions C18_synthetic_injective.

(** Outside the known class [synthetic_row] (id column missing, or stored id zero) every row carries
    its stored id, hence rows that store different ids are never taken for one event. *)
Theorem C18_row_ids_outside_known : forall seg1 z1 r1 m1 st1 seg2 z2 r2 m2 st2,
  synthetic_row m1 st1 = false -> synthetic_row m2 st2 = false ->
  row_id seg1 z1 r1 m1 st1 = st1 /\ row_id seg2 z2 r2 m2 st2 = st2 /\
  (st1 <> st2 -> row_id seg1 z1 r1 m1 st1 <> row_id seg2 z2 r2 m2 st2).
Proof. exact row_ids_outside_known. Qed.
Print Assumptions C18_row_ids_outside_known.
