(** C17 — parsing and dispatch are total; the parser preserves structure.
    This file contains only the property theorems, each closed by [exact], with
    [Print Assumptions] beneath.  Models: Model/Tokenizer.v, Model/Parser.v, Model/Command.v,
    Model/Printer.v; proofs: Proofs/ParserBasics.v, ExprRoundTrip.v, FuelProofs.v,
    ParserProofs.v, CommandProofs.v, TotalityProofs.v, PanicProofs.v, QueryRoundTrip.v,
    TokenizerProofs.v, LexProofs.v, CommandRoundTrip.v, CostProofs.v,
    ExprRoundTripG.v, PlotProofs.v, PlotRoundTrip.v (PLOT: Model/PlotQL.v), JsonProofs.v (HTTP JSON
    commands: Model/JsonCommand.v).
    Some statements mention definitions that stand in the proof files: [is_factor] (ParserProofs.v); [wf_pexpr] and
    [plot_filter], the FILTER grammar on a whole string as [parse_expr] is for WHERE (PlotRoundTrip.v); [leaves],
    [and_operands], [or_operands] (JsonProofs.v); [is_batch], [txt_*], [clean_json_str], [member_block]
    (CommandProofs.v); the counters, text families [fam_*] and [depths] of the last cost theorem (CostProofs.v). *)
From Coq Require Import NArith ZArith List Bool.
From Snel Require Import Base.Bytes Gen.Params Model.Tokenizer Model.Parser Model.PlotQL Model.Command Model.Printer Model.JsonCommand
  Proofs.ExprRoundTrip Proofs.FuelProofs Proofs.ParserProofs Proofs.CommandProofs
  Proofs.TotalityProofs Proofs.PanicProofs Proofs.QueryRoundTrip 
  Proofs.TokenizerProofs Proofs.CommandRoundTrip Proofs.CostProofs Proofs.PlotRoundTrip Proofs.JsonProofs.
Import ListNotations.
Open Scope N_scope.

(** Printing any well-formed WHERE expression (identifiers that are not keyword-prefixed,
    strings without a quote, numbers in range) and parsing the text again yields the same
    expression — for the grammar whose numeric actions [unwrap()] ([fx = false]) and for the repaired one, and for
    every letter-casing [sp] of the keywords. *)
Theorem C17_parse_print_expr : forall fx sp e, speller_ok sp -> wf_expr e = true ->
  parse_expr fx (print_expr sp e) = Ok e.
Proof. exact parse_print_expr. Qed.
Print Assumptions C17_parse_print_expr.

(** The well-formedness side condition cannot be dropped: [not_found] is an identifier of the
    grammar, yet [not_found = 1] is read as NOT ([_found = 1]). *)
Theorem C17_parse_print_expr_refuted :
  ident_syntax [110; 111; 116; 95; 102; 111; 117; 110; 100] = true /\
  parse_expr false (print_expr (fun w => w) kw_prefixed_witness)
  = Ok (ENot (ECmp [95; 102; 111; 117; 110; 100] OpEq (VInt 1))).
Proof. exact parse_print_expr_refuted. Qed.
Print Assumptions C17_parse_print_expr_refuted.

(** NOT binds tighter than AND, AND tighter than OR, parentheses override, chains nest to the
    right: for all well-formed non-AND/OR expressions a, b, c (printed at factor level). *)
Theorem C17_precedence : forall fx sp, speller_ok sp -> forall a b c,
  wf_expr a = true -> wf_expr b = true -> wf_expr c = true ->
  is_factor a = true -> is_factor b = true -> is_factor c = true ->
  let A := print_expr_at sp 2 a in let B := print_expr_at sp 2 b in let C := print_expr_at sp 2 c in
  let AND := 32 :: sp K_AND ++ [32] in let OR := 32 :: sp K_OR ++ [32] in let NOT := sp K_NOT ++ [32] in
  parse_expr fx (A ++ OR ++ B ++ AND ++ C) = Ok (EOr a (EAnd b c)) /\
  parse_expr fx (A ++ AND ++ B ++ OR ++ C) = Ok (EOr (EAnd a b) c) /\
  parse_expr fx (NOT ++ A ++ AND ++ B) = Ok (EAnd (ENot a) b) /\
  parse_expr fx (NOT ++ A ++ OR ++ B) = Ok (EOr (ENot a) b) /\
  parse_expr fx (40 :: A ++ OR ++ B ++ 41 :: AND ++ C) = Ok (EAnd (EOr a b) c) /\
  parse_expr fx (NOT ++ 40 :: A ++ AND ++ B ++ [41]) = Ok (ENot (EAnd a b)) /\
  parse_expr fx (A ++ AND ++ B ++ AND ++ C) = Ok (EAnd a (EAnd b c)) /\
  parse_expr fx (A ++ OR ++ B ++ OR ++ C) = Ok (EOr a (EOr b c)) /\
  parse_expr fx (40 :: A ++ AND ++ B ++ 41 :: AND ++ C) = Ok (EAnd (EAnd a b) c).
Proof. exact precedence_all. Qed.
Print Assumptions C17_precedence.

(** Keywords are case-insensitive: two spellings of a printed well-formed expression that differ only in letter
    case parse alike (each to the expression, by the round trip above). *)
Theorem C17_keywords_ci : forall fx sp sp' e, speller_ok sp -> speller_ok sp' -> wf_expr e = true ->
  parse_expr fx (print_expr sp e) = parse_expr fx (print_expr sp' e).
Proof. exact keywords_ci. Qed.
Print Assumptions C17_keywords_ci.

(** The same for the FILTER expressions of PLOT, whose grammar (plotql.rs) is a second copy of the
    or / and / factor rules over its own leaves (comparisons and non-empty IN lists over hyphen-free
    non-keyword identifiers): print-then-parse is the identity, for every keyword casing ... *)
Theorem C17_plot_parse_print_expr : forall sp e, speller_ok sp -> wf_pexpr e = true ->
  plot_filter (print_expr sp e) = Ok e.
Proof. exact plot_parse_print_expr. Qed.
Print Assumptions C17_plot_parse_print_expr.

(** ... and NOT > AND > OR, parentheses, right-nesting hold there as well. *)
Theorem C17_plot_precedence : forall sp, speller_ok sp -> forall a b c,
  wf_pexpr a = true -> wf_pexpr b = true -> wf_pexpr c = true ->
  is_factor a = true -> is_factor b = true -> is_factor c = true ->
  let A := print_expr_at sp 2 a in let B := print_expr_at sp 2 b in let C := print_expr_at sp 2 c in
  let AND := 32 :: sp K_AND ++ [32] in let OR := 32 :: sp K_OR ++ [32] in let NOT := sp K_NOT ++ [32] in
  plot_filter (A ++ OR ++ B ++ AND ++ C) = Ok (EOr a (EAnd b c)) /\
  plot_filter (A ++ AND ++ B ++ OR ++ C) = Ok (EOr (EAnd a b) c) /\
  plot_filter (NOT ++ A ++ AND ++ B) = Ok (EAnd (ENot a) b) /\
  plot_filter (NOT ++ A ++ OR ++ B) = Ok (EOr (ENot a) b) /\
  plot_filter (40 :: A ++ OR ++ B ++ 41 :: AND ++ C) = Ok (EAnd (EOr a b) c) /\
  plot_filter (NOT ++ 40 :: A ++ AND ++ B ++ [41]) = Ok (ENot (EAnd a b)) /\
  plot_filter (A ++ AND ++ B ++ AND ++ C) = Ok (EAnd a (EAnd b c)) /\
  plot_filter (A ++ OR ++ B ++ OR ++ C) = Ok (EOr a (EOr b c)) /\
  plot_filter (40 :: A ++ AND ++ B ++ 41 :: AND ++ C) = Ok (EAnd (EAnd a b) c).
Proof. exact plot_precedence_all. Qed.
Print Assumptions C17_plot_precedence.

(** Printing any well-formed Query command (event sequence, FOR, SINCE, USING, USING TIME, WHERE,
    RETURN, LINKED BY, aggregates, PER, BY, ORDER BY, LIMIT, OFFSET) and parsing the text with
    the QUERY grammar yields the same command, in both modes and for every keyword casing. *)
Theorem C17_parse_print_query : forall fx sp, speller_ok sp -> forall q, wf_query q = true ->
  parse_query fx (print_query sp q) = Ok q.
Proof. exact parse_print_query. Qed.
Print Assumptions C17_parse_print_query.

(** The same through the public entry point: trim is the identity on the printed text, the
    tokenizer finds no invalid character (strings without backslash), the first word selects the
    QUERY grammar. *)
Theorem C17_parse_print_command : forall fx sp q, speller_ok sp -> wf_query q = true -> clean_query q = true ->
  parse_command fx (print_query sp q) = POk (CQuery q).
Proof. exact parse_print_command. Qed.
Print Assumptions C17_parse_print_command.

(** The model of parse_command is total for the right reason: the fuel its entry points
    supply never runs out, on any input, in either mode. *)
Theorem C17_fuel_enough :
  (forall fx s, parse_command fx s <> POOF) /\
  (forall f s, (length s <= f)%nat -> tokenize_fuel f s = tokenize s).
Proof. exact (conj parse_command_fuel_enough tokenize_fuel_enough). Qed.
Print Assumptions C17_fuel_enough.

(** Parsing is total on the model of the code as it is now (sneldb 57cd0c4: the numeric conversions in
    limit_clause / offset_clause / number are fallible grammar actions; the translator reads that
    from query.rs): for every input, parse_command returns a command, an error, or one of the two
    "not modelled" answers - never a panic, never out of fuel. *)
Theorem C17_parse_total : forall s,
  (forall k, parse_command_cur s <> PPanic k) /\ parse_command_cur s <> POOF.
Proof. exact (fun s => conj (parse_never_panics s) (parse_command_fuel_enough _ s)). Qed.
Print Assumptions C17_parse_total.

(** Out-of-range numerals are parse errors (one text for each conversion: LIMIT, OFFSET, an integer and a float
    literal), their in-range neighbours parse. *)
Theorem C17_numeric_limits :
  (parse_command_cur txt_limit = PErr /\ parse_command_cur txt_offset = PErr /\
   parse_command_cur txt_int = PErr /\ parse_command_cur txt_float = PErr) /\
  (exists q, parse_command_cur [81;85;69;82;89;32;101;32;76;73;77;73;84;32;52;50;57;52;57;54;55;50;57;53] = POk (CQuery q)
             /\ q_limit q = Some 4294967295) /\
  (exists q, parse_command_cur [81;85;69;82;89;32;101;32;87;72;69;82;69;32;120;32;61;32;45;57;50;50;51;51;55;50;48;51;54;56;53;52;55;55;53;56;48;56]
             = POk (CQuery q) /\ q_where q = Some (ECmp [120] OpEq (VInt (-9223372036854775808)))).
Proof. exact (conj former_witnesses_rejected limits_accepted). Qed.
Print Assumptions C17_numeric_limits.

(** STORE: braces inside string literals are data (sneldb fced25a).  A one-member object whose key and value
    are string literals without quote or backslash is matched as one block whatever braces the strings
    contain, with any text after it. *)
Theorem C17_store_string_braces : forall k v rest, clean_json_str k = true -> clean_json_str v = true ->
  balanced_braces (member_block k v ++ rest) = Some (member_block k v, rest).
Proof. exact store_block_with_string. Qed.
Print Assumptions C17_store_string_braces.

(** No exponential witness (sneldb 04c7300).  In the form the Rust text is in (read by the translator: operands
    parsed once, '{' not among the plain characters of balanced_braces) the number of factor /
    balanced_braces invocations on families of nested texts - nested parentheses (closed and one
    short), NOT chains, parenthesised NOT chains, AND and OR chains up to depth 200, unclosed / closed /
    one-short braces up to 1000 - is at most 2*length+2 resp. length+1, and the literal brace rule agrees
    with the model's depth counter on them.  (In the re-parsing form the same families cost 4^depth and
    2^n: CostProofs.reparsing_was_exponential.  The first two conjuncts are instances of bounds that hold for
    all inputs, CostProofs.expr_cost_linear and brace_cost_linear; the third is evaluated; on the
    implementation the criterion is the per-case time budget of the probe.) *)
Theorem C17_no_exponential_witness :
  forallb (fun d => linear_expr expr_grammar_reparses (fam_paren d)
                    && linear_expr expr_grammar_reparses (fam_paren_open d)
                    && linear_expr expr_grammar_reparses (fam_not d)
                    && linear_expr expr_grammar_reparses (fam_not_paren d)
                    && linear_expr expr_grammar_reparses (fam_and d)
                    && linear_expr expr_grammar_reparses (fam_or d)) depths = true /\
  forallb (fun n => linear_braces store_brace_rescans (fam_braces n)
                    && linear_braces store_brace_rescans (fam_braces_closed n)
                    && linear_braces store_brace_rescans (fam_braces_short n)) (depths ++ [34; 1000]%nat) = true /\
  forallb (fun n => bb_agrees (fam_braces n) && bb_agrees (fam_braces_closed n) && bb_agrees (fam_braces_short n))
          (depths ++ [34]%nat) = true.
Proof. exact no_exponential_witness. Qed.
Print Assumptions C17_no_exponential_witness.

(** The HTTP JSON form of a query: the operand list of an and / or object is joined without losing,
    duplicating or reordering an operand, for a list of any length. [and_operands n e] reads the operands
    back off a left-nested chain of n connectives; [leaves] lists the comparisons of an expression. *)
Theorem C17_json_join_keeps_operands : forall xs e,
  (join EAnd xs = Some e -> and_operands (length xs - 1) e = xs /\ leaves e = flat_map leaves xs) /\
  (join EOr xs = Some e -> or_operands (length xs - 1) e = xs /\ leaves e = flat_map leaves xs) /\
  (join EAnd xs = None <-> xs = []).
Proof. exact join_keeps_operands. Qed.
Print Assumptions C17_json_join_keeps_operands.

(** ... and through the modelled conversion itself: an object holding only an and (only an or) array whose
    elements convert to the non-empty list xs converts to the chain whose operands are exactly xs. *)
Theorem C17_json_logical_keeps_operands : forall f js xs,
  xs <> [] -> jall (map (conv_expr f) js) = JOk xs ->
  (exists e, conv_expr (S f) (JObj [(S_and, JArr js)]) = JOk e /\
             and_operands (length xs - 1) e = xs /\ leaves e = flat_map leaves xs) /\
  (exists e, conv_expr (S f) (JObj [(S_or, JArr js)]) = JOk e /\
             or_operands (length xs - 1) e = xs /\ leaves e = flat_map leaves xs).
Proof. exact conv_logical_keeps_operands. Qed.
Print Assumptions C17_json_logical_keeps_operands.

(** Dispatch: some variant of Command has no arm (Batch) ... *)
Theorem C17_dispatch_refuted :
  (exists k, In k all_kinds /\ dispatch_handled k = false) /\
  (parse_command_cur [66;65;84;67;72;32;91;32;80;73;78;71;32;93] = POk (CBatch [CPing]) /\
   dispatch_handled (kind_of (CBatch [CPing])) = false).       (* BATCH [ PING ] *)
Proof. exact (conj dispatch_refuted dispatch_refuted_parsed). Qed.
Print Assumptions C17_dispatch_refuted.

(** ... and it is the only one; so every command other than a batch has an arm, those the modelled parsers
    return among them (the parse hypothesis of the second conjunct plays no part). *)
Theorem C17_dispatch_outside_known :
  (forall k, k <> KBatch -> dispatch_handled k = true) /\
  (forall fx s c, parse_command fx s = POk c -> is_batch c = false -> dispatch_handled (kind_of c) = true).
Proof. exact (conj dispatch_others_handled parsed_commands_dispatched). Qed.
Print Assumptions C17_dispatch_outside_known.
