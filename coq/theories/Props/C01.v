(** C01 — applied writes survive any process crash and restart, exactly once.
    This file contains only the property theorems, each closed by [exact],
    with [Print Assumptions] beneath.  Model: Model/Shard.v (trace-validated against
    the engine, crashes included); proofs, the specification-side bookkeeping
    ([stored], [durable], [pending]: plain recursions over the label list) and the
    non-vacuity examples: Proofs/ShardC01Proofs.v.

    Setting: [ls] is any list of labels, crashes and restarts included,
    [s = run (init c) ls].  [durable ls] = the events whose WAL entry was written
    (the "acknowledged and applied" cut with flush_each_write).  [occ e l] = number
    of occurrences of [e] in [l].  The model's ghost list [wlost s] holds the entries
    appended while the writer's file was unlinked and the entries of deleted log
    files that were in no segment directory at deletion time. *)
From Coq Require Import NArith List.
From Snel Require Import Model.Shard Proofs.ShardC01Proofs Proofs.ShardC01RestartProofs.
Import ListNotations.
Open Scope N_scope.

(** * 1. All histories *)

(** Every durable event outside the known class is returned exactly once after a
    crash + restart, and after a clean stop + restart. *)
Theorem C01_survives_unless_pruned : forall c ls e,
  NoDup (map ek (stored ls)) ->
  In e (durable ls) -> ~ In e (wlost (run (init c) ls)) ->
  occ e (select (restart (crash (run (init c) ls))) (euid e)) = 1%nat /\
  occ e (select (restart (run (init c) ls)) (euid e)) = 1%nat.
Proof. exact survives_unless_pruned. Qed.
Print Assumptions C01_survives_unless_pruned.

(** The same with the known class spelled out: [OpenWalFilePruned c ls e] := the event's WAL
    entry went to (or was in) a log file that the flush worker pruned while no directory
    held the event, i.e. [In e (wlost (run (init c) ls))]. *)
Theorem C01_durable_exactly_once_outside_known : forall c ls e,
  NoDup (map ek (stored ls)) -> In e (durable ls) -> ~ OpenWalFilePruned c ls e ->
  occ e (select (restart (crash (run (init c) ls))) (euid e)) = 1%nat /\
  occ e (select (restart (run (init c) ls)) (euid e)) = 1%nat.
Proof. exact durable_exactly_once_outside_known. Qed.
Print Assumptions C01_durable_exactly_once_outside_known.

(** Nothing is invented: whatever a selection returns, in any reachable state and
    after a crash + restart, was stored and has the queried type. *)
Theorem C01_no_phantom : forall c ls u e,
  In e (select (run (init c) ls) u) -> In e (stored ls) /\ euid e = u.
Proof. exact no_phantom. Qed.
Print Assumptions C01_no_phantom.

Theorem C01_no_phantom_after_crash : forall c ls u e,
  In e (select (restart (crash (run (init c) ls))) u) -> In e (stored ls) /\ euid e = u.
Proof. exact no_phantom_after_crash. Qed.
Print Assumptions C01_no_phantom_after_crash.

(** No selection, in any state whatsoever, contains a key or an event twice: events
    that were not yet written when the crash hit are absent or present once. *)
Theorem C01_never_duplicated : forall s u e,
  NoDup (map ek (select s u)) /\ (occ e (select s u) <= 1)%nat.
Proof. exact never_duplicated. Qed.
Print Assumptions C01_never_duplicated.

(** * 2. One lifetime without manual FLUSH (WAL file ids and segment ids in lockstep)

    [lockstep ls]: no [LFlushCmd], [LCrash], [LRestart].  [wal_ordered]: the WAL
    thread's program order (no write while a rotation is due). *)

(** No durable event is lost: it is in a log file or in a segment directory. *)
Theorem C01_lockstep_no_loss : forall c ls, 0 < c ->
  lockstep ls = true -> wal_ordered (init c) ls = true ->
  forall e, In e (durable ls) ->
    In e (frows (walfiles (run (init c) ls))) \/ In e (drows (dirs (run (init c) ls))).
Proof. exact lockstep_no_loss. Qed.
Print Assumptions C01_lockstep_no_loss.

(** The ghost list only holds events that are in a segment directory. *)
Theorem C01_lockstep_wlost_in_dirs : forall c ls, 0 < c ->
  lockstep ls = true -> wal_ordered (init c) ls = true ->
  forall e, In e (wlost (run (init c) ls)) -> In e (drows (dirs (run (init c) ls))).
Proof. exact lockstep_wlost_in_dirs. Qed.
Print Assumptions C01_lockstep_wlost_in_dirs.

(** It is empty, and the writer's file is never unlinked, when the WAL thread is
    idle at every log-file deletion (the harness's "WAL drained" cut). *)
Theorem C01_lockstep_wlost_empty : forall c ls, 0 < c ->
  lockstep ls = true -> wal_ordered (init c) ls = true -> wal_idle_at_prune (init c) ls = true ->
  wunlinked (run (init c) ls) = false /\ wlost (run (init c) ls) = [].
Proof. exact lockstep_wlost_empty. Qed.
Print Assumptions C01_lockstep_wlost_empty.

(** Without that extra hypothesis the ghost list can be non-empty (the flush worker
    outruns the WAL thread) ... *)
Theorem C01_lockstep_wlost_empty_refuted :
  exists c ls, 0 < c /\ lockstep ls = true /\ wal_ordered (init c) ls = true /\
    wlost (run (init c) ls) <> [].
Proof. exact lockstep_wlost_empty_refuted. Qed.
Print Assumptions C01_lockstep_wlost_empty_refuted.

(** ... and without the program order of the WAL thread a durable event is lost
    (such label lists are not traces of the engine). *)
Theorem C01_lockstep_needs_wal_order_refuted :
  exists c ls e, 0 < c /\ lockstep ls = true /\ wal_ordered (init c) ls = false /\
    NoDup (map ek (stored ls)) /\ In e (durable ls) /\
    occ e (select (restart (crash (run (init c) ls))) (euid e)) = 0%nat.
Proof. exact lockstep_needs_wal_order_refuted. Qed.
Print Assumptions C01_lockstep_needs_wal_order_refuted.

(** Exactly once after the first crash of a database that never saw a manual FLUSH. *)
Theorem C01_exactly_once_after_first_crash : forall c ls e, 0 < c ->
  lockstep ls = true -> wal_ordered (init c) ls = true ->
  NoDup (map ek (stored ls)) -> In e (durable ls) ->
  occ e (select (restart (crash (run (init c) ls))) (euid e)) = 1%nat /\
  occ e (select (restart (run (init c) ls)) (euid e)) = 1%nat.
Proof. exact exactly_once_after_first_crash. Qed.
Print Assumptions C01_exactly_once_after_first_crash.

(** * 3. Known findings (class OpenWalFilePruned); the first two histories are those of known/C01.json,
      confirmed on the engine *)

(** cap 4: three stores, manual FLUSH run to completion, one more store, crash:
    the last event is durable but not read back. *)
Theorem C01_manual_flush_refuted :
  exists c ls e, 0 < c /\ one_lifetime ls = true /\ wal_ordered (init c) ls = true /\
    NoDup (map ek (stored ls)) /\ In e (durable ls) /\
    occ e (select (restart (crash (run (init c) ls))) (euid e)) = 0%nat /\
    In e (wlost (run (init c) ls)).
Proof. exact manual_flush_refuted. Qed.
Print Assumptions C01_manual_flush_refuted.

(** No manual FLUSH: a crash during a rotation and the restart let segment ids run
    ahead of WAL file ids; a later flush prunes the open log file. *)
Theorem C01_id_drift_refuted :
  exists c ls e, 0 < c /\ no_manual_flush ls = true /\
    NoDup (map ek (stored ls)) /\ In e (durable ls) /\
    occ e (select (restart (crash (run (init c) ls))) (euid e)) = 0%nat /\
    In e (wlost (run (init c) ls)).
Proof. exact id_drift_refuted. Qed.
Print Assumptions C01_id_drift_refuted.

(** The same drift in its shortest form (cap 2): crash after the directory of an unfinished
    flush was created; the restart takes the next segment id from the directory list but the
    WAL id from the log files. *)
Theorem C01_id_drift_short_refuted :
  exists c ls e, 0 < c /\ no_manual_flush ls = true /\
    NoDup (map ek (stored ls)) /\ In e (durable ls) /\
    occ e (select (restart (crash (run (init c) ls))) (euid e)) = 0%nat /\
    In e (wlost (run (init c) ls)).
Proof. exact id_drift_short_refuted. Qed.
Print Assumptions C01_id_drift_short_refuted.

(** Hence the property as stated (every durable event exactly once, all histories) is false. *)
Theorem C01_durable_exactly_once_refuted :
  ~ (forall c ls e, 0 < c -> NoDup (map ek (stored ls)) -> In e (durable ls) ->
       occ e (select (restart (crash (run (init c) ls))) (euid e)) = 1%nat).
Proof. exact durable_exactly_once_refuted. Qed.
Print Assumptions C01_durable_exactly_once_refuted.

(** * 4. COUNT after recovery (class CountAfterRecovery) *)

(** COUNT is the length of the scan (in-memory rows and segment rows of the queried type, before id
    de-duplication).  [count] is defined through the regenerated flag [Params.agg_mem_filters_type] (true
    with sneldb commit dc170f4: the in-memory rows are filtered by type like the segment rows), and this
    theorem stops checking if the memtable read paths lose the event-type condition. *)
Theorem C01_count_is_scan : forall s u, count s u = len (scan s u).
Proof. exact count_is_scan. Qed.
Print Assumptions C01_count_is_scan.

(** Hence COUNT equals the selection whenever no event id occurs twice in the scan ... *)
Theorem C01_count_exact_when_ids_distinct : forall s u,
  NoDup (map ek (scan s u)) -> count s u = len (select s u).
Proof. exact count_exact_when_ids_distinct. Qed.
Print Assumptions C01_count_exact_when_ids_distinct.

(** ... as on a recovery history with events of two types in the log: the replayed events of the other
    type are not counted. *)
Theorem C01_count_two_types_exact :
  let c := 2 in let ls := Traces.two_types in let u := 0 in
  0 < c /\ lockstep ls = true /\ wal_ordered (init c) ls = true /\
    NoDup (map ek (stored ls)) /\ wlost (run (init c) ls) = [] /\
    select (restart (crash (run (init c) ls))) u = of_uid u (durable ls) /\
    NoDup (map ek (scan (restart (crash (run (init c) ls))) u)) /\
    count (restart (crash (run (init c) ls))) u = len (select (restart (crash (run (init c) ls))) u).
Proof. exact count_two_types_exact. Qed.
Print Assumptions C01_count_two_types_exact.

(** Still refuted: rows present in a leftover directory and in the WAL are counted twice. *)
Theorem C01_count_double_refuted :
  exists c ls u, 0 < c /\ lockstep ls = true /\ wal_ordered (init c) ls = true /\
    NoDup (map ek (stored ls)) /\ wlost (run (init c) ls) = [] /\
    select (restart (crash (run (init c) ls))) u = of_uid u (durable ls) /\
    count (restart (crash (run (init c) ls))) u = 2 * len (select (restart (crash (run (init c) ls))) u) /\
    len (select (restart (crash (run (init c) ls))) u) = 2.
Proof. exact count_double_refuted. Qed.
Print Assumptions C01_count_double_refuted.

(** What is true: the exact value ... *)
Theorem C01_count_after_restart : forall s u,
  count (restart (crash s)) u = len (of_uid u (frows (walfiles s))) + len (of_uid u (drows (dirs s))) /\
  count (restart s) u = len (of_uid u (frows (walfiles s))) + len (of_uid u (drows (dirs s))).
Proof. exact count_after_restart. Qed.
Print Assumptions C01_count_after_restart.

(** ... COUNT never reports fewer rows than the selection returns, in any state ... *)
Theorem C01_count_ge_select : forall s u, len (select s u) <= count s u.
Proof. exact count_ge_select. Qed.
Print Assumptions C01_count_ge_select.

(** ... and when nothing durable was pruned it covers the durable events of the type. *)
Theorem C01_count_covers_durable : forall c ls u,
  NoDup (map ek (stored ls)) ->
  (forall e, In e (durable ls) -> ~ In e (wlost (run (init c) ls))) ->
  len (of_uid u (durable ls)) <= len (select (restart (crash (run (init c) ls))) u) /\
  len (select (restart (crash (run (init c) ls))) u) <= count (restart (crash (run (init c) ls))) u.
Proof. exact count_covers_durable. Qed.
Print Assumptions C01_count_covers_durable.

(** * 5. Kill of the quiescent process + restart keeps the lockstep

    [quiescentb s]: no flush job queued or running, WAL queue drained, no rotation due
    ([wcnt s < cap s]), the writer's file not unlinked, at most [level_span] level-0
    segments.  [lockstep_q s ls]: no [LFlushCmd]; [LCrash] only in a quiescent state and
    immediately followed by [LRestart]; [LRestart] only directly after [LCrash]; inside a
    lifetime the WAL thread's program order and "WAL idle at every log-file deletion";
    plain [run], no compaction.  ([lockq_inv]: the lockstep invariant of
    Proofs/ShardC01Proofs.v extended by: nothing pruned or unlinked, log-file ids strictly
    increasing and not below the number of pruned segments, the current log file holds
    exactly the durable events of the current rotation, the memtable exactly the stored ones.) *)

(** A kill + restart in a quiescent reachable state: same next segment id, same log-file id,
    same entry counter, and that counter is the fill level of the recovered memtable (which
    is the old memtable); same files and directories; the invariant holds again. *)
Theorem C01_quiescent_restart_keeps_lockstep : forall c ls, 0 < c ->
  lockstep_q (init c) ls = true -> quiescentb (run (init c) ls) = true ->
  let s := run (init c) ls in
  let s' := restart (crash s) in
  alloc0 s' = alloc0 s /\ wcur s' = wcur s /\ wcnt s' = wcnt s /\ mem s' = mem s /\
  wcnt s' = len (mem s') /\ wcur s' = alloc0 s' /\
  walfiles s' = walfiles s /\ dirs s' = dirs s /\ wlost s' = [] /\ wunlinked s' = false /\
  lockq_inv c (stored ls) (durable ls) s'.
Proof. exact quiescent_restart_keeps_lockstep. Qed.
Print Assumptions C01_quiescent_restart_keeps_lockstep.

(** The invariant form, for any state (reachable or not) that satisfies it. *)
Theorem C01_quiescent_restart_preserves_inv : forall c P D s, 0 < c ->
  lockq_inv c P D s -> quiescentb s = true -> lockq_inv c P D (restart (crash s)).
Proof. exact quiescent_restart_preserves_inv. Qed.
Print Assumptions C01_quiescent_restart_preserves_inv.

(** Throughout such a history nothing is pruned or unlinked, WAL file [wcur] holds exactly the
    durable events from position [wcur * c] on, the memtable exactly the stored events from
    position [alloc0 * c] on. *)
Theorem C01_lockstep_q_no_prune : forall c ls, 0 < c -> lockstep_q (init c) ls = true ->
  let s := run (init c) ls in
  wlost s = [] /\ wunlinked s = false /\
  len (durable ls) = wcur s * c + wcnt s /\ len (stored ls) = alloc0 s * c + len (mem s) /\
  wcnt s <= c /\ len (mem s) < c /\
  wal_get (walfiles s) (wcur s) = drop (wcur s * c) (durable ls) /\
  mem s = drop (alloc0 s * c) (stored ls).
Proof. exact lockstep_q_no_prune. Qed.
Print Assumptions C01_lockstep_q_no_prune.

(** Whenever no flush job exists and the WAL queue is drained: log-file id = next segment id,
    entry counter = memtable fill level (so [wcnt < cap] in [quiescentb] is implied). *)
Theorem C01_quiet_state_lockstep : forall c ls, 0 < c -> lockstep_q (init c) ls = true ->
  let s := run (init c) ls in
  jobs s = [] -> walq s = [] ->
  wcur s = alloc0 s /\ wcnt s = len (mem s) /\ wcnt s < c.
Proof. exact quiet_state_lockstep. Qed.
Print Assumptions C01_quiet_state_lockstep.

(** Every durable event is read exactly once after any number of quiescent kill/restart
    cycles interleaved with stores and background flushes; nothing is pruned or unlinked. *)
Theorem C01_exactly_once_across_quiescent_restarts : forall c ls e, 0 < c ->
  lockstep_q (init c) ls = true -> NoDup (map ek (stored ls)) -> In e (durable ls) ->
  occ e (select (restart (crash (run (init c) ls))) (euid e)) = 1%nat /\
  occ e (select (restart (run (init c) ls)) (euid e)) = 1%nat /\
  wlost (run (init c) ls) = [] /\ wunlinked (run (init c) ls) = false.
Proof. exact exactly_once_across_quiescent_restarts. Qed.
Print Assumptions C01_exactly_once_across_quiescent_restarts.

(** Corners.  A kill while a flush job is queued (WAL drained, but not quiescent) resets the
    allocator and recovers a full memtable: the relations above fail. *)
Theorem C01_nonquiescent_restart_refuted :
  exists c ls, 0 < c /\ lockstep_q (init c) ls = true /\
    let s := run (init c) ls in
    quiescentb s = false /\ walq s = [] /\
    (alloc0 (restart (crash s)) <> alloc0 s /\ mem (restart (crash s)) <> mem s /\
     ~ (len (mem (restart (crash s))) < c)).
Proof. exact nonquiescent_restart_refuted. Qed.
Print Assumptions C01_nonquiescent_restart_refuted.

(** [alloc0_from] ignores ids outside the level-0 band, hence the bound in [quiescentb]. *)
Theorem C01_alloc0_outside_band_refuted :
  exists ids a, (forall i, In i ids -> i < a) /\ In (a - 1) ids /\ alloc0_from ids <> a.
Proof. exact alloc0_outside_band_refuted. Qed.
Print Assumptions C01_alloc0_outside_band_refuted.
