(** C11 — published segments are immutable and appear or disappear as a whole.
    This file contains only the property theorems, each closed by [exact],
    with [Print Assumptions] beneath.  Models: Model/Shard.v + Model/Compaction.v
    (validated against the engine by trace validation); proofs:
    Proofs/ShardC11Proofs.v.  The theorems on the index save at the end are over
    Model/IndexSave.v, proofs in Proofs/IndexSaveProofs.v.

    Histories are lists of [clabel] (every label of the shard model plus the four
    compaction labels) run by [crun] from [init c].  [hist_ok s ls = true] says
    that every step satisfies its guard [cstep_ok]:
    - a base label is not [LCrash]/[LRestart] and leaves the level-0 allocator
      inside level 0 ([alloc0 <= level_span]);
    - [CWrite b]: the output id is on a level above 0 (as [batch_ok] demands) and
      FRESH: no directory of that name exists (see the lifetime theorems below for
      what the allocator guarantees about names that existed EARLIER);
    - [CIndex b], [CLive b dr]: the output directory of [b] exists;
    - [CReclaim dr]: the ids are not live, not listed in the index and not the
      segment of a queued flush job.
    [Complete s i]: a directory [i] exists and no flush job of segment [i] is
    still before its index entry (a compaction output is written by the single
    step [CWrite]). *)
From Coq Require Import NArith List Bool.
From Snel Require Import Model.Shard Proofs.ShardC03Proofs Model.Compaction Proofs.CompactionProofs Proofs.ShardC11Proofs.
From Snel Require Import Gen.Params Model.IndexSave Proofs.IndexSaveProofs.
Import ListNotations.
Open Scope N_scope.

(** Once an id is live, the rows of its directory do not change as long as it
    stays live: for every guarded history [ls1 ++ ls2] in which [i] is live at
    every state of the [ls2] part, the directory after [ls1 ++ ls2] is the one
    after [ls1] (equal row lists). *)
Theorem C11_live_rows_immutable_no_crash : forall c ls1 ls2 i,
  hist_ok (init c) (ls1 ++ ls2) = true ->
  (forall n, In i (live (crun (init c) (ls1 ++ firstn n ls2)))) ->
  rows_of (dirs (crun (init c) (ls1 ++ ls2))) i = rows_of (dirs (crun (init c) ls1)) i.
Proof. exact live_rows_immutable_no_crash. Qed.
Print Assumptions C11_live_rows_immutable_no_crash.

(** The invariant [CI] holds at every state of a guarded history. *)
Theorem C11_invariant_reachable : forall c ls,
  hist_ok (init c) ls = true -> CI (crun (init c) ls).
Proof. exact ci_reachable. Qed.
Print Assumptions C11_invariant_reachable.

(** What one guarded step does to an existing directory: nothing; or it removes it
    as a whole (and it was neither live nor listed); or the flush worker appends
    to the directory of its own unfinished job (not complete).  An existing
    directory is never replaced. *)
Theorem C11_dirs_step : forall s l i,
  CI s -> cstep_ok s l = true -> has_dir (dirs s) i ->
  let s' := cstep s l in
  rows_of (dirs s') i = rows_of (dirs s) i /\ has_dir (dirs s') i
  \/ (~ has_dir (dirs s') i /\ ~ In i (live s) /\ ~ In i (index_labels (index s)))
  \/ (exists extra j rest, rows_of (dirs s') i = rows_of (dirs s) i ++ extra /\ has_dir (dirs s') i /\
        jobs s = j :: rest /\ jseg j = i /\ jstage j = StBegun /\ ~ Complete s i).
Proof. exact dirs_step. Qed.
Print Assumptions C11_dirs_step.

(** A directory appears only under an id that has none: as the complete output of
    a [CWrite], or as the directory of the flush job being written (not live, not
    listed). *)
Theorem C11_dir_created_fresh : forall s l i,
  CI s -> cstep_ok s l = true -> ~ has_dir (dirs s) i -> has_dir (dirs (cstep s l)) i ->
  (exists b, l = CWrite b /\ b_out b = i /\ rows_of (dirs (cstep s l)) i = batch_rows (dirs s) b)
  \/ (exists j rest, jobs s = j :: rest /\ jseg j = i /\ jstage j = StBegun /\ ~ In i (live s) /\
        ~ In i (index_labels (index s))).
Proof. exact dir_created_fresh. Qed.
Print Assumptions C11_dir_created_fresh.

(** [live] only names complete directories. *)
Theorem C11_live_names_complete : forall c ls i,
  hist_ok (init c) ls = true -> In i (live (crun (init c) ls)) -> Complete (crun (init c) ls) i.
Proof. exact live_names_complete. Qed.
Print Assumptions C11_live_names_complete.

(** Every id listed in the index has a complete directory. *)
Theorem C11_index_names_complete : forall c ls i,
  hist_ok (init c) ls = true -> In i (index_labels (index (crun (init c) ls))) -> Complete (crun (init c) ls) i.
Proof. exact index_names_complete. Qed.
Print Assumptions C11_index_names_complete.

(** A whole batch of the policy from a well-formed state (C05) satisfies the guards. *)
Theorem C11_batch_guards : forall k s b,
  WF s -> BatchPre k s b -> (forall i, In i (b_inputs b) -> ~ In i (map jseg (jobs s))) ->
  hist_ok s (batch_labels s b) = true.
Proof. exact batch_hist_ok. Qed.
Print Assumptions C11_batch_guards.

(** ** Output ids within one process lifetime (class SegmentLabelReused; the model follows
    sneldb commit a19e65f).

    [plabel] adds [PStart], the start of a planning round, to the labels.  [prun k p ls]
    carries the planner's bookkeeping of ONE process lifetime: [p_lab] = the index
    labels at every round start so far ([Compaction.seen_round_start]); [p_routs] =
    the output ids taken in the current round ([seen_batch]); [p_rix] = the index of
    the current round start, against which the batches of the round are planned.  A
    [LCrash] or [LRestart] label ENDS the lifetime: [p_lab] is RESET to [[]].  [p_ok]
    accumulates [cstep_ok] for every non-crash step and, for every [CWrite b],
    [batch_ok_fresh (p_routs p ++ p_lab p) (p_rix p) k b] = [batch_ok] and, when
    [Params.compaction_ids_fresh_in_lifetime] (regenerated from policy.rs), [b_out b]
    not in [p_routs p ++ p_lab p].  [no_pcrash ls]: no crash/restart label, i.e. [ls]
    lies inside one lifetime; [no_pstart ls]: inside one round.  The theorems below
    are proved for the regenerated flag [true]; without sneldb commit a19e65f the flag is
    [false] and their proofs fail. *)

(** Every output id of a lifetime is new: it differs from every label that was in
    the index at any round start of the lifetime so far (and from the labels
    remembered at the beginning), and from every output id taken earlier in the same
    round. *)
Theorem C11_ids_fresh_in_lifetime : forall k p ls,
  no_pcrash ls -> p_ok (prun k p ls) = true ->
  forall l1 b l2, ls = l1 ++ PStep (CWrite b) :: l2 ->
    ~ In (b_out b) (p_lab p) /\
    (forall a r, l1 = a ++ PStart :: r -> ~ In (b_out b) (index_labels (index (p_s (prun k p a))))) /\
    (forall a b' r, l1 = a ++ PStep (CWrite b') :: r -> no_pstart r -> b_out b' <> b_out b).
Proof. exact ids_fresh_in_lifetime. Qed.
Print Assumptions C11_ids_fresh_in_lifetime.

(** Inside one planning round the output ids are pairwise distinct. *)
Theorem C11_round_outs_nodup : forall k p ls,
  no_pcrash ls -> no_pstart ls -> p_ok (prun k p ls) = true -> NoDup (outs ls).
Proof. exact round_outs_nodup. Qed.
Print Assumptions C11_round_outs_nodup.

(** Hence, with the guards, in a lifetime that starts from the empty store a
    directory that some step creates
    - on level 0 (a flush directory) has a name that no directory had at ANY earlier
      state of the lifetime (the level-0 allocator only grows);
    - above level 0 is the output of a [CWrite], and its name was not listed in the
      index at any earlier round start of the lifetime.
    A name published once (listed in the index when a planning round started) is
    never created again before the next restart. *)
Theorem C11_name_never_recreated : forall k c ls,
  no_pcrash ls -> p_ok (prun k (pinit c) ls) = true ->
  forall l1 l l2 i, ls = l1 ++ l :: l2 ->
    ~ has_dir (dirs (p_s (prun k (pinit c) l1))) i ->
    has_dir (dirs (p_s (prun k (pinit c) (l1 ++ [l])))) i ->
    (i < level_span -> forall n, ~ has_dir (dirs (p_s (prun k (pinit c) (firstn n l1)))) i) /\
    (level_span <= i ->
       (exists b, l = PStep (CWrite b) /\ b_out b = i) /\
       forall a r, l1 = a ++ PStart :: r -> ~ In i (index_labels (index (p_s (prun k (pinit c) a))))).
Proof. exact name_never_recreated. Qed.
Print Assumptions C11_name_never_recreated.

(** Not covered inside a lifetime: an output id whose batch did not reach
    its index entry (index save failed, no crash) is not remembered; the next round
    hands it out again ([batch_ok_fresh] accepts), over the leftover directory, which
    was never published - the [CWrite] guard (no directory of that name) fails.
    Observed on the engine with an injected index-save failure. *)
Theorem C11_failed_batch_id_retaken_example :
  let p := prun 3 (pinit 1) failed_p in
  let b := mkBatch 10000 [0; 1; 2] [0] in
  no_pcrash failed_p /\ p_ok p = true /\ index (p_s p) = [(0, [0]); (1, [0]); (2, [0])] /\
  batch_ok_fresh (p_routs p ++ p_lab p) (p_rix p) 3 b = true /\
  has_dirb (dirs (p_s p)) 10000 = true /\ cstep_ok (p_s p) (CWrite b) = false /\
  ~ In 10000 (live (p_s p)) /\ outs (failed_p ++ [PStep (CWrite b)]) = [10000; 10000].
Proof. exact failed_batch_id_retaken_example. Qed.
Print Assumptions C11_failed_batch_id_retaken_example.

(** The history of SegmentLabelReused satisfies every guard up
    to the start of round 3; the batch [4;5] -> 10000 still satisfies [batch_ok] (a
    lower bound on the id) but is rejected by [batch_ok_fresh]; the id the
    allocator hands out (10002) is accepted. *)
Theorem C11_label_reuse_rejected_example :
  let p := prun 2 (pinit 1) reuse_p in
  hist_ok (init 1) (reuse1 ++ reuse2 ++ reuse3) = true /\ policy_ok 2 (init 1) (reuse1 ++ reuse2 ++ reuse3) = true /\
  no_pcrash reuse_p /\ p_ok p = true /\
  p_rix p = [(20000, [0]); (4, [0]); (5, [0])] /\ In 10000 (p_lab p) /\
  batch_ok (p_rix p) 2 rb4 = true /\ batch_ok_fresh (p_routs p ++ p_lab p) (p_rix p) 2 rb4 = false /\
  p_ok (prun 2 (pinit 1) (reuse_p ++ lift (whole rb4 [4; 5]))) = false /\
  batch_ok_fresh (p_routs p ++ p_lab p) (p_rix p) 2 rb4' = true /\
  p_ok (prun 2 (pinit 1) (reuse_p ++ lift (whole rb4' [4; 5]))) = true.
Proof. exact label_reuse_rejected_example. Qed.
Print Assumptions C11_label_reuse_rejected_example.

(** Still refuted ACROSS a restart, where [p_lab] is reset: lifetime A publishes
    10000 (rows 0..3), retires it into 20000 and reclaims the directory; crash and
    restart; lifetime B's first round sees the index labels {20000, 8, 9, 10, 11} only
    and [8;9;10;11] -> 10000 satisfies [batch_ok_fresh] and every guard, so the name
    10000 is published again with rows 8..11.  (No level-0 name is reused here:
    the level-0 allocator continues at 9.) *)
Theorem C11_label_reuse_across_restart_refuted :
  exists k c lA1 lA2 lB i,
    let restart := [PStep (CBase LCrash); PStep (CBase LRestart)] in
    let p1 := prun k (pinit c) lA1 in
    let p2 := prun k (pinit c) (lA1 ++ lA2) in
    let p3 := prun k (pinit c) (lA1 ++ lA2 ++ restart) in
    let p4 := prun k (pinit c) (lA1 ++ lA2 ++ restart ++ lB) in
    no_pcrash (lA1 ++ lA2) /\ no_pcrash lB /\ p_ok p4 = true /\
    In i (live (p_s p1)) /\ rows_of (dirs (p_s p1)) i = [mkEv 0 0 0; mkEv 1 0 0; mkEv 2 0 0; mkEv 3 0 0] /\
    ~ In i (live (p_s p2)) /\ ~ has_dir (dirs (p_s p2)) i /\ In i (p_lab p2) /\
    p_lab p3 = [] /\ alloc0 (p_s p3) = 9 /\
    In (PStep (CWrite (mkBatch i [8; 9; 10; 11] [0]))) lB /\
    In i (live (p_s p4)) /\ rows_of (dirs (p_s p4)) i = [mkEv 8 0 0; mkEv 9 0 0; mkEv 10 0 0; mkEv 11 0 0].
Proof. exact label_reuse_across_restart_refuted. Qed.
Print Assumptions C11_label_reuse_across_restart_refuted.

(** Non-vacuity of the lifetime theorems. *)
Theorem C11_ids_fresh_example :
  let h := lift (map CBase ls_3) ++ [PStart] ++ lift (whole b_31 [1]) ++ [PStart] ++ lift (whole b_32 [0; 2]) in
  no_pcrash h /\ p_ok (prun 2 (pinit 2) h) = true /\ outs h = [10000; 10001] /\
  map sid (dirs (p_s (prun 2 (pinit 2) h))) = [10000; 10001].
Proof. exact ids_fresh_example. Qed.
Print Assumptions C11_ids_fresh_example.

(** Known finding CrashLeftoverDirectoryBecomesLive: crash after [FwMkdir] (a) or
    after the files of one of two types were written (b), restart: the incomplete
    directory is live and not listed in the index. *)
Theorem C11_crash_leftover_refuted :
  (exists c pre, let s0 := crun (init c) pre in
     let s := crun (init c) (pre ++ [CBase LCrash; CBase LRestart]) in
     hist_ok (init c) pre = true /\ ~ In 0 (live s0) /\ ~ Complete s0 0 /\
     jobs s0 = [mkJob 0 [mkEv 0 0 0] StBegun] /\
     In 0 (live s) /\ index s = [] /\ dirs s = [mkSeg 0 []]) /\
  (exists c pre, let s0 := crun (init c) pre in
     let s := crun (init c) (pre ++ [CBase LCrash; CBase LRestart]) in
     hist_ok (init c) pre = true /\ ~ In 0 (live s0) /\ ~ Complete s0 0 /\
     jobs s0 = [mkJob 0 [mkEv 0 0 0; mkEv 1 0 1] StBegun] /\
     In 0 (live s) /\ index s = [] /\ dirs s = [mkSeg 0 [mkEv 0 0 0]] /\
     mem s = [mkEv 0 0 0; mkEv 1 0 1]).
Proof. exact crash_leftover_refuted. Qed.
Print Assumptions C11_crash_leftover_refuted.

(** Known finding L0IdReusedAfterCompactionAndRestart: after compaction has merged
    the level-0 segments away, crash + restart seeds the level-0 allocator from the
    remaining directory names and the name 0 is published again with other rows. *)
Theorem C11_l0_reuse_after_restart_refuted :
  exists c k l1 l2 l3 i,
    let s1 := crun (init c) l1 in
    let s2 := crun (init c) (l1 ++ l2) in
    let s3 := crun (init c) (l1 ++ l2 ++ l3) in
    hist_ok (init c) (l1 ++ l2) = true /\ policy_ok k (init c) (l1 ++ l2) = true /\
    l3 = [CBase LCrash; CBase LRestart] ++ seg1 2 /\
    hist_ok (crun (init c) (l1 ++ l2 ++ [CBase LCrash; CBase LRestart])) (seg1 2) = true /\
    In i (live s1) /\ rows_of (dirs s1) i = [mkEv 0 0 0] /\
    ~ In i (live s2) /\ ~ has_dir (dirs s2) i /\ alloc0 s2 = 2 /\
    alloc0 (crun (init c) (l1 ++ l2 ++ [CBase LCrash; CBase LRestart])) = 0 /\
    In i (live s3) /\ In i (index_labels (index s3)) /\ rows_of (dirs s3) i = [mkEv 2 0 0].
Proof. exact l0_reuse_after_restart_refuted. Qed.
Print Assumptions C11_l0_reuse_after_restart_refuted.

(** The guard of [CReclaim] is needed in the model (interleaving of a batch with a
    flush job between [FwIndex] and [FwPublish]; not observed on the engine). *)
Theorem C11_reclaim_guard_needed :
  let s := crun (init 1) race in
  policy_ok 2 (init 1) race = true /\ hist_ok (init 1) race = false /\
  live s = [10000; 0] /\ map sid (dirs s) = [10000].
Proof. exact reclaim_guard_needed. Qed.
Print Assumptions C11_reclaim_guard_needed.

(** Non-vacuity. *)
Theorem C11_live_rows_immutable_example :
  let pre := map CBase ls_3 ++ whole b_31 [1] in
  let post := whole b_32 [0; 2] in
  hist_ok (init 2) (pre ++ post) = true /\ policy_ok 2 (init 2) (pre ++ post) = true /\
  (forall n, In 10000 (live (crun (init 2) (pre ++ firstn n post)))) /\
  live (crun (init 2) pre) = [0; 2; 10000] /\ live (crun (init 2) (pre ++ post)) = [10000; 10001] /\
  index (crun (init 2) (pre ++ post)) = [(10000, [0]); (10001, [1])] /\
  rows_of (dirs (crun (init 2) (pre ++ post))) 10000 = [mkEv 0 0 0; mkEv 2 0 0; mkEv 3 1 0].
Proof. exact live_rows_immutable_example. Qed.
Print Assumptions C11_live_rows_immutable_example.

Theorem C11_guards_flush_example :
  hist_ok (init 2) (map CBase ls_ex) = true /\
  map jstage (jobs (crun (init 2) (map CBase ls_ex))) = [StBegun; StQueued] /\
  live (crun (init 2) (map CBase ls_ex)) = [0].
Proof. exact guards_flush_example. Qed.
Print Assumptions C11_guards_flush_example.

(** "... atomically replace the shard's segment index".  The file-system steps of
    [SegmentIndex::save] are read from the Rust source on every run
    ([Params.index_save_steps], tools/params/p25_index_save.py) and run by
    Model/IndexSave.v with a crash after every step (a created file passes through a
    partially written state; rename is atomic - trusted).  [load] is what a restart
    obtains from the index file: [None] = missing or unreadable = the engine falls
    back to listing directories, published or not. *)

(** At every crash point of a save of [new] over a published index [old], whatever an
    earlier crash left in the temporary file ([t]) or elsewhere ([a]), a restart loads
    the old index or the new one. *)
Theorem C11_index_replaced_atomically :
  forall (C : Type) (old new : C) (t a : option (cont C)),
    Forall (fun s => load s = Some old \/ load s = Some new)
           (states new (mkFs (Some (Full old)) t a) save_steps).
Proof. exact index_replaced_atomically. Qed.
Print Assumptions C11_index_replaced_atomically.

Theorem C11_index_save_installs_new :
  forall (C : Type) (old new : C) (t a : option (cont C)),
    load (final new (mkFs (Some (Full old)) t a) save_steps) = Some new.
Proof. exact index_save_installs_new. Qed.
Print Assumptions C11_index_save_installs_new.

(** Whatever the start (an index or none), the index name never holds a partially
    written file at any crash point. *)
Theorem C11_index_never_partial :
  forall (C : Type) (new : C) (i : option C) (t a : option (cont C)),
    Forall (fun s => f_idx s <> Some Partial)
           (states new (mkFs (option_map Full i) t a) save_steps).
Proof. exact index_never_partial. Qed.
Print Assumptions C11_index_never_partial.

(** Sensitivity: moving the index to a backup before the rename, or writing it in
    place, has a crash state without a readable index. *)
Theorem C11_index_backup_first_refuted :
  exists s, In s (states 1%nat (mkFs (Some (Full 0%nat)) None None) backup_first_steps) /\ load s = None.
Proof. exact backup_first_refuted. Qed.
Print Assumptions C11_index_backup_first_refuted.

Theorem C11_index_in_place_refuted :
  exists s, In s (states 1%nat (mkFs (Some (Full 0%nat)) None None) in_place_steps) /\ load s = None.
Proof. exact in_place_refuted. Qed.
Print Assumptions C11_index_in_place_refuted.

(** Non-vacuity: the protocol read from the source passes through four states and ends
    with the new index in place and no temporary file. *)
Theorem C11_index_save_example :
  map load (states 1%nat (mkFs (Some (Full 0%nat)) (Some Partial) None) save_steps) = [Some 0%nat; Some 0%nat; Some 0%nat; Some 1%nat] /\
  final 1%nat (mkFs (Some (Full 0%nat)) (Some Partial) None) save_steps = mkFs (Some (Full 1%nat)) None None.
Proof. exact index_save_example. Qed.
Print Assumptions C11_index_save_example.
