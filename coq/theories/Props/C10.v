(** C10 — ORDER BY / LIMIT / OFFSET return the right slice in the right order.
    Only the property theorems, each closed by [exact], with [Print Assumptions].
    Model: Model/Order.v; proofs: Proofs/SortMergeProofs.v, Proofs/OrderProofs.v.
    Left out: what the flows are given.  The pipeline theorems take the rows of the flows to be the whole
    selection; the ORDER BY zone pre-selection (src/engine/query/rlte_planner.rs), which lets a flow scan
    only the zones it estimates to hold the first rows, is not modelled, and the wrong slices it causes
    are the class OrderedLimitWrongSlice of known/C10.json, decided by the harness alone.  The theorems
    relate sort keys position by position; they do not say which rows carry them. *)
From Coq Require Import ZArith NArith List Permutation.
From Snel Require Import Base.Bytes Model.Order Proofs.SortMergeProofs Proofs.OrderProofs.
Import ListNotations.

(** Merging streams that are sorted (in the requested direction) with the merger's heap
    gives a sorted permutation of their concatenation. *)
Theorem C10_kmerge_sorted_perm : forall (A : Type) (cmp : A -> A -> comparison),
  total_preorder cmp -> forall (asc : bool) (ss : list (list A)),
  Forall (sorted (dir_cmp cmp asc)) ss ->
  sorted (dir_cmp cmp asc) (kmerge (heap_before cmp asc) ss)
  /\ Permutation (kmerge (heap_before cmp asc) ss) (concat ss).
Proof. exact @kmerge_sorted_perm. Qed.
Print Assumptions C10_kmerge_sorted_perm.

(** Sorting every part, keeping its first m+n rows, merging and slicing m..m+n gives, position
    by position up to the order's equivalence (so: the same multiset of sort keys up to
    ties), the slice m..m+n of the sorted whole. *)
Theorem C10_topk_of_parts : forall (A : Type) (cmp : A -> A -> comparison),
  total_preorder cmp -> forall (asc : bool) (parts : list (list A)) (m n : N),
  Forall2 (ceq (dir_cmp cmp asc))
    (slice m n (kmerge (heap_before cmp asc)
                  (map (fun p => takeN (m + n) (sort_by (dir_cmp cmp asc) p)) parts)))
    (slice m n (sort_by (dir_cmp cmp asc) (concat parts))).
Proof. exact @topk_of_parts. Qed.
Print Assumptions C10_topk_of_parts.

(** On the values of one column kind [scalar_compare] is the typed order of that kind,
    which is a total preorder. *)
Theorem C10_cmp_total_on_kind : forall k,
  total_preorder (typed_compare k)
  /\ forall a b, in_kind k a = true -> in_kind k b = true ->
                 scalar_compare a b = typed_compare k a b.
Proof. exact (fun k => conj (typed_compare_tp k) (cmp_total_on_kind k)). Qed.
Print Assumptions C10_cmp_total_on_kind.

(** ... but not on all values: "9" < "10" < "1a" < "9". *)
Theorem C10_cmp_total_refuted : ~ total_preorder scalar_compare.
Proof. exact cmp_total_refuted. Qed.
Print Assumptions C10_cmp_total_refuted.

(** Outside the known classes (columns that one kind covers) the comparator obeys the laws. *)
Theorem C10_cmp_total_outside_known : forall a b c,
  classify_column [a; b; c] = None ->
  scalar_compare b a = CompOpp (scalar_compare a b)
  /\ (cle scalar_compare a b -> cle scalar_compare b c -> cle scalar_compare a c).
Proof. exact cmp_total_outside_known. Qed.
Print Assumptions C10_cmp_total_outside_known.

(** The modelled pipeline (per-flow sort; shard-level merge with limit n+m; coordinator merge
    with offset m, limit n) over any split of the rows into shards x flows returns rows whose
    keys are, position by position, equivalent to those of rows m..m+n of the sorted selection. *)
Theorem C10_ordered_query_slice : forall k asc n om (shards : list (list (list row))),
  Forall (Forall (Forall (row_in k))) shards ->
  let m := match om with Some o => o | None => 0%N end in
  Forall2 (key_equiv k)
    (coord_ordered asc (Some n) om shards)
    (slice m n (sort_by (dir_cmp row_cmp asc) (concat (map (@concat row) shards)))).
Proof. exact ordered_query_slice. Qed.
Print Assumptions C10_ordered_query_slice.

Theorem C10_ordered_query_full : forall k asc (shards : list (list (list row))),
  Forall (Forall (Forall (row_in k))) shards ->
  Forall2 (key_equiv k)
    (coord_ordered asc None None shards)
    (sort_by (dir_cmp row_cmp asc) (concat (map (@concat row) shards))).
Proof. exact ordered_query_full. Qed.
Print Assumptions C10_ordered_query_full.

(** Without ORDER BY: LIMIT n [OFFSET m] emits min(n, distinct - m) rows with distinct event
    ids, all of them matching rows. *)
Theorem C10_unordered_limit : forall (A : Type) n om (rows : list (option N * A)),
  let m := match om with Some o => o | None => 0%N end in
  let d := dedup_rows rows in
  writer_run (Some n) om rows = map snd (slice m n d)
  /\ N.of_nat (length (writer_run (Some n) om rows)) = N.min n (N.of_nat (length d) - m)
  /\ NoDup (ids_of d)
  /\ (forall id, In id (ids_of rows) <-> In id (ids_of d))
  /\ (forall r, In r d -> In r rows).
Proof. exact @unordered_limit. Qed.
Print Assumptions C10_unordered_limit.

(** OFFSET without LIMIT is rejected, and nothing else is rejected by that rule. *)
Theorem C10_offset_requires_limit : forall lim off,
  handler_precheck lim off = PreBadRequest <-> (off <> None /\ lim = None).
Proof. exact offset_requires_limit. Qed.
Print Assumptions C10_offset_requires_limit.
