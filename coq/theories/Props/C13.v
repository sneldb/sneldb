(** C13 — no data command runs without authentication and the required permission.
    Only the property theorems, each closed by [exact], with [Print Assumptions] beneath.
    Model: Model/Auth.v; definitions of [credential], [may_read], [may_write], [policy],
    [KnownClass], [reachable] and all proofs: Proofs/AuthProofs.v.
    [hmac] (HMAC-SHA256) and [parse] (the command parser) are universally quantified.

    Values of the regenerated [Gen.Params] the proofs need, each named where AuthProofs uses it
    ([change flag with value]): [auth_validate_rejects_reserved], [auth_verify_rejects_reserved] = true (the
    reserved-id theorems, and the gates through [verify_signature_sound]); [auth_ident_store], [auth_ident_query],
    [auth_query_checks_sequence], [auth_ident_replay], [auth_ident_compare], [auth_ident_remember],
    [auth_ident_define] = true ([C13_outside_known] and what follows from it); [auth_ident_show],
    [auth_ident_flush] = false ([C13_no_identity_commands]); the role names [auth_roles_*] as documented
    ([roles_as_documented]); the two reserved ids within [auth_max_user_id_len] ([C13_reserved_id_rejected]).
    The general theorems hold for either value of the [auth_skip_*] flags. *)
From Coq Require Import NArith List Bool String.
From Snel Require Import Base.Bytes Gen.Params Model.Auth Proofs.AuthProofs Proofs.AuthOwnRecord.
Import ListNotations.
Open Scope N_scope.

(** With authentication on, the TCP/WebSocket gate hands a command text on as user [uid] only
    if the line carries [hmac key text] of the active user [uid] (inline
    "uid:sig:text", or "sig:text" on a connection authenticated as [uid]) or ends in
    " TOKEN t" with [t] an unexpired session token of the active user [uid]; the gate changes
    neither the connection state nor the store. *)
Theorem C13_gate_sound : forall hmac cfg s conn line now tok text uid conn' s',
  auth_on cfg ->
  gate_tcp hmac cfg s conn line now tok = (GDispatch text uid, conn', s') ->
  credential hmac s conn now line text uid /\ conn' = conn /\ s' = s.
Proof. exact gate_sound. Qed.
Print Assumptions C13_gate_sound.

(** AUTH authenticates a connection only for [hmac key uid] of the active user [uid]. *)
Theorem C13_auth_sound : forall hmac cfg s conn line now tok uid conn' s',
  auth_on cfg ->
  gate_tcp hmac cfg s conn line now tok = (GAuthOk uid, conn', s') ->
  exists u sig,
    alookup uid (st_users s) = Some u /\ u_active u = true /\
    eq_ignore_case (firstn 5 (trim line)) auth_word = true /\
    trim (skipn 5 (trim line)) = uid ++ colon :: sig /\ sig = hmac (u_key u) uid /\
    conn' = Some uid /\ s' = new_session s tok uid now (g_expiry cfg).
Proof. exact auth_sound. Qed.
Print Assumptions C13_auth_sound.

(** The UNIX-socket gate and the HTTP /command gate.  They accept the inline form only ([gate_unix_inline],
    [gate_http_inline] of AuthProofs); the [credential] at connection [None] and time [0] stated here is a
    weakening of that, and the inline form gives it at any connection and time ([inline_credential]). *)
Theorem C13_gate_unix_sound : forall hmac cfg s line text uid,
  auth_on cfg -> gate_unix hmac cfg s line = GDispatch text uid ->
  credential hmac s None 0 line text uid.
Proof. exact gate_unix_sound. Qed.
Print Assumptions C13_gate_unix_sound.

Theorem C13_gate_http_sound : forall hmac cfg s hdr body text uid,
  auth_on cfg -> gate_http hmac cfg s hdr body = GDispatch text uid ->
  (exists u sig, hdr = Some (uid, sig) /\ text = trim body /\
      alookup uid (st_users s) = Some u /\ u_active u = true /\ sig = hmac (u_key u) (trim body))
  \/ (hdr = None /\ credential hmac s None 0 body text uid).
Proof. exact gate_http_sound. Qed.
Print Assumptions C13_gate_http_sound.

(** In every reachable state the permission cache answers exactly as the declarative RBAC
    rules over the user records ([may_read] / [may_write], written from the documentation). *)
Theorem C13_can_read_spec : forall s uid t, reachable s ->
  (can_read (st_cache s) uid t = true <-> may_read (st_users s) uid t).
Proof. exact can_read_reachable. Qed.
Print Assumptions C13_can_read_spec.

Theorem C13_can_write_spec : forall s uid t, reachable s ->
  (can_write (st_cache s) uid t = true <-> may_write (st_users s) uid t).
Proof. exact can_write_reachable. Qed.
Print Assumptions C13_can_write_spec.

(** After REVOKE KEY the TCP/WebSocket gate dispatches nothing and accepts no AUTH for the user: not by
    signature, not by a token issued before, not on a connection authenticated before — for
    the next request and for every later one, whatever happens in between. *)
Theorem C13_revoke_key_next : forall hmac s id s1 s2 cfg conn line now tok,
  revoke_key s id = (None, s1) -> reachable_from s1 s2 -> auth_on cfg ->
  match fst (fst (gate_tcp hmac cfg s2 conn line now tok)) with
  | GDispatch _ u => u <> id
  | GAuthOk u => u <> id
  | GReject => True
  end.
Proof. exact revoke_key_next. Qed.
Print Assumptions C13_revoke_key_next.

(** After an executed REVOKE the next check sees it. *)
Theorem C13_revoke_perm_next : forall s who r w ts id k s' t,
  reachable s -> dispatch s who (CRevokePerm r w ts id) k = (OExec, s') -> In t ts ->
  (w = true -> can_write (st_cache s') id t = true -> admin_user (st_users s') id) /\
  (r = true -> can_read (st_cache s') id t = true ->
     exists u, alookup id (st_users s') = Some u /\
       (has_role u "admin" \/ has_role u "read-only" \/ has_role u "viewer" \/ has_role u "editor")) /\
  (r = true -> w = true -> can_read (st_cache s') id t = true -> admin_user (st_users s') id).
Proof. exact revoke_perm_reachable. Qed.
Print Assumptions C13_revoke_perm_next.

(** The reserved ids (for "bypass" the handlers skip their checks) are refused by [create_user] (sneldb
    139a8cf, class ReservedUserId of known/C13.json), no reachable state holds an account under one of them, and with authentication on no gate
    attributes a request to one. *)
Theorem C13_reserved_id_rejected : forall s id key fk roles,
  is_reserved_id id = true -> create_user s id key fk roles = (Some EInvalidId, s).
Proof. exact reserved_id_rejected. Qed.
Print Assumptions C13_reserved_id_rejected.

Theorem C13_no_reserved_account : forall s, reachable s ->
  forall id, is_reserved_id id = true -> alookup id (st_users s) = None.
Proof. exact reachable_no_reserved. Qed.
Print Assumptions C13_no_reserved_account.

Theorem C13_gate_never_reserved : forall hmac cfg s conn line now tok,
  reachable s -> auth_on cfg ->
  match fst (fst (gate_tcp hmac cfg s conn line now tok)) with
  | GDispatch _ u => is_reserved_id u = false
  | GAuthOk u => is_reserved_id u = false
  | GReject => True
  end.
Proof. exact gate_never_reserved. Qed.
Print Assumptions C13_gate_never_reserved.

Theorem C13_gate_unix_never_reserved : forall hmac cfg s line text uid,
  reachable s -> auth_on cfg -> gate_unix hmac cfg s line = GDispatch text uid -> is_reserved_id uid = false.
Proof. exact gate_unix_never_reserved. Qed.
Print Assumptions C13_gate_unix_never_reserved.

Theorem C13_gate_http_never_reserved : forall hmac cfg s hdr body text uid,
  reachable s -> auth_on cfg -> gate_http hmac cfg s hdr body = GDispatch text uid -> is_reserved_id uid = false.
Proof. exact gate_http_never_reserved. Qed.
Print Assumptions C13_gate_http_never_reserved.

(** SHOW and FLUSH - the two commands dispatched without the caller's identity - are
    executed identically for every caller. *)
Theorem C13_no_identity_commands : forall s who who' c k,
  KnownClass c = true -> dispatch s who c k = dispatch s who' c k.
Proof. exact no_identity_commands. Qed.
Print Assumptions C13_no_identity_commands.

(** The property as stated ([authorized_only]: whatever is executed for an identity a gate can
    produce satisfies the declarative policy) is FALSE of the model, with one witness per known class:
    SHOW and FLUSH.  (REPLAY, comparison, REMEMBER and sequence queries do check the caller, sneldb d146031,
    20fee3f, 8e7945c, 79dcefb: [repaired_witnesses] shows them refused for a user without READ.)  For FLUSH
    neither the property text nor docs/src/commands/flush.md names a rule: [needs] asks a writing role. *)
Theorem C13_authorized_only_refuted :
  ~ authorized_only /\
  (exists s who c k s', reachable s /\ who <> Some auth_bypass_id /\ dispatch s who c k = (OExec, s') /\ UncheckedShow c = true /\ ~ policy s who c) /\
  (exists s who c k s', reachable s /\ who <> Some auth_bypass_id /\ dispatch s who c k = (OExec, s') /\ FlushNoRole c = true /\ ~ policy s who c).
Proof. exact authorized_only_refuted. Qed.
Print Assumptions C13_authorized_only_refuted.

(** Outside SHOW and FLUSH the property holds in every reachable state, for every identity
    other than the bypass-mode identity: STORE, QUERY incl. sequence queries, REPLAY, REMEMBER,
    comparison, DEFINE, user and permission management.  [cmd_wf]: the event types a whole-context
    REPLAY finds in the context are defined event types. *)
Theorem C13_outside_known : forall s who c k s',
  reachable s -> who <> Some auth_bypass_id -> KnownClass c = false -> cmd_wf s c ->
  dispatch s who c k = (OExec, s') -> policy s who c.
Proof. exact outside_known_reachable. Qed.
Print Assumptions C13_outside_known.

(** For the four reading commands spelled out: an executed REPLAY, REMEMBER, comparison or
    (sequence) query was issued by a user who may read every event type it reads. *)
Theorem C13_read_commands_checked : forall s u c k s',
  reachable s -> u <> auth_bypass_id -> cmd_wf s c ->
  match c with CReplay _ _ | CRemember _ _ | CCompare _ | CQuery _ => True | _ => False end ->
  dispatch s (Some u) c k = (OExec, s') -> needs s u c.
Proof. exact read_commands_reachable. Qed.
Print Assumptions C13_read_commands_checked.

(** End to end: an executed command came with a credential of the executing user, that user is not a
    reserved id, and outside SHOW / FLUSH was entitled to the command. *)
Theorem C13_served_outside_known : forall hmac parse cfg s conn line now tok key c uid conn' s',
  reachable s -> auth_on cfg ->
  serve_tcp hmac parse cfg s conn line now tok key = (SOut c uid OExec, conn', s') ->
  exists text, credential hmac s conn now line text uid /\ parse text = Some c /\
               is_reserved_id uid = false /\
               (KnownClass c = false -> cmd_wf s c -> policy s (Some uid) c).
Proof. exact served_outside_known. Qed.
Print Assumptions C13_served_outside_known.

Theorem C13_served_unix_outside_known : forall hmac parse cfg s line key c uid s',
  reachable s -> auth_on cfg ->
  serve_unix hmac parse cfg s line key = (SOut c uid OExec, s') ->
  is_reserved_id uid = false /\ (KnownClass c = false -> cmd_wf s c -> policy s (Some uid) c).
Proof. exact served_unix_outside_known. Qed.
Print Assumptions C13_served_unix_outside_known.

Theorem C13_served_http_outside_known : forall hmac parse cfg s hdr body key c uid s',
  reachable s -> auth_on cfg ->
  serve_http hmac parse cfg s hdr body key = (SOut c uid OExec, s') ->
  is_reserved_id uid = false /\ (KnownClass c = false -> cmd_wf s c -> policy s (Some uid) c).
Proof. exact served_http_outside_known. Qed.
Print Assumptions C13_served_http_outside_known.

(** A GRANT (REVOKE) naming several event types is the sequence of the single-type GRANTs
    (REVOKEs): each step reads the permissions the previous ones left and the loop stops at the
    first failing step. *)
Theorem C13_grant_many_eq_fold : forall ts s r w id,
  grant_loop s r w ts id = fold_left (then_grant r w id) ts (OExec, s).
Proof. exact grant_many_eq_fold. Qed.
Print Assumptions C13_grant_many_eq_fold.

Theorem C13_revoke_many_eq_fold : forall ts s r w id,
  revoke_loop s r w ts id = fold_left (then_revoke r w id) ts (OExec, s).
Proof. exact revoke_many_eq_fold. Qed.
Print Assumptions C13_revoke_many_eq_fold.

(** The same at the level of the dispatcher (the admin check answers the same before every step). *)
Theorem C13_dispatch_grant_many : forall s who r w t ts id k, reachable s ->
  dispatch s who (CGrant r w (t :: ts) id) k =
  match dispatch s who (CGrant r w [t] id) k with
  | (OExec, s') => dispatch s' who (CGrant r w ts id) k
  | other => other
  end.
Proof. exact dispatch_grant_many. Qed.
Print Assumptions C13_dispatch_grant_many.

(** After an executed multi-type GRANT / REVOKE each listed type holds what IT held before plus /
    minus the named permissions, independently of what the user holds on the other listed types,
    of the order of the list and of repetitions; unlisted types are untouched. *)
Theorem C13_grant_many_entry : forall ts s r w id s',
  grant_loop s r w ts id = (OExec, s') ->
  (forall t, In t ts ->
     entry s' id t = Some (mkPerm (p_read (get_permission s id t) || r) (p_write (get_permission s id t) || w))) /\
  (forall t, ~ In t ts -> entry s' id t = entry s id t).
Proof. exact grant_many_entry. Qed.
Print Assumptions C13_grant_many_entry.

Theorem C13_revoke_many_entry : forall ts s r w id s',
  revoke_loop s r w ts id = (OExec, s') ->
  (forall t, In t ts ->
     entry s' id t = Some (mkPerm (p_read (get_permission s id t) && negb r) (p_write (get_permission s id t) && negb w))) /\
  (forall t, ~ In t ts -> entry s' id t = entry s id t).
Proof. exact revoke_many_entry. Qed.
Print Assumptions C13_revoke_many_entry.

(** Frame property of the [active] flag.  GRANT and REVOKE (any number of event types), and the
    manager-level permission operations, leave the flag of EVERY account unchanged; a command
    changes the flag of account [id] only if it is an executed CREATE USER [id] (absent -> active)
    or REVOKE KEY [id] (-> inactive); over all histories (gates, sessions, restart included) an
    account whose key was revoked never becomes active again. *)
Theorem C13_perm_commands_keep_active : forall s who r w ts uid k id,
  active_of (snd (dispatch s who (CGrant r w ts uid) k)) id = active_of s id /\
  active_of (snd (dispatch s who (CRevokePerm r w ts uid) k)) id = active_of s id.
Proof. exact perm_commands_keep_active. Qed.
Print Assumptions C13_perm_commands_keep_active.

Theorem C13_grant_permission_keeps_active : forall s id0 t p id,
  active_of (snd (grant_permission s id0 t p)) id = active_of s id.
Proof. exact grant_permission_keeps_active. Qed.
Print Assumptions C13_grant_permission_keeps_active.

Theorem C13_revoke_permission_keeps_active : forall s id0 t id,
  active_of (snd (revoke_permission s id0 t)) id = active_of s id.
Proof. exact revoke_permission_keeps_active. Qed.
Print Assumptions C13_revoke_permission_keeps_active.

Theorem C13_dispatch_active_frame : forall s who c k id,
  let s' := snd (dispatch s who c k) in
  active_of s' id = active_of s id \/
  (exists key roles, c = CCreateUser id key roles /\ active_of s id = None /\ active_of s' id = Some true) \/
  (c = CRevokeKey id /\ active_of s' id = Some false).
Proof. exact dispatch_active_frame. Qed.
Print Assumptions C13_dispatch_active_frame.

Theorem C13_never_reactivated : forall s0 s id, reachable_from s0 s ->
  active_of s0 id = Some false -> active_of s id = Some false.
Proof. exact never_reactivated. Qed.
Print Assumptions C13_never_reactivated.

(** The permission cache answers for a user id from that user's own record only: two reachable
    states that hold the same record (or none) under [uid] answer alike, whatever other accounts
    exist in either - in particular an account whose id differs only in letter case lends nothing
    (ids are compared exactly, [alookup]).  An id without an account is granted nothing. *)
Theorem C13_can_read_own_record : forall s s' uid t, reachable s -> reachable s' ->
  alookup uid (st_users s) = alookup uid (st_users s') ->
  can_read (st_cache s) uid t = can_read (st_cache s') uid t.
Proof. exact can_read_own_record. Qed.
Print Assumptions C13_can_read_own_record.

Theorem C13_can_write_own_record : forall s s' uid t, reachable s -> reachable s' ->
  alookup uid (st_users s) = alookup uid (st_users s') ->
  can_write (st_cache s) uid t = can_write (st_cache s') uid t.
Proof. exact can_write_own_record. Qed.
Print Assumptions C13_can_write_own_record.

Theorem C13_unknown_id_denied : forall s uid t, reachable s ->
  alookup uid (st_users s) = None ->
  can_read (st_cache s) uid t = false /\ can_write (st_cache s) uid t = false.
Proof. exact unknown_id_denied. Qed.
Print Assumptions C13_unknown_id_denied.
