(** C12 — all events of a context live on one shard; unscoped reads cover all shards.
    This file contains only the property theorems, each closed by [exact], with
    [Print Assumptions] beneath.  Models: Model/SipHash.v (the routing hash of
    ShardManager::get_shard), Model/Cluster.v (n shards, routed STOREs, restarts, fan-out reads),
    Model/EventId.v (the shard tag in ids); proofs: Proofs/SipHashProofs.v, Proofs/ClusterProofs.v.
    [run_ops n ops] is the cluster after the history [ops] (STOREs with arbitrary clock readings,
    restarts) over [n] shards. *)
From Coq Require Import NArith List Permutation.
From Snel Require Import Base.Bytes Gen.Params Model.EventId Model.SipHash Model.Cluster.
From Snel Require Import Proofs.SipHashProofs Proofs.ClusterProofs.
Import ListNotations.
Open Scope N_scope.

(** The routing hash is a 64-bit value, so [as usize] loses nothing and the shard is hash mod n. *)
Theorem C12_route_is_hash_mod : forall ctx n,
  n <> 0 -> default_hash_str ctx < 2 ^ 64 /\ route ctx n = Some (default_hash_str ctx mod n).
Proof. exact (fun ctx n H => conj (default_hash_str_lt ctx) (route_is_hash_mod ctx n H)). Qed.
Print Assumptions C12_route_is_hash_mod.

(** The chosen index is a valid shard; with no shards there is no answer (the code
    panics on [% 0]). *)
Theorem C12_route_lt_n : forall ctx n r, route ctx n = Some r -> r < n.
Proof. exact route_lt_n. Qed.
Print Assumptions C12_route_lt_n.

Theorem C12_route_total : forall ctx n, n <> 0 -> exists r, route ctx n = Some r /\ r < n.
Proof. exact route_some. Qed.
Print Assumptions C12_route_total.

(** The model's hash is SipHash-1-3: reference vectors 0, 8 and 15 of the SipHash-1-3 table. *)
Theorem C12_siphash13_reference_vectors :
  siphash 1 3 506097522914230528 1084818905618843912 [] = 12370263754033579228 /\
  siphash 1 3 506097522914230528 1084818905618843912 [0;1;2;3;4;5;6;7] = 3931806377309739662 /\
  siphash 1 3 506097522914230528 1084818905618843912
    [0;1;2;3;4;5;6;7;8;9;10;11;12;13;14] = 15213397504630561110.
Proof. exact siphash13_reference_vectors. Qed.
Print Assumptions C12_siphash13_reference_vectors.

(** Every stored event sits on the shard its context routes to, in every history. *)
Theorem C12_placement : forall n ops j e,
  In (j, e) (cl_log (run_ops n ops)) -> route (ev_ctx e) n = Some j /\ j < n.
Proof. exact placement. Qed.
Print Assumptions C12_placement.

(** A read scoped FOR context [c], fanned out to all shards, is answered by shard
    [route c n] alone and returns every event of [c] ever applied, in apply order — for every
    history with restarts between the STOREs. *)
Theorem C12_ctx_locality : forall n ops c i,
  route c n = Some i ->
  let st := run_ops n ops in
  read_scoped st c = filter (for_ctx c) (shard_events st i) /\
  read_scoped st c = filter (for_ctx c) (applied st).
Proof. exact ctx_locality. Qed.
Print Assumptions C12_ctx_locality.

(** An unscoped read is the union of all shards: every applied event exactly once. *)
Theorem C12_fanout_union : forall n ops,
  Permutation (read_all (run_ops n ops)) (applied (run_ops n ops)).
Proof. exact fanout_union. Qed.
Print Assumptions C12_fanout_union.

(** Two events of one context were applied by the same shard and their ids
    carry the same shard bits, namely the (cast, masked) index of that shard. *)
Theorem C12_shard_tag_const : forall n ops j1 e1 j2 e2,
  In (j1, e1) (cl_log (run_ops n ops)) -> In (j2, e2) (cl_log (run_ops n ops)) ->
  ev_ctx e1 = ev_ctx e2 ->
  j1 = j2 /\ id_shard (ev_id e1) = id_shard (ev_id e2) /\
  id_shard (ev_id e1) = shard_component j1.
Proof. exact shard_tag_const. Qed.
Print Assumptions C12_shard_tag_const.

(** With at most 2^SHARD_ID_BITS shards the tag read off an id is the routing target itself. *)
Theorem C12_shard_tag_is_route : forall n ops j e,
  n <= 2 ^ id_shard_bits -> In (j, e) (cl_log (run_ops n ops)) ->
  route (ev_ctx e) n = Some (id_shard (ev_id e)).
Proof. exact shard_tag_is_route. Qed.
Print Assumptions C12_shard_tag_is_route.
